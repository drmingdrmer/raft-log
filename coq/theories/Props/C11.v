(* C11 — The on-disk journal is an exact, gap-free record of accepted writes.
   Pinned statements only; proofs are in Proofs/JournalDisk.v, JournalChunk.v,
   JournalFacts.v (NamesFacts.v for the file-name codec, DumpFacts.v for the dumps, CacheRestart.v
   for the invariant across restarts). *)
From Coq Require Import List NArith Sorted.
From RaftLog Require Import Base.Bytes Model.Types Model.Codec Model.Cache Model.Core Model.Recover Model.Run.
From RaftLog Require Import Model.Names Model.Dump Proofs.CodecFacts Proofs.JournalDisk Proofs.JournalChunk Proofs.JournalFacts Proofs.NamesFacts Proofs.DumpFacts.
From RaftLog Require Proofs.CacheRestart.
Import ListNotations.
Local Open Scope N_scope.

(* [logical y] is the directory as it will be once the worker has processed its queue
   and the caller's buffered bytes are flushed; after flush + idle it IS the directory: *)
Theorem C11_idle_disk_is_journal : forall y, journal_wf y ->
  y_queue y = [] -> k_pending (y_core y) = [] -> logical y = y_disk y.
Proof. exact JournalFacts.C11_idle_disk_is_journal. Qed.

(* the structural invariant holds in every state reachable from an empty directory by
   any history of well-formed operations (any arguments, refused writes, purges, flushes,
   worker progress, update_state; restarts excluded here, see C02) *)
Theorem C11_invariant : forall cfg ops res y,
  ops_c11 ops = true -> Forall op_wf ops ->
  run_case cfg ops = (res, Some y) -> journal_wf y.
Proof. exact JournalFacts.C11_invariant. Qed.

(* ... and with restarts anywhere in the history (any configuration at each restart, unflushed
   bytes lost at the restart; update_state excluded) *)
Theorem C11_invariant_restarts : forall cfg ops res y,
  forallb CacheRestart.op_c15 ops = true -> Forall op_wf ops ->
  run_case cfg ops = (res, Some y) -> journal_wf y.
Proof. exact CacheRestart.C11_invariant_restarts. Qed.

(* what the invariant says: file names are global offsets, files abut, every file is a
   sequence of records headed by a state snapshot equal to the closing state of its
   predecessor, chunk offset tables are those of the records, and every index entry
   points at the encoding of its own Append record *)
Theorem C11_structure : forall y, journal_wf y ->
  let k := y_core y in
  let D := logical y in
  let o := ck_id (k_open k) in
  ids D = k_removed k ++ map (fun c => ck_id (cl_chunk c)) (k_closed k) ++ [o] /\
  StronglySorted N.lt (ids D) /\
  (forall pre a b post, ids D = pre ++ a :: b :: post ->
     b = a + N.of_nat (length (file_bytes D a))) /\
  (forall c, In c (map cl_chunk (k_closed k) ++ [k_open k]) ->
     exists rs, Forall wf_record rs /\ file_bytes D (ck_id c) = encs rs /\
                ck_ends c = ends_from (ck_id c) (map rec_size rs) /\
                exists st tl, rs = RState st :: tl) /\
  heads_ok (file_bytes D) (k_closed k) o /\
  (exists older pl, y_files (worker_idle y) = older ++ [mkWF o pl]) /\
  (forall i ld, In (i, ld) (m_log (k_sm k)) ->
     wf_pair (ld_id ld) /\ ld_chunk ld <= o /\
     (In (ld_chunk ld) (ids D) ->
      exists pre p post, wf_bytes p /\
        file_bytes D (ld_chunk ld) = pre ++ enc_record (RAppend (ld_id ld) p) ++ post /\
        ld_off ld = ld_chunk ld + N.of_nat (length pre) /\
        ld_len ld = rec_size (RAppend (ld_id ld) p))).
Proof. exact JournalFacts.C11_structure. Qed.

(* one record per accepted write, in call order: an accepted record appends exactly its
   encoding to the open chunk's file; the returned segment is where it is; nothing else
   changes; a rotation starts a file named by the end offset whose content is the
   snapshot of the state at that moment *)
Theorem C11_write_appends : forall y r k' off len effs, journal_wf y ->
  append_and_apply (y_core y) r = Ret (k', WOk off len, effs) -> wf_record r ->
  let y' := apply_effs (with_core y k') effs in
  let oid := ck_id (k_open (y_core y)) in
  file_bytes (logical y') oid = file_bytes (logical y) oid ++ enc_record r /\
  off = oid + N.of_nat (length (file_bytes (logical y) oid)) /\ len = rec_size r /\
  (forall id, id <> oid -> id <> ck_id (k_open k') ->
     file_bytes (logical y') id = file_bytes (logical y) id) /\
  (ck_id (k_open k') <> oid ->
     ck_id (k_open k') = oid + N.of_nat (length (file_bytes (logical y') oid)) /\
     file_bytes (logical y') (ck_id (k_open k')) = enc_record (RState (m_rs (k_sm k')))).
Proof. exact JournalFacts.C11_write_appends. Qed.

(* a file is closed as soon as it reaches a limit: after every accepted write the open
   chunk is below both limits or holds only its head snapshot (limits 0 and 1 included) *)
Theorem C11_rotation : forall k r k' off len effs,
  append_and_apply k r = Ret (k', WOk off len, effs) ->
  is_full (k_cfg k') (k_open k') = true -> ck_records (k_open k') = 1%N.
Proof. exact JournalChunk.C11_rotation. Qed.

(* the reported on-disk size is the number of bytes from the oldest retained chunk to the journal end *)
Theorem C11_on_disk_size : forall y, journal_wf y ->
  do_on_disk_size (y_core y) =
  nsum (map (fun id => N.of_nat (length (file_bytes (logical y) id)))
            (closed_ids (y_core y) ++ [ck_id (k_open (y_core y))])).
Proof. exact JournalFacts.C11_on_disk_size. Qed.

(* the file-name encoding, for all u64 offsets: it round-trips through the parser, is
   injective, and numeric order of offsets is lexicographic order of names *)
Theorem C11_name_roundtrip : forall n, (n <= U64MAX)%N ->
  parse_chunk_file_name (chunk_file_name n) = Some n.
Proof. exact NamesFacts.C11_name_roundtrip. Qed.
Theorem C11_name_order : forall n m, (n <= U64MAX)%N -> (m <= U64MAX)%N -> (n < m)%N ->
  bytes_ltb (chunk_file_name n) (chunk_file_name m) = true.
Proof. exact NamesFacts.C11_name_order. Qed.

(* What the Dump API shows (Model/Dump.v: dump_ref = RaftLog::dump(), dump_dir = the
   standalone Dump): after any history followed by flush + idle, both dumpers agree, report
   no error item, visit exactly the chunk files of the directory, and list exactly the
   journal: for every live chunk its records in order, each file starting with a state
   snapshot, each item with its file-local offset and size. *)
Theorem C11_dump_after_flush_idle : forall cfg ops cb res y,
  ops_c11 ops = true -> Forall op_wf ops ->
  run_case cfg (ops ++ [OFlush cb; OIdle]) = (res, Some y) ->
  let k := y_core y in
  let d := y_disk y in
  dump_ref k d = dump_dir d /\
  Forall (fun it => ditem_is_err it = false) (dump_ref k d) /\
  ids d = dump_ref_ids k /\
  exists rss : list (list record),
    Forall2 (chunk_records (file_bytes d)) (live_chunks k) rss /\
    dump_ref k d = journal_items (live_chunks k) rss /\
    dump_records (dump_ref k d) = concat rss.
Proof. exact DumpFacts.C11_dump_after_flush_idle. Qed.

(* without the flush the two dumpers can differ: chunk files whose removal is still
   buffered in the caller are on disk but no longer tracked (witness) *)
Theorem C11_dump_is_journal_refuted : exists cfg ops res y,
  ops_c11 ops = true /\ Forall op_wf ops /\ run_case cfg ops = (res, Some y) /\
  y_queue y = [] /\ k_pending (y_core y) = [] /\
  dump_ref (y_core y) (y_disk y) <> dump_dir (y_disk y).
Proof. exact DumpFacts.C11_dump_is_journal_refuted. Qed.

(* a file of complete records dumps as exactly those records *)
Theorem C11_dump_file_encs : forall id rs, Forall wf_record rs ->
  dump_file id (JournalChunk.encs rs) = recs_items id 0 0 rs.
Proof. exact DumpFacts.dump_file_encs. Qed.

Print Assumptions C11_dump_after_flush_idle.
Print Assumptions C11_dump_is_journal_refuted.
Print Assumptions C11_name_roundtrip.
Print Assumptions C11_name_order.
Print Assumptions C11_invariant.
Print Assumptions C11_write_appends.
Print Assumptions C11_structure.
Print Assumptions C11_invariant_restarts.
