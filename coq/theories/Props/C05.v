(* C05 — Crash recoverability: the store opens after any crash and stays usable.
   Pinned statements only; proofs are in Proofs/CrashBase.v, CrashJournal.v, CrashSteps.v,
   CrashRecover.v; for later incarnations in Proofs/RestartCrash.v, RestartCrashImg.v, RestartCrashIter.v,
   RestartCrashErase.v, RestartCrashErase2.v and RestartChain.v. The property is NOT true of the code in full (known finding F3): the
   refutation is a machine-checked witness and the positive theorem covers every crash
   image outside the known class. The crash model is [crash_image] of Model/Sys.v. *)
From Coq Require Import List NArith.
From RaftLog Require Import Base.Bytes Model.Types Model.Cache Model.Core Model.Recover Model.Run Model.Sys.
From RaftLog Require Import Spec.Durable Proofs.NoPanic Proofs.CrashSteps Proofs.CrashRecover.
From RaftLog Require Proofs.CodecFacts Proofs.ScanFacts Proofs.RestartSys Proofs.RestartCrash Proofs.RestartCrashImg Proofs.RestartChain Proofs.RestartCrashIter Proofs.RestartCrashErase Proofs.RestartCrashErase2.
Import ListNotations.

(* Finding F3: a vote that fills the chunk (chunk_max_records = 2) rotates; right after the
   caller has created the new file and written its head — before any worker step — the
   process-crash image has an older file shorter than the next file's name, and open
   refuses with the gap error. *)
Theorem C05_refuted_gap :
  exists z d', zreach gap_cfg z /\ hist_wf z /\ crash_image z d' /\ gap_class d' /\
               exists dd, open_dir gap_cfg d' = OpenErr EGap dd.
Proof. exact CrashRecover.C05_refuted_gap. Qed.

(* Outside that class: for EVERY reachable state of the caller/worker/file-system system
   (any interleaving, batching, injected failures, worker death, crashes between and
   inside calls of both threads), EVERY crash image of it in which no older file stops
   short of the next file's name, and every configuration with tail truncation enabled:
   the directory opens, and the recovered store never panics whatever is done with it
   (further writes, flushes, reads, restarts). *)
Theorem C05_recovers_outside_known : forall cfg cfg' z d',
  zreach cfg z -> hist_wf z -> crash_image z d' ->
  ~ gap_class d' -> c_truncate cfg' = true ->
  exists y', open_dir cfg' d' = OpenOk y' /\ sys_ok y' /\
             (forall ops res fin, run_ops y' ops = (res, fin) -> ~ In ResPanic res).
Proof. exact CrashRecover.C05_recovers_outside_known. Qed.

(* the image with every completed write kept is one of the crash images *)
Theorem C05_process_crash_is_image : forall cfg z,
  zreach cfg z -> crash_image z (process_crash_image z).
Proof. exact CrashRecover.process_crash_is_image. Qed.

(* ---- the same for a store instance started on a NON-EMPTY directory (a restart, clean or
   after an earlier crash): [dir_ok d] = file ids strictly increasing, synced <= written, every
   file but the newest completely synced, and [dir_chained d]: every file that holds a complete
   record starts with a state snapshot whose replay through the file's records ends in the next
   file's head state (open_dir itself checks neither; every directory the crate writes has it).
   For EVERY state reachable from opening such a directory, every crash image of it outside the
   gap class opens under every configuration with truncation enabled, and the recovered store
   never panics. *)
Theorem C05_recovers_outside_known_from : forall cfg cfg' d z d',
  RestartCrash.dir_ok d -> RestartSys.zreach_from cfg d z -> hist_wf z -> crash_image z d' ->
  ~ gap_class d' -> c_truncate cfg' = true ->
  exists y', open_dir cfg' d' = OpenOk y' /\ sys_ok y' /\
             (forall ops res fin, run_ops y' ops = (res, fin) -> ~ In ResPanic res).
Proof. exact RestartCrashImg.C05_recovers_outside_known_from. Qed.

(* what open_dir leaves behind, for ANY sorted directory that opens: every file is a whole
   number of well-formed records (at least one) *)
Theorem C05_open_dir_whole : forall cfg d y,
  disk_sorted d -> open_dir cfg d = OpenOk y ->
  Forall (fun p => exists rs, f_data p = ScanFacts.encs rs /\ Forall CodecFacts.wf_record rs /\ rs <> []) (y_disk y).
Proof. exact RestartCrash.open_dir_whole. Qed.

(* non-vacuity: a directory left by a crash (newest file torn inside its head record) meets the
   hypotheses and opens; the reopened store rotates, crashes in the middle of the worker's
   batch, and that image opens again *)
Theorem C05_from_nonvacuous :
  (RestartCrash.dir_ok RestartCrashImg.torn_dir /\ length RestartCrashImg.torn_dir = 2%nat /\
   exists z0, zinit RestartSys.demo_cfg RestartCrashImg.torn_dir = Some z0) /\
  exists z, RestartSys.zreach_from RestartSys.demo_cfg RestartCrashImg.torn_dir z /\ hist_wf z /\
            crash_image z (z_disk z) /\ ~ gap_class (z_disk z) /\
            exists y', open_dir RestartSys.demo_cfg (z_disk z) = OpenOk y'.
Proof. split; [exact RestartCrashImg.torn_dir_ok | exact RestartCrashImg.torn_dir_recovers]. Qed.

(* after a MACHINE crash and reboot everything that is on disk is durable ([reboot d']: the
   image with every file marked synced; open_dir ignores the synced marks: open_dir_deq): the
   image outside the gap class opens, and the instance started on it satisfies the L2
   durability and ordering contracts (C04/C08), whatever it does *)
Theorem C05_reboot_next_instance : forall cfg cfg' z1 d',
  zreach cfg z1 -> hist_wf z1 -> crash_image z1 d' ->
  ~ gap_class d' -> c_truncate cfg' = true ->
  exists z0, zinit cfg' (RestartChain.reboot d') = Some z0 /\
    forall z2, RestartSys.zreach_from cfg' (RestartChain.reboot d') z2 -> RestartChain.contracts z2.
Proof. exact RestartChain.C05_reboot_next_instance. Qed.

(* ---- crash, reboot, reopen, crash again, ... : every crash image outside the gap class is
   again a chained directory, and after a reboot (everything on disk durable) it meets [dir_ok];
   so the theorem iterates: the instance may itself have been started on a [dir_ok] directory
   (for instance the rebooted crash image of ITS predecessor), any number of times *)
Theorem C05_crash_image_chained_from : forall cfg d z d',
  RestartCrash.dir_ok d -> RestartSys.zreach_from cfg d z -> hist_wf z -> crash_image z d' ->
  ~ gap_class d' -> RestartCrash.dir_ok (RestartCrashIter.reboot d').
Proof. exact RestartCrashIter.crash_reboot_ok_from. Qed.

Theorem C05_recovers_again : forall cfg cfg' cfg'' d z1 d1 z2 d2,
  RestartCrash.dir_ok d -> RestartSys.zreach_from cfg d z1 -> hist_wf z1 -> crash_image z1 d1 -> ~ gap_class d1 ->
  RestartSys.zreach_from cfg' (RestartCrashIter.reboot d1) z2 -> hist_wf z2 -> crash_image z2 d2 -> ~ gap_class d2 ->
  c_truncate cfg'' = true ->
  exists y, open_dir cfg'' d2 = OpenOk y /\ sys_ok y /\
            (forall ops res fin, run_ops y ops = (res, fin) -> ~ In ResPanic res).
Proof. exact RestartCrashIter.C05_recovers_again. Qed.

(* the synced marks of the START directory do not matter for recoverability (they matter for
   the durability contracts of C04/C08): a lock-step simulation against the run from the
   rebooted directory shows that the journal invariant never reads them.  So for ANY sorted,
   chained directory — whatever a previous process left unsynced in older files — every crash
   image of the new instance outside the gap class opens and the recovered store never panics *)
Theorem C05_recovers_outside_known_from_any_marks : forall cfg cfg' d z d',
  disk_sorted d -> RestartCrash.dir_chained d -> RestartSys.zreach_from cfg d z -> hist_wf z ->
  crash_image z d' -> ~ gap_class d' -> c_truncate cfg' = true ->
  exists y', open_dir cfg' d' = OpenOk y' /\ sys_ok y' /\
             (forall ops res fin, run_ops y' ops = (res, fin) -> ~ In ResPanic res).
Proof. exact RestartCrashErase.C05_recovers_outside_known_from_any_marks. Qed.

(* ... and the pair (sorted, chained) is preserved by "run, crash outside the gap class", so
   crash -> reopen -> crash iterates with no reboot step and no assumption on synced marks *)
Theorem C05_crash_image_chained_any : forall cfg d z d',
  disk_sorted d -> RestartCrash.dir_chained d -> RestartSys.zreach_from cfg d z -> hist_wf z ->
  crash_image z d' -> ~ gap_class d' -> disk_sorted d' /\ RestartCrash.dir_chained d'.
Proof. exact RestartCrashErase2.crash_image_chained_any. Qed.

Theorem C05_recovers_again_any : forall cfg cfg' cfg'' d z1 d1 z2 d2,
  disk_sorted d -> RestartCrash.dir_chained d -> RestartSys.zreach_from cfg d z1 -> hist_wf z1 ->
  crash_image z1 d1 -> ~ gap_class d1 -> RestartSys.zreach_from cfg' d1 z2 -> hist_wf z2 ->
  crash_image z2 d2 -> ~ gap_class d2 -> c_truncate cfg'' = true ->
  exists y, open_dir cfg'' d2 = OpenOk y /\ sys_ok y /\
            (forall ops res fin, run_ops y ops = (res, fin) -> ~ In ResPanic res).
Proof. exact RestartCrashErase2.C05_recovers_again_any. Qed.

Print Assumptions C05_refuted_gap.
Print Assumptions C05_recovers_outside_known.
Print Assumptions C05_recovers_outside_known_from.
Print Assumptions C05_from_nonvacuous.
Print Assumptions C05_reboot_next_instance.
Print Assumptions C05_recovers_again.
Print Assumptions C05_recovers_outside_known_from_any_marks.
Print Assumptions C05_recovers_again_any.
