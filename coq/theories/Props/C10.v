(* C10 — Torn or zero-filled tail: exactly the longest complete prefix is recovered.
   Pinned statements only; proofs are in Proofs/ScanFacts.v and Proofs/RecoverFacts.v (the dump
   theorems in Proofs/DumpFacts.v).

   The newest chunk file is [encs rs ++ tl]: complete records [rs] followed by a tail
   [tl] that is empty, a non-empty proper prefix of a well-formed record (a cut inside
   a record), or a run of zeros of any length >= 1. By [cut_tail_shape] every cut
   position 0..len of a clean file has this shape, with rs = the complete records
   below the cut (possibly none). *)
From Coq Require Import List NArith.
From RaftLog Require Import Base.Bytes Model.Types Model.Codec Model.Cache Model.Core Model.Recover Model.Run.
From RaftLog Require Import Model.Dump Proofs.CodecFacts Proofs.ScanFacts Proofs.RecoverFacts Proofs.JournalChunk Proofs.DumpFacts.
Import ListNotations.
Local Open Scope N_scope.

(* every cut of a clean file is "complete records + a torn record" *)
Theorem C10_every_cut_has_this_shape : forall rs p, Forall wf_record rs -> (p <= length (encs rs))%nat ->
  exists k q, firstn p (encs rs) = encs (firstn k rs) ++ q /\
              Forall wf_record (firstn k rs) /\ tail_shape q.
Proof. exact RecoverFacts.cut_tail_shape. Qed.

Section C10.
Variable cfg : config.
Variable older : list file.
Variables id syn : N.
Variable rs : list record.
Variable tl : bytes.
Variable a : open_acc.          (* the state accumulated from the older chunks *)

(* the older chunks open without error (possibly after truncations of their own) *)
Hypothesis Holder :
  open_older cfg older (acc0 cfg (older ++ [mkFile id (encs rs ++ tl) syn])) = inl a.
(* the file is the newest one and follows the previous chunk without a gap *)
Hypothesis Hids : Forall (fun g => f_id g < id) older.
Hypothesis Hgap : oa_prev_end a = Some id \/ older = [].
Hypothesis Hrs : Forall wf_record rs.
Hypothesis Htl : tail_shape tl.

Theorem C10_longest_prefix_open : forall s1,
  (* truncation of incomplete records enabled (not needed for a complete file) *)
  c_truncate cfg = true \/ tl = [] ->
  (* the complete records replay without a validation error *)
  replay (sm_pre a) id id rs (ends_from id (map rec_size rs)) = (s1, None) ->
  exists y,
    open_dir cfg (older ++ [mkFile id (encs rs ++ tl) syn]) = OpenOk y /\
    (* Raft state and index map: the older chunks, then exactly the complete records *)
    m_rs (k_sm (y_core y)) = m_rs s1 /\
    m_log (k_sm (y_core y)) = m_log s1 /\
    (rs <> [] -> k_sm (y_core y) = s1) /\
    (rs = [] -> k_sm (y_core y) = oa_sm a) /\
    (* complete file: untouched and reopened for appending *)
    (tl = [] -> rs <> [] ->
       y_disk y = oa_disk a /\ k_open (y_core y) = chunk_of id rs /\
       k_closed (y_core y) = oa_closed a) /\
    (* discarded tail: cut back to the records; a fresh chunk starts at the cut *)
    (tl <> [] -> rs <> [] ->
       let len := N.of_nat (length (encs rs)) in
       let head := enc_record (RState (m_rs s1)) in
       y_disk y = disk_put (mkFile (id + len) head 0)
                           (disk_put (mkFile id (encs rs) len) (oa_disk a)) /\
       k_open (y_core y) = mkChunk (id + len) [id + len + N.of_nat (length head)] /\
       k_closed (y_core y) = oa_closed a ++ [mkClosed (chunk_of id rs) (m_rs s1) true]) /\
    (* no complete record: the file is removed; either the last closed chunk is
       reopened or the file is created again with a head record *)
    (rs = [] ->
       match reusable (oa_closed a) with
       | Some (init, lastc) =>
         y_disk y = disk_remove id (oa_disk a) /\ k_open (y_core y) = cl_chunk lastc /\
         k_closed (y_core y) = init
       | None =>
         let head := enc_record (RState (m_rs (oa_sm a))) in
         y_disk y = disk_put (mkFile id head 0) (disk_remove id (oa_disk a)) /\
         k_open (y_core y) = mkChunk id [id + N.of_nat (length head)] /\
         k_closed (y_core y) = oa_closed a
       end) /\
    (* nothing is queued *)
    k_pending (y_core y) = [] /\ y_queue y = [].
Proof. exact (RecoverFacts.C10_longest_prefix_open cfg older id syn rs tl a Holder Hids Hgap Hrs Htl). Qed.

Theorem C10_truncate_disabled :
  c_truncate cfg = false -> tl <> [] ->
  exists e, (e = EDecodeEof \/ e = EDecodeInvalid) /\
    open_dir cfg (older ++ [mkFile id (encs rs ++ tl) syn]) =
    OpenErr e (older ++ [mkFile id (encs rs ++ tl) syn]).
Proof. exact (RecoverFacts.C10_truncate_disabled cfg older id syn rs tl a Holder Hids Hgap Hrs Htl). Qed.

End C10.

(* The Dump API on such a file (Model/Dump.v): exactly the complete records, each with
   its offset and size, then ONE error item carrying the number of complete records:
   UnexpectedEof for a cut inside a record or fewer than 28 zero bytes. *)
Theorem C10_dump_torn : forall id rs r tl,
  Forall wf_record rs -> wf_record r -> pprefix tl (enc_record r) -> tl <> [] ->
  dump_file id (JournalChunk.encs rs ++ tl) = recs_items id 0 0 rs ++ [DErr id (length rs) SEof].
Proof. exact DumpFacts.dump_file_torn. Qed.
Theorem C10_dump_zero_tail_short : forall id rs z,
  Forall wf_record rs -> (1 <= z)%nat -> (z < 28)%nat ->
  dump_file id (JournalChunk.encs rs ++ zeros z) = recs_items id 0 0 rs ++ [DErr id (length rs) SEof].
Proof. exact DumpFacts.dump_file_zero_tail_short. Qed.

Print Assumptions C10_dump_torn.
Print Assumptions C10_longest_prefix_open.
Print Assumptions C10_truncate_disabled.
Print Assumptions C10_every_cut_has_this_shape.
