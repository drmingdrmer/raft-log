(* C15 — Payload cache accounting is exact; only pinned entries may exceed the limits.
   Pinned statements only; proofs are in Proofs/CacheFacts.v and Proofs/CacheSys.v; across restarts
   in Proofs/CacheRestart.v. *)
From Coq Require Import List NArith.
From RaftLog Require Import Base.Bytes Model.Types Model.Cache Model.Core Model.Recover Model.Run.
From RaftLog Require Import Proofs.CacheFacts Proofs.CacheSys Proofs.JournalFacts.
From RaftLog Require Proofs.CacheRestart.
Import ListNotations.

(* In every state reachable from an empty directory by any operations with any
   arguments (accepted or refused writes of the six kinds, flushes, reads, stats,
   worker progress, forced drains), the size counter equals the total payload size of
   the resident entries and the keys are distinct. *)
Theorem C15_counts_exact : forall cfg ops res y,
  ops_no_restart ops = true ->
  run_case cfg ops = (res, Some y) ->
  cache_ok (m_cache (k_sm (y_core y))).
Proof. exact CacheSys.C15_counts_exact. Qed.

(* what stat() reports *)
Theorem C15_stat_exact : forall cfg ops res y,
  ops_no_restart ops = true ->
  run_case cfg ops = (res, Some y) ->
  let es := ch_entries (m_cache (k_sm (y_core y))) in
  st_items (do_stat (y_core y)) = N.of_nat (length es) /\
  st_size (do_stat (y_core y)) = total es /\ NoDup (map fst es).
Proof. exact CacheSys.C15_stat_exact. Qed.

(* after an accepted append, a cache over either limit holds only entries above the
   eviction boundary in force at that append *)
Theorem C15_over_limit_pinned : forall cfg ops res y es y' o l,
  ops_no_restart ops = true -> run_case cfg ops = (res, Some y) -> es <> [] ->
  run_op y (OW (OAppend es)) = (Some y', ResW (WOk o l)) ->
  let c := m_cache (k_sm (y_core y)) in
  let c' := m_cache (k_sm (y_core y')) in
  need_evict c' (length (ch_entries c')) (ch_size c') = true ->
  forall id p, In (id, p) (ch_entries c') -> opair_leb (Some id) (ch_evictable c) = false.
Proof. exact CacheSys.C15_over_limit_pinned. Qed.

(* after draining, no resident entry lies at or below the boundary *)
Theorem C15_drain : forall cfg ops res y y' r,
  ops_no_restart ops = true -> run_case cfg ops = (res, Some y) ->
  run_op y ODrain = (Some y', r) ->
  let c' := m_cache (k_sm (y_core y')) in
  ch_evictable c' = ch_evictable (m_cache (k_sm (y_core y))) /\
  forall id p, In (id, p) (ch_entries c') -> opair_leb (Some id) (ch_evictable c') = false.
Proof. exact CacheSys.C15_drain. Qed.

(* the same with restarts anywhere in the history: any configuration and any cache limits
   (0/0 included) at every restart, unflushed bytes lost at a restart, refused writes and
   Raft-illegal purges included; only update_state (which installs an arbitrary state) is
   excluded. Arguments are well-formed (u64 / u32 ranges) so that recovery decodes what was
   written. *)
Theorem C15_counts_exact_restarts : forall cfg ops res y,
  forallb CacheRestart.op_c15 ops = true -> Forall op_wf ops ->
  run_case cfg ops = (res, Some y) ->
  cache_ok (m_cache (k_sm (y_core y))).
Proof. exact CacheRestart.C15_counts_exact_restarts. Qed.

Theorem C15_stat_exact_restarts : forall cfg ops res y,
  forallb CacheRestart.op_c15 ops = true -> Forall op_wf ops ->
  run_case cfg ops = (res, Some y) ->
  let es := ch_entries (m_cache (k_sm (y_core y))) in
  st_items (do_stat (y_core y)) = N.of_nat (length es) /\
  st_size (do_stat (y_core y)) = total es /\ NoDup (map fst es).
Proof. exact CacheRestart.C15_stat_exact_restarts. Qed.

(* on these histories a restart never fails: recovery replays exactly the records that
   were validated when they were written *)
Theorem C15_restart_always_opens : forall cfg ops res y,
  forallb CacheRestart.op_c15 ops = true -> Forall op_wf ops ->
  run_case cfg ops = (res, Some y) ->
  forall cfg', exists y', run_op y (ORestart cfg') = (Some y', ResOpened).
Proof. intros cfg ops res y H1 H2 H3 cfg'. exact (CacheRestart.C15_restart_always_opens cfg ops res y cfg' H1 H2 H3). Qed.

(* non-vacuity: a reachable state with a rotation, a truncation and a refused write *)
Example C15_reachable_example :
  exists res y, run_case (mkConfig 1 10 2 1000 true)
    [OW (OAppend [((1,0), [Byte.x61]); ((1,1), [Byte.x62; Byte.x63])]); OFlush true; OIdle;
     OW (OAppend [((1,1), [Byte.x64])]); OW (OTruncate 1); OW (OAppend [((2,1), [])]); ODrain]%N
    = (res, Some y) /\ ch_size (m_cache (k_sm (y_core y))) = total (ch_entries (m_cache (k_sm (y_core y)))).
Proof.
  (* only what is claimed of [y] is evaluated: the kernel's lazy machine, which coqchk uses for a
     [vm_compute] step, does not normalise the rest of the state.  [clearbody r] then forgets what [r] is,
     so that the [destruct] below splits a variable and nothing evaluates the run a second time. *)
  set (r := run_case _ _).
  assert (H : match snd r with
              | Some y => N.eqb (ch_size (m_cache (k_sm (y_core y)))) (total (ch_entries (m_cache (k_sm (y_core y)))))
              | None => false
              end = true) by (vm_compute; reflexivity).
  clearbody r. destruct r as [res [y|]]; [|discriminate H].
  exists res, y. split; [reflexivity|apply N.eqb_eq, H].
Qed.

Print Assumptions C15_counts_exact_restarts.
Print Assumptions C15_counts_exact.
Print Assumptions C15_over_limit_pinned.
Print Assumptions C15_drain.
