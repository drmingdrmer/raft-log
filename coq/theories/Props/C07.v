(* C07 — Reads are independent of cache limits and background-worker progress.
   Pinned statements only; proofs are in Proofs/ReadCache.v, ReadInv.v, ReadFacts.v; for the small-step
   system in Proofs/ReadSys.v and ReadSysFaults.v; across restarts in Proofs/ReadRestart.v and ReadRestarts.v.
   The property is NOT true of the code in full (known finding F2): the refutation is
   carried as a machine-checked witness, and the positive theorem covers every history
   outside the known class. *)
From Coq Require Import List NArith.
From RaftLog Require Import Base.Bytes Model.Types Model.Cache Model.Core Model.Recover Model.Run.
From RaftLog Require Import Spec.Spec Spec.Hist.
From RaftLog Require Import Model.Sys Proofs.JournalFacts Proofs.ReadInv Proofs.ReadFacts.
From RaftLog Require Proofs.PurgeFacts Proofs.PurgeLive Proofs.ReadSys Proofs.ReadSysFaults Proofs.ReadRestart Proofs.ReadRestarts Proofs.RestartCycles.
Import ListNotations.

(* Finding F2: a Raft-legal history (append three entries at term 5, flush, worker idle,
   truncate everything, append (1,0)) under a cache of zero items after which reading
   the live entry 0 returns an error, and the store does not show the reference log. *)
Theorem C07_refuted_live : exists cfg ops res fin,
  ops_plain spec0 ops = true /\ run_case cfg ops = (res, fin) /\
  sp_entries (spec_ops spec0 ops) = [((1, 0), [])]%N /\
  res = [ResW (WOk 82 32); ResUnit; ResUnit; ResW (WOk 148 13); ResW (WOk 161 32);
         ResRead [RIErr KNotFound]]%N /\
  exists y, fin = Some y /\ ~ observes y (spec_ops spec0 ops).
Proof. exact ReadFacts.C07_refuted_live. Qed.

(* Outside the known class — every appended log id is above every eviction boundary in
   force or still to be installed by the worker ([bounds y]: the cache's boundary, the
   prev_last of every file the worker tracks and of every queued AppendFile), checked
   along the run by [run_ok_c07b] — for ANY cache limits (0 included), any chunk limits,
   drains and worker progress at any point: the run never panics and every range read and
   the snapshot iteration return exactly the reference log's entries with their payloads. *)
Theorem C07_reads_total_outside_known : forall cfg ops res fin,
  ops_c07 spec0 ops = true -> Forall op_wf ops ->
  (match open_dir cfg [] with OpenOk y0 => run_ok_c07b y0 ops = true | _ => False end) ->
  run_case cfg ops = (res, fin) ->
  exists y, fin = Some y /\ observes y (spec_ops spec0 ops).
Proof. exact ReadFacts.C07_reads_total_outside_known_partial. Qed.

(* the known class cannot be narrowed to the boundary in force alone: with that weaker
   side condition the statement is false (a boundary queued in an AppendFile is installed
   later and then evicts an entry re-appended in the meantime) *)
Theorem C07_boundary_in_force_is_not_enough : exists cfg ops res fin,
  ops_c07 spec0 ops = true /\ Forall op_wf ops /\
  (match open_dir cfg [] with OpenOk y0 => run_ok_c07 y0 ops = true | _ => False end) /\
  run_case cfg ops = (res, fin) /\
  ~ (exists y, fin = Some y /\ observes y (spec_ops spec0 ops)).
Proof. exact ReadFacts.C07_reads_total_outside_known_refuted. Qed.

(* The same on the L2 system: EVERY interleaving of caller calls with worker steps at
   system-call granularity (data still buffered, queued, in flight, written, synced,
   evicted), any batching, failing writes/syncs/unlinks and worker death. Between API
   calls, for a Raft-legal history of well-formed writes in which every append was above
   all boundaries (in force, pending in the worker's files/batch/queue, or lost with a dead
   worker; checked along the run by [zrun_ok_c07f]): the reported state, every range read
   and the snapshot iteration are exactly the reference log's. *)
Theorem C07_reads_total_outside_known_L2 : forall cfg es z v,
  zrun (PurgeFacts.z0_of cfg) es = Some (z, v) ->
  ReadSysFaults.zrun_ok_c07f (PurgeFacts.z0_of cfg) [] es = true ->
  PurgeLive.hist_legal z -> Forall wop_wf (PurgeLive.hist z) -> z_todo z = [] ->
  let sp := PurgeLive.spec_wops spec0 (PurgeLive.hist z) in
  m_rs (k_sm (z_core z)) = spec_state sp /\
  (forall from to, read_ok (snd (do_read (z_core z) (z_disk z) from to)) (spec_read sp from to)) /\
  read_ok (do_dump_iter (z_core z) (z_disk z)) (sp_entries sp).
Proof. exact ReadSysFaults.C07_reads_total_outside_known_L2_faults. Qed.

(* ---- across a clean restart, under ANY cache limits of the reopening run (0 included):
   after a history outside the known class, flushed and with the worker idle, if no live
   entry stored in the newest chunk file lies at or below the boundary the restart installs
   for that file ([restart_ok]: the F2 class as it shows at a restart; the boundary is the
   [last] of the snapshot heading that file), the directory opens under any configuration and
   the reopened store reads exactly the reference log (state, every range, snapshot
   iteration) and satisfies the read invariant I7 again ... *)
Theorem C07_restart_reads_total : forall cfg cfg' ops res y,
  ops_c07 spec0 ops = true -> Forall op_wf ops ->
  (match open_dir cfg [] with OpenOk y0 => run_ok_c07b y0 ops = true | _ => False end) ->
  run_case cfg ops = (res, Some y) ->
  y_queue y = [] -> k_pending (y_core y) = [] ->
  ReadRestart.restart_ok y = true ->
  exists y', open_dir cfg' (y_disk y) = OpenOk y' /\ observes y' (spec_ops spec0 ops) /\
             I7 y' (spec_ops spec0 ops).
Proof. exact ReadRestart.C07_restart_reads_total. Qed.

(* ... and keeps doing so for every continuation outside the known class *)
Theorem C07_restart_continue : forall cfg cfg' ops ops2 res y,
  ops_c07 spec0 ops = true -> Forall op_wf ops ->
  (match open_dir cfg [] with OpenOk y0 => run_ok_c07b y0 ops = true | _ => False end) ->
  run_case cfg ops = (res, Some y) ->
  y_queue y = [] -> k_pending (y_core y) = [] ->
  ReadRestart.restart_ok y = true ->
  exists y', open_dir cfg' (y_disk y) = OpenOk y' /\
    forall res2 fin,
      ops_c07 (spec_ops spec0 ops) ops2 = true -> Forall op_wf ops2 -> run_ok_c07b y' ops2 = true ->
      run_ops y' ops2 = (res2, fin) ->
      exists y2, fin = Some y2 /\ observes y2 (spec_ops spec0 (ops ++ ops2)) /\
                 I7 y2 (spec_ops spec0 (ops ++ ops2)).
Proof. exact ReadRestart.C07_restart_continue. Qed.

(* F2 across a restart: a store that reads its live entry correctly becomes unable to read
   it after a clean restart under a zero-item cache (append three entries at term 5,
   truncate everything, append (1,0), flush, idle, reopen) *)
Theorem C07_restart_refuted : exists cfg cfg' ops res y,
  ops_c07 spec0 ops = true /\ Forall op_wf ops /\
  run_case cfg ops = (res, Some y) /\ y_queue y = [] /\ k_pending (y_core y) = [] /\
  sp_entries (spec_ops spec0 ops) = [((1, 0), [])]%N /\
  snd (do_read (y_core y) (y_disk y) 0 1) = [RIOk (1, 0)%N []] /\
  ReadRestart.restart_bound y = Some (5, 2)%N /\ ReadRestart.restart_ok y = false /\
  exists y', open_dir cfg' (y_disk y) = OpenOk y' /\
    snd (do_read (y_core y') (y_disk y') 0 1) = [RIErr KNotFound] /\
    ~ observes y' (spec_ops spec0 ops).
Proof. exact ReadRestart.C07_restart_refuted. Qed.

(* [restart_ok] is not an extra assumption: for a history outside the known class it HOLDS at
   every flushed idle point (invariant HB: every boundary the worker still has to install is
   the [last] of the snapshot heading that file on disk, or None for the oldest file).  So
   across a clean restart the same side condition as without restarts suffices: *)
Theorem C07_restart_reads_total_strong : forall cfg cfg' ops res y,
  ops_c07 spec0 ops = true -> Forall op_wf ops ->
  (match open_dir cfg [] with OpenOk y0 => run_ok_c07b y0 ops = true | _ => False end) ->
  run_case cfg ops = (res, Some y) ->
  y_queue y = [] -> k_pending (y_core y) = [] ->
  exists y', open_dir cfg' (y_disk y) = OpenOk y' /\ observes y' (spec_ops spec0 ops) /\
             I7 y' (spec_ops spec0 ops).
Proof. exact ReadRestarts.C07_restart_reads_total_strong. Qed.

(* ANY number of clean restarts (each a flush followed by a reopen under its own
   configuration with ANY cache and chunk limits), drains, reads and worker progress anywhere:
   outside the known class (the same run-time check, which follows the run through the
   restarts) the store observes the reference log at the end — and, the theorem being closed
   under prefixes of the history, at every point *)
Theorem C07_restarts_reads_total : forall cfg ops res fin,
  ReadRestarts.ops_c07r spec0 ops = true -> Forall op_wf ops ->
  (match open_dir cfg [] with OpenOk y0 => ReadRestarts.run_ok_c07r y0 ops = true | _ => False end) ->
  run_case cfg ops = (res, fin) ->
  exists y, fin = Some y /\ observes y (spec_ops spec0 ops).
Proof. exact ReadRestarts.C07_restarts_reads_total. Qed.

(* the hypotheses are met by a history with two restarts (a one-item cache, then a zero
   cache), rotation, truncate + re-append above the boundaries, drain and purge *)
Theorem C07_restarts_nonvacuous :
  let cfg := mkConfig 0 0 3 100000 true in
  let cfg1 := mkConfig 1 10 4 100000 false in
  let cfg2 := mkConfig 0 0 2 100000 true in
  let ops := [OW (OAppend [((1, 0), [Byte.x01]); ((1, 1), []); ((1, 2), [])]); OFlush true; ORestart cfg1;
              OW (OTruncate 2); OW (OAppend [((2, 2), []); ((2, 3), [Byte.x02])]); ODrain; ORead 0 10;
              OW (OPurge (1, 0)); OFlush false; ORestart cfg2;
              OW (OAppend [((3, 4), [Byte.x03])]); ORead 0 10; ODumpIter]%N in
  ReadRestarts.ops_c07r spec0 ops = true /\ Forall op_wf ops /\
  (match open_dir cfg [] with OpenOk y0 => ReadRestarts.run_ok_c07r y0 ops = true | _ => False end) /\
  RestartCycles.restart_cfgs ops = [cfg1; cfg2].
Proof.
  intros cfg cfg1 cfg2 ops.
  destruct ReadRestarts.C07_restarts_hyps_inhabited as (H1 & H2 & H3 & H4 & _).
  exact (conj H1 (conj H2 (conj H3 H4))).
Qed.

Print Assumptions C07_reads_total_outside_known_L2.
Print Assumptions C07_refuted_live.
Print Assumptions C07_reads_total_outside_known.
Print Assumptions C07_restart_reads_total.
Print Assumptions C07_restart_continue.
Print Assumptions C07_restart_refuted.
Print Assumptions C07_restart_reads_total_strong.
Print Assumptions C07_restarts_reads_total.
