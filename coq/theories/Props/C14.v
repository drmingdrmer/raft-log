(* C14 — Dropping the store quiesces it.
   Pinned statements only; proofs are in Proofs/PurgeFacts.v and Proofs/PurgeDrain.v; the reopening
   after a drop in Proofs/DropReopen.v, instances opened on any directory in Proofs/RestartSys.v, chains of
   incarnations in Proofs/RestartChain.v.
   In the code (after the repair) drop closes the request channel and joins the worker;
   in the model that is: ZDrop, then worker steps until worker_idle2. *)
From Coq Require Import List NArith Bool.
From RaftLog Require Import Base.Bytes Model.Types Model.Cache Model.Core Model.Recover Model.Run Model.Sys.
From RaftLog Require Import Spec.Durable.
From RaftLog Require Import Spec.Spec Spec.Hist.
From RaftLog Require Proofs.Refine Proofs.CrashSteps Proofs.CrashPrefix Proofs.CrashFacts Proofs.PurgeLive.
From RaftLog Require Proofs.PurgeFacts Proofs.PurgeDrain Proofs.RestartSys Proofs.DropReopen Proofs.RestartChain.
Import ListNotations.

(* once the dropped store's worker has finished, no event of that instance changes the directory *)
Theorem C14_quiescent : forall cfg z,
  zreach cfg z -> z_dropped z = true -> worker_idle2 z -> quiesced z.
Proof. exact PurgeFacts.C14_quiescent. Qed.

(* and the worker always finishes: the join in drop terminates when no I/O error occurs *)
Theorem C14_drain_terminates : forall cfg z,
  zreach cfg z -> z_dropped z = true -> z_todo z = [] -> w_alive (z_w z) = true ->
  exists es z' vis, forallb ev_fault_free es = true /\ zrun z es = Some (z', vis) /\ worker_idle2 z'.
Proof. exact PurgeDrain.C14_drain_terminates. Qed.

(* ---- "opening it again succeeds and shows the acknowledged state": for a fault-free run
   with a well-formed Raft-legal history, once the store is dropped and its worker has
   finished, the directory opens under ANY configuration with tail truncation enabled and
   shows exactly the reference log after the first k journalled records, where k is at
   least the number of records journalled before the LAST flush call (acknowledged or not,
   with or without callback; this dominates the acknowledged count) and at most the number
   journalled at all (records never flushed may or may not be there). *)
Theorem C14_reopen_after_drop : forall cfg cfg' z,
  zreach_ff cfg z -> CrashSteps.hist_wf z -> PurgeLive.hist_legal z ->
  z_dropped z = true -> worker_idle2 z -> c_truncate cfg' = true ->
  exists y' k sp, open_dir cfg' (z_disk z) = OpenOk y' /\
    (DropReopen.flushed_recs z <= k)%nat /\ (k <= CrashFacts.issued z)%nat /\
    nth_error (CrashPrefix.ref_states (PurgeLive.hist z)) k = Some sp /\
    m_rs (k_sm (y_core y')) = spec_state sp /\
    map Refine.f_log (m_log (k_sm (y_core y'))) = map Refine.g_ent (sp_entries sp).
Proof. exact DropReopen.C14_reopen_after_drop. Qed.

(* if the last call before the drop was a flush (nothing left in the caller's buffer) the
   directory holds only whole records and opens with truncation DISABLED as well *)
Theorem C14_reopen_after_drop_no_truncate : forall cfg cfg' z,
  zreach_ff cfg z -> CrashSteps.hist_wf z -> PurgeLive.hist_legal z ->
  z_dropped z = true -> worker_idle2 z -> k_pending (z_core z) = [] ->
  exists y' k sp, open_dir cfg' (z_disk z) = OpenOk y' /\
    (DropReopen.flushed_recs z <= k)%nat /\ (k <= CrashFacts.issued z)%nat /\
    nth_error (CrashPrefix.ref_states (PurgeLive.hist z)) k = Some sp /\
    m_rs (k_sm (y_core y')) = spec_state sp /\
    map Refine.f_log (m_log (k_sm (y_core y'))) = map Refine.g_ent (sp_entries sp).
Proof. exact DropReopen.C14_reopen_after_drop_no_truncate. Qed.

Theorem C14_flushed_dominates_acked : forall cfg z,
  zreach cfg z -> (CrashFacts.acked z <= DropReopen.flushed_recs z)%nat.
Proof. exact DropReopen.acked_le_flushed_recs. Qed.

(* the hypotheses are met: rotation, flush with callback, an unflushed commit, drop while
   requests are queued, two worker batches *)
Theorem C14_reopen_nonvacuous :
  zreach_ff DropReopen.dr_cfg DropReopen.dr_z /\ CrashSteps.hist_wf DropReopen.dr_z /\
  PurgeLive.hist_legal DropReopen.dr_z /\
  z_dropped DropReopen.dr_z = true /\ worker_idle2 DropReopen.dr_z /\ c_truncate DropReopen.dr_cfg = true /\
  DropReopen.flushed_recs DropReopen.dr_z = 4%nat /\ CrashFacts.acked DropReopen.dr_z = 4%nat /\
  CrashFacts.issued DropReopen.dr_z = 5%nat /\
  z_acks DropReopen.dr_z = [(0%N, true)] /\
  map (fun f => (f_id f, length (f_data f))) (z_disk DropReopen.dr_z) = [(0%N, 114%nat); (114%N, 62%nat)] /\
  length (k_pending (z_core DropReopen.dr_z)) = 28%nat.
Proof. exact DropReopen.C14_reopen_nonvacuous. Qed.

(* ---- "the new instance keeps working": the reopened instance (any directory that opens)
   satisfies the same contracts: a dropped instance whose worker is idle is quiescent, the
   drain always terminates; with C04_*_from and C08_*_from its flushes are acknowledged
   exactly once and its purges remove their files *)
Theorem C14_quiescent_from : forall cfg d z,
  RestartSys.zreach_from cfg d z -> z_dropped z = true -> worker_idle2 z -> quiesced z.
Proof. exact RestartSys.C14_quiescent_from. Qed.

Theorem C14_drain_terminates_from : forall cfg d z,
  RestartSys.zreach_from cfg d z -> z_dropped z = true -> z_todo z = [] -> w_alive (z_w z) = true ->
  exists es z' vis, forallb ev_fault_free es = true /\ zrun z es = Some (z', vis) /\ worker_idle2 z'.
Proof. exact RestartSys.C14_drain_terminates_from. Qed.

(* ---- the contracts CHAIN across incarnations.  The directory a cleanly ended instance
   leaves (worker alive and idle, tracking only the newest file: what a final flush gives)
   satisfies the hypotheses of the *_from theorems, so the next instance started on it
   satisfies the durability / ordering contracts, whatever it does *)
Theorem C14_next_instance_contracts : forall cfg cfg' z1 z2,
  zreach_ff cfg z1 -> worker_idle2 z1 -> length (w_files (z_w z1)) = 1%nat ->
  RestartSys.zreach_from cfg' (z_disk z1) z2 ->
  acked_durable z2 /\ removed_after_durable z2 /\ files_contiguous z2 /\ acks_in_order z2 /\
  Forall (fun f => (f_synced f <= N.of_nat (length (f_data f)))%N) (z_disk z2).
Proof. exact RestartChain.C14_next_instance_contracts. Qed.

(* ... for ANY number of incarnations, each started by opening what the previous one left
   ([chain d l zl]: the instances of l run one after the other from directory d, each but the
   last ending cleanly; zl is any state of the last one) *)
Theorem C14_incarnations_contracts : forall l zl,
  RestartChain.chain [] l zl -> RestartChain.contracts zl.
Proof. exact RestartChain.C14_incarnations_contracts. Qed.

(* the next instance does start (C14_reopen_after_drop), and then satisfies the contracts *)
Theorem C14_next_instance_starts : forall cfg cfg' z1,
  zreach_ff cfg z1 -> CrashSteps.hist_wf z1 -> PurgeLive.hist_legal z1 ->
  z_dropped z1 = true -> worker_idle2 z1 -> c_truncate cfg' = true ->
  exists z0, zinit cfg' (z_disk z1) = Some z0 /\ RestartSys.zreach_from cfg' (z_disk z1) z0 /\
    (length (w_files (z_w z1)) = 1%nat ->
     forall z2, RestartSys.zreach_from cfg' (z_disk z1) z2 -> RestartChain.contracts z2).
Proof. exact RestartChain.C14_next_instance_starts. Qed.

(* the side condition "tracks only the newest file" is not automatic: after a rotation that
   is not followed by a flush an idle fault-free worker tracks two files (witness) *)
Theorem C14_idle_worker_may_track_two_files : exists z,
  zreach_ff RestartChain.w2_cfg z /\ z_dropped z = true /\ worker_idle2 z /\
  map wf_id (w_files (z_w z)) = [0; 50]%N /\ RestartSys.older_synced (z_disk z).
Proof. exact RestartChain.ff_idle_two_files. Qed.

(* non-vacuity: two incarnations (rotations, flush, drop, drain; reopen under other limits,
   acknowledged flush, purge, unlink) *)
Theorem C14_two_incarnations : exists zl,
  RestartChain.chain [] [(RestartChain.d2_cfg1, RestartChain.d2_events1); (RestartChain.d2_cfg2, RestartChain.d2_events2)] zl /\
  forallb ev_fault_free (RestartChain.d2_events1 ++ RestartChain.d2_events2) = true /\
  In (0%N, true) (z_acks zl) /\ disk_get 0%N (z_disk zl) = None.
Proof.
  destruct RestartChain.two_incarnations as (zl & H1 & H2 & _ & _ & _ & _ & _ & _ & H3 & _ & H4 & _).
  exists zl. exact (conj H1 (conj H2 (conj H3 H4))).
Qed.

Print Assumptions C14_quiescent.
Print Assumptions C14_drain_terminates.
Print Assumptions C14_reopen_after_drop.
Print Assumptions C14_reopen_after_drop_no_truncate.
Print Assumptions C14_quiescent_from.
Print Assumptions C14_drain_terminates_from.
Print Assumptions C14_next_instance_contracts.
Print Assumptions C14_incarnations_contracts.
Print Assumptions C14_two_incarnations.
