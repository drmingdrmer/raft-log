(* C09 — Corruption and missing pieces are reported, never silently absorbed.
   Pinned statements only; proofs are in Proofs/Crc32Facts.v and Proofs/CorruptFacts.v.
   The property is NOT true of the code in full: two classes of alterations are
   recorded as known findings and carried here as [_refuted] witnesses. *)
From Coq Require Import List NArith Bool.
From Coq.Strings Require Import Byte.
From RaftLog Require Import Base.Bytes Base.Crc32 Model.Types Model.Codec Model.Cache Model.Core Model.Recover Model.Run.
From RaftLog Require Import Proofs.Crc32Facts Proofs.CodecFacts Proofs.ScanFacts Proofs.CorruptFacts.
Import ListNotations.

(* CRC-32 detects every single altered byte of a message of any length *)
Theorem C09_crc32_single_byte : forall pre suf b b',
  b <> b' -> crc32 (pre ++ b :: suf) <> crc32 (pre ++ b' :: suf).
Proof. exact Crc32Facts.crc32_single_byte. Qed.

(* a single altered byte inside a complete record is never accepted as a record of the
   same length: it is InvalidData, or UnexpectedEof, or (a 32-bit checksum coincidence
   on a different parse shape, which no proof can exclude) a record of another length *)
Theorem C09_single_byte_outcomes : forall r t pre b suf b',
  wf_record r -> enc_record r = pre ++ b :: suf -> b <> b' ->
  dec_record (pre ++ b' :: suf ++ t) = DInvalid \/
  dec_record (pre ++ b' :: suf ++ t) = DEof \/
  exists r' t', dec_record (pre ++ b' :: suf ++ t) = DOk (r', t') /\
                wf_record r' /\
                pre ++ b' :: suf ++ t = enc_record r' ++ t' /\
                length (enc_record r') <> length (enc_record r).
Proof. exact CorruptFacts.C09_single_byte_outcomes. Qed.

(* alterations that cannot change the parse shape are always InvalidData:
   the 8 checksum bytes of any record ... *)
Theorem C09_checksum_field : forall r t pre b suf b',
  wf_record r -> enc_record r = pre ++ b :: suf -> b <> b' ->
  length (enc_body r) <= length pre ->
  dec_record (pre ++ b' :: suf ++ t) = DInvalid.
Proof. exact CorruptFacts.C09_checksum_field. Qed.

(* ... the log id / vote bytes of SaveVote, Commit and PurgeUpto records ... *)
Theorem C09_fixed_fields : forall r t pre b suf b',
  pair_record r ->
  wf_record r -> enc_record r = pre ++ b :: suf -> b <> b' ->
  4 <= length pre < 20 ->
  dec_record (pre ++ b' :: suf ++ t) = DInvalid.
Proof. exact CorruptFacts.C09_fixed_fields. Qed.

(* ... and the log id and payload content bytes of an Append record *)
Theorem C09_append_fixed_fields : forall id p t pre b suf b',
  wf_record (RAppend id p) -> enc_record (RAppend id p) = pre ++ b :: suf -> b <> b' ->
  (4 <= length pre < 20 \/ 24 <= length pre) ->
  dec_record (pre ++ b' :: suf ++ t) = DInvalid.
Proof. exact CorruptFacts.C09_append_fixed_fields. Qed.

(* a damaged record (InvalidData, not an all-zero tail) in ANY chunk makes open fail,
   and the failed open has modified nothing, provided the chunks before it are intact *)
Theorem C09_open_refuses : forall cfg pre id synced post rs x,
  Forall scans_end pre -> Forall wf_record rs ->
  dec_record x = DInvalid -> all_zero x = false ->
  exists e, open_dir cfg (pre ++ mkFile id (encs rs ++ x) synced :: post)
            = OpenErr e (pre ++ mkFile id (encs rs ++ x) synced :: post).
Proof. exact CorruptFacts.C09_open_refuses_record. Qed.

(* a chunk file missing in the middle of a clean journal: refused, nothing modified *)
Theorem C09_middle_missing : forall cfg pre f post,
  clean_files (pre ++ f :: post) -> pre <> [] -> post <> [] ->
  exists e, open_dir cfg (pre ++ post) = OpenErr e (pre ++ post).
Proof. exact CorruptFacts.C09_middle_missing_refused. Qed.

(* ------------------------------------------------------------------ known findings *)
(* a directory produced by the store: two chunks *)
Definition img_cfg : config := mkConfig 100 1000 3 100000 true.
Definition img_disk : disk :=
  match run_case img_cfg
          [OW (OAppend [((1,0), [x68; x69]); ((1,1), [x61; x61])]%N);
           OW (OAppend [((1,2), [x62])]%N); OFlush true; OIdle] with
  | (_, Some y) => y_disk y
  | _ => []
  end.

Definition set_byte (p : nat) (b : byte) (bs : bytes) : bytes :=
  firstn p bs ++ b :: skipn (S p) bs.
Definition map_file (id : N) (f : bytes -> bytes) (d : disk) : disk :=
  map (fun g => if N.eqb (f_id g) id then mkFile (f_id g) (f (f_data g)) (f_synced g) else g) d.

Definition n_entries (r : open_res) : option nat :=
  match r with OpenOk y => Some (length (m_log (k_sm (y_core y)))) | OpenErr _ _ => None end.

(* coqchk re-evaluates a [vm_compute] step with the kernel's lazy machine, several times slower than the VM:
   the run that writes the image is evaluated in one lemma, against a constant holding its normal form, and the
   facts are read off it; otherwise every [vm_compute; reflexivity] about the image would run it again. *)
Definition img_disk_nf : disk := Eval vm_compute in img_disk.
Lemma img_disk_eq : img_disk = img_disk_nf.
Proof. vm_compute. reflexivity. Qed.

(* the clean image opens and holds three entries *)
Example C09_clean_image_opens : n_entries (open_dir img_cfg img_disk) = Some 3.
Proof. rewrite img_disk_eq. vm_compute. reflexivity. Qed.

(* Finding F5 (class L): one altered byte — the high byte of the payload length of the
   entry in the NEWEST chunk (offset 34+20 of file 86) — makes the record run past the
   end of the file; recovery takes it for a torn tail and open SUCCEEDS with that entry
   silently gone. *)
Theorem C09_refuted_length_flip_in_newest_chunk :
  exists d', d' = map_file 86 (set_byte 54 x01) img_disk /\
             n_entries (open_dir img_cfg d') = Some 2.
Proof. eexists. split; [reflexivity|]. rewrite img_disk_eq. vm_compute. reflexivity. Qed.

(* Finding F6 (class T): the same alteration in a NON-newest chunk is refused (gap), but
   the refused open has already cut that older file back: it does not leave every chunk
   file other than the newest exactly as it was. *)
Theorem C09_refuted_refused_open_truncates_older_chunk :
  exists d' e d'', d' = map_file 0 (set_byte 38 x01) img_disk /\
                   open_dir img_cfg d' = OpenErr e d'' /\ d'' <> d'.
Proof.
  (* the refused open left file 0 shorter; of its result only the lengths of the files are evaluated *)
  set (d' := map_file 0 (set_byte 38 x01) img_disk).
  assert (H : match open_dir img_cfg d' with
              | OpenErr _ d'' => Some (map (fun f => length (f_data f)) d'')
              | OpenOk _ => None
              end = Some [18; 67]%nat) by (unfold d'; rewrite img_disk_eq; vm_compute; reflexivity).
  assert (H' : map (fun f => length (f_data f)) d' = [86; 67]%nat)
    by (unfold d'; rewrite img_disk_eq; vm_compute; reflexivity).
  exists d'. destruct (open_dir img_cfg d') as [y|e d'']; [discriminate H|]. exists e, d''.
  split; [reflexivity|]. split; [reflexivity|]. intros E. rewrite E, H' in H. discriminate H.
Qed.

Print Assumptions C09_single_byte_outcomes.
Print Assumptions C09_append_fixed_fields.
Print Assumptions C09_open_refuses.
Print Assumptions C09_middle_missing.
