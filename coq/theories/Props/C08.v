(* C08 — Chunk files are deleted only when obsolete and durably purged, oldest first.
   Pinned statements only; proofs are in Proofs/PurgeFacts.v, PurgeDurable.v,
   PurgeLive.v; for instances opened on any directory in Proofs/RestartSys.v. Contracts are in Spec/Durable.v; the system is Model/Sys.v. *)
From Coq Require Import List NArith.
From RaftLog Require Import Base.Bytes Model.Types Model.Cache Model.Core Model.Recover Model.Run Model.Sys.
From RaftLog Require Import Spec.Durable.
From RaftLog Require Proofs.NoPanic Proofs.PurgeFacts Proofs.PurgeDurable Proofs.PurgeLive Proofs.RestartSys.
Import ListNotations.

(* any interleaving, batching and failures: a chunk file that is gone was requested for
   removal by a flush, and everything journalled before that flush call (in particular
   the purge record) is durable in the files that remain *)
Theorem C08_removed_after_durable : forall cfg z, zreach cfg z -> removed_after_durable z.
Proof. exact PurgeDurable.C08_removed_after_durable. Qed.

(* deletion is oldest-first: the files present are always a contiguous run, in creation
   order, of the files ever created *)
Theorem C08_oldest_first : forall cfg z, zreach cfg z -> files_contiguous z.
Proof. exact PurgeFacts.C08_oldest_first. Qed.

(* without failures, once the worker has caught up, every chunk whose removal was requested is gone *)
Theorem C08_liveness : forall cfg z, zreach_ff cfg z -> worker_idle2 z -> removals_done z.
Proof. exact PurgeFacts.C08_liveness. Qed.

(* which chunks are requested: exactly the closed chunks, from the oldest on, whose closing
   last log id is <= the purge point *)
Theorem C08_pop_obsolete_spec_partial : forall upto cl ids rest,
  NoDup (map (fun c => ck_id (cl_chunk c)) cl) ->
  pop_obsolete upto cl = (ids, rest) ->
  map (fun c => ck_id (cl_chunk c)) cl = ids ++ map (fun c => ck_id (cl_chunk c)) rest /\
  (forall c, In c cl -> In (ck_id (cl_chunk c)) ids -> opair_leb (r_last (cl_state c)) (Some upto) = true) /\
  (match rest with c :: _ => opair_ltb (Some upto) (r_last (cl_state c)) = true | [] => True end).
Proof. exact PurgeFacts.C08_pop_obsolete_spec_partial. Qed.

(* only dead chunks are deleted: under a Raft-legal history, between API calls, every
   live index entry is stored in a file that still exists (cache limits arbitrary) *)
Theorem C08_only_dead_partial : forall cfg z,
  zreach cfg z -> PurgeLive.hist_legal z -> z_todo z = [] -> live_entries_have_files z.
Proof. exact PurgeLive.C08_only_dead_partial. Qed.

(* ---- the same for a store instance started by opening ANY directory that opens (restart) *)
Theorem C08_removed_after_durable_from : forall cfg d z,
  RestartSys.dir_wf d -> RestartSys.older_synced d -> RestartSys.zreach_from cfg d z -> removed_after_durable z.
Proof. exact RestartSys.C08_removed_after_durable_from. Qed.

Theorem C08_oldest_first_from : forall cfg d z,
  NoPanic.disk_sorted d -> RestartSys.zreach_from cfg d z -> files_contiguous z.
Proof. exact RestartSys.C08_oldest_first_from. Qed.

Theorem C08_liveness_from : forall cfg d z,
  NoPanic.disk_sorted d -> RestartSys.zreach_from_ff cfg d z -> worker_idle2 z -> removals_done z.
Proof. exact RestartSys.C08_liveness_from. Qed.

(* [older_synced] is necessary here too: a reopened store purges and unlinks the oldest file
   while a middle file it never wrote is unsynced *)
Theorem C08_restart_needs_older_synced :
  exists z, RestartSys.dir_wf RestartSys.bad_dir3 /\
            RestartSys.zreach_from RestartSys.demo_cfg RestartSys.bad_dir3 z /\ ~ removed_after_durable z.
Proof. exact RestartSys.older_synced_needed_C08. Qed.

Print Assumptions C08_removed_after_durable.
Print Assumptions C08_oldest_first.
Print Assumptions C08_liveness.
Print Assumptions C08_only_dead_partial.
Print Assumptions C08_removed_after_durable_from.
Print Assumptions C08_liveness_from.
