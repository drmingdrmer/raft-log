(* C15, system level: along every run without restart and without update_state the
   payload cache of the caller state satisfies [cache_ok] and holds no key above the
   last log id. *)
From Coq Require Import List NArith.
From RaftLog Require Import Model.Types Model.Cache Model.Core Model.Recover Model.Run.
From RaftLog Require Import Proofs.CacheFacts Proofs.SmFacts.
Import ListNotations.

Definition op_no_restart (o : op) : bool :=
  match o with
  | ORestart _ => false
  | OW (OUpdateState _) => false
  | _ => true
  end.
Definition ops_no_restart (ops : list op) : bool := forallb op_no_restart ops.

Definition cinv (s : sm) : Prop :=
  cache_ok (m_cache s) /\ keys_le (m_cache s) (r_last (m_rs s)).

Definition sys_cinv (y : sys) : Prop := cinv (k_sm (y_core y)).

(* records that may be applied: an installed state must not put [last] below a resident key *)
Definition rec_safe (s : sm) (r : record) : Prop :=
  match r with
  | RState st => keys_le (m_cache s) (r_last st)
  | _ => True
  end.

Lemma cinv_new cfg : cinv (sm_new cfg).
Proof. split; [apply cache_new_ok | apply keys_le_new]. Qed.

Lemma rs_apply_valid s r :
  rs_validate s r = None -> exists s', rs_apply s r = inl s'.
Proof. intros H. unfold rs_apply. rewrite H. eexists; reflexivity. Qed.

Lemma rs_apply_last_append s id p s' :
  rs_apply s (RAppend id p) = inl s' -> r_last s' = Some id.
Proof.
  unfold rs_apply. destruct (rs_validate s (RAppend id p)); [discriminate|].
  intros H; inversion H; subst. reflexivity.
Qed.

Lemma rs_apply_last_other s r s' :
  rs_apply s r = inl s' ->
  match r with
  | RVote _ | RCommit _ => r_last s' = r_last s
  | _ => True
  end.
Proof.
  unfold rs_apply. destruct (rs_validate s r); [discriminate|].
  intros H; inversion H; subst. destruct r; try exact I; reflexivity.
Qed.

Lemma rs_apply_last_trunc s o s' :
  rs_apply s (RTrunc o) = inl s' ->
  r_last s' = if opair_ltb o (r_last s) then o else r_last s.
Proof.
  unfold rs_apply. cbn [rs_validate]. intros H; inversion H; subst.
  destruct (opair_ltb o (r_last s)); reflexivity.
Qed.

Lemma rs_apply_last_purge s id s' :
  rs_apply s (RPurge id) = inl s' -> opair_leb (r_last s) (r_last s') = true.
Proof.
  unfold rs_apply. cbn [rs_validate]. intros H; inversion H; subst. clear H.
  destruct (opair_ltb (r_purged s) (Some id)) eqn:E1.
  - cbn [rs_set_purged r_last].
    destruct (opair_ltb (r_last s) (Some id)) eqn:E2; cbn [rs_set_last rs_set_purged r_last].
    + apply opair_ltb_leb. exact E2.
    + apply opair_leb_refl.
  - destruct (opair_ltb (r_last s) (Some id)) eqn:E2; cbn [rs_set_last r_last].
    + apply opair_ltb_leb. exact E2.
    + apply opair_leb_refl.
Qed.

Lemma rs_apply_state s st s' : rs_apply s (RState st) = inl s' -> s' = st.
Proof. unfold rs_apply. cbn [rs_validate]. intros H; inversion H; reflexivity. Qed.

Lemma rs_validate_append_above s id p :
  rs_validate s (RAppend id p) = None -> opair_leb (Some id) (r_last s) = false.
Proof.
  cbn [rs_validate]. destruct (opair_leb (Some id) (r_last s)); [discriminate | reflexivity].
Qed.

Definition cache_apply (c : cache) (r : record) : cache :=
  match r with
  | RAppend id p => cache_insert c id p
  | RTrunc (Some id) => cache_truncate_after c id
  | RTrunc None => cache_clear c
  | RPurge id => cache_purge_upto c id
  | _ => c
  end.

Lemma cache_apply_evictable c r : ch_evictable (cache_apply c r) = ch_evictable c.
Proof.
  destruct r as [v|id p|id|[id|]|id|st]; cbn [cache_apply]; try reflexivity.
  - apply cache_insert_evictable.
  - apply cache_truncate_after_evictable.
  - apply cache_purge_upto_evictable.
Qed.

Lemma sm_apply_cinv s r ch seg :
  cinv s -> rs_validate (m_rs s) r = None -> rec_safe s r ->
  cinv (fst (sm_apply s r ch seg)) /\ snd (sm_apply s r ch seg) = None.
Proof.
  intros [Hok Hle] Hv Hsafe.
  destruct (rs_apply_valid _ _ Hv) as [rs' Hrs].
  rewrite sm_apply_eq, Hrs. split; [|reflexivity]. unfold cinv. cbn [fst m_cache m_rs].
  destruct r as [v|id p|id|[id|]|id|st]; cbn [cache_rec].
  - apply rs_apply_last_other in Hrs. rewrite Hrs. split; assumption.
  - apply rs_validate_append_above in Hv. apply rs_apply_last_append in Hrs. rewrite Hrs.
    split.
    + apply cache_insert_ok; [exact Hok|]. eapply keys_le_below; [exact Hle | exact Hv].
    + eapply keys_le_insert; [exact Hle|].
      apply opair_ltb_leb. apply opair_leb_false_iff. exact Hv.
  - apply rs_apply_last_other in Hrs. rewrite Hrs. split; assumption.
  - apply rs_apply_last_trunc in Hrs. rewrite Hrs. split.
    + apply cache_truncate_after_ok. exact Hok.
    + destruct (opair_ltb (Some id) (r_last (m_rs s))).
      * apply keys_le_truncate_after_key. apply Hok.
      * apply keys_le_truncate_after. exact Hle.
  - split; [apply cache_clear_ok | apply keys_le_clear].
  - apply rs_apply_last_purge in Hrs. split.
    + apply cache_purge_upto_ok. exact Hok.
    + apply keys_le_purge_upto. eapply keys_le_mono; [exact Hle | exact Hrs].
  - apply rs_apply_state in Hrs. subst rs'. split; [exact Hok | exact Hsafe].
Qed.

Lemma append_and_apply_cinv k r k' w effs :
  cinv (k_sm k) -> rec_safe (k_sm k) r ->
  append_and_apply k r = Ret (k', w, effs) -> cinv (k_sm k').
Proof.
  intros Hinv Hsafe H. apply JournalChunk.append_and_apply_steps in H.
  destruct H as [(-> & _) | (sm1 & Hv & Hs & _ & Ht)]; [exact Hinv|].
  epose proof (sm_apply_cinv _ _ _ _ Hinv Hv Hsafe) as [Hc _].
  rewrite Hs in Hc. destruct Ht as [(_ & -> & _)|(_ & -> & _)]; exact Hc.
Qed.

Lemma append_and_apply_ok_cache k r k' o l effs :
  append_and_apply k r = Ret (k', WOk o l, effs) ->
  m_cache (k_sm k') = cache_apply (m_cache (k_sm k)) r.
Proof.
  intros H. apply JournalChunk.append_and_apply_steps in H.
  destruct H as [(_ & _ & e & He) | (sm1 & _ & Hs & _ & Ht)]; [discriminate|].
  rewrite sm_apply_eq in Hs. injection Hs as <-. destruct Ht as [(_ & -> & _)|(_ & -> & _)]; reflexivity.
Qed.

Definition wop_no_update (w : wop) : bool :=
  match w with OUpdateState _ => false | _ => true end.

Lemma do_write_cinv k w k' r effs :
  wop_no_update w = true -> cinv (k_sm k) ->
  do_write k w = Ret (k', r, effs) -> cinv (k_sm k').
Proof.
  intros Hw Hinv. apply (do_write_inv (fun k _ => cinv (k_sm k)) w); [| |exact Hinv].
  - intros k0 _ r0 k1 res ef H0 Hi Ha. eapply append_and_apply_cinv; [exact H0| |exact Ha].
    destruct Hi; try exact I; [apply H0|discriminate Hw].
  - intros k0 _ u ids rest H0 _. exact H0.
Qed.

Lemma cinv_set_evictable s b :
  cinv s -> cinv (mkSM (m_rs s) (m_log s) (cache_set_evictable (m_cache s) b)).
Proof. intros H. exact H. Qed.

Lemma cinv_drain s : cinv s -> cinv (mkSM (m_rs s) (m_log s) (cache_drain (m_cache s))).
Proof.
  intros [H1 H2]. split; cbn [m_cache m_rs].
  - apply cache_drain_ok; exact H1.
  - apply keys_le_drain; exact H2.
Qed.

Lemma run_op_cinv y o y' res :
  op_no_restart o = true -> sys_cinv y -> run_op y o = (Some y', res) -> sys_cinv y'.
Proof.
  intros Ho Hinv H. apply run_op_cases in H. unfold sys_cinv in *.
  destruct o as [w|cb|from to| | | | | |cfg]; try discriminate Ho; subst; try exact Hinv.
  - destruct H as (k & r & effs & Hw & -> & _). rewrite commit_core.
    refine (do_write_cinv _ w _ _ _ _ Hinv Hw). destruct w; try reflexivity. discriminate Ho.
  - rewrite commit_core. exact Hinv.
  - cbn [with_core y_core]. rewrite (proj1 (do_read_sm_open _ _ _ _)). exact Hinv.
  - apply (worker_idle_keeps (fun k => cinv (k_sm k))); [|exact Hinv].
    intros k b. apply cinv_set_evictable.
  - apply cinv_drain. exact Hinv.
Qed.

Lemma open_dir_empty_cinv cfg y : open_dir cfg [] = OpenOk y -> sys_cinv y.
Proof. rewrite open_dir_nil_store. intros H. inversion H; subst. apply cinv_new. Qed.

Definition reachable (cfg : config) (y : sys) : Prop :=
  exists ops res, ops_no_restart ops = true /\ run_case cfg ops = (res, Some y).

Lemma run_case_cinv cfg ops res y :
  ops_no_restart ops = true -> run_case cfg ops = (res, Some y) -> sys_cinv y.
Proof.
  intros Hops. apply (run_case_inv sys_cinv (fun o => op_no_restart o = true)).
  - intros y0 o y' r Hy Ho. apply run_op_cinv; assumption.
  - apply open_dir_empty_cinv.
  - apply Forall_forall, forallb_forall, Hops.
Qed.

Lemma reachable_cinv cfg y : reachable cfg y -> sys_cinv y.
Proof. intros (ops & res & Hops & H). eapply run_case_cinv; eassumption. Qed.

Lemma cinv_stat_exact y : sys_cinv y ->
  let es := ch_entries (m_cache (k_sm (y_core y))) in
  st_items (do_stat (y_core y)) = N.of_nat (length es) /\
  st_size (do_stat (y_core y)) = total es /\
  NoDup (map fst es).
Proof.
  intros [[Hs Hsz] _] es. split; [reflexivity|]. split; [exact Hsz|]. apply sorted_keys_NoDup. exact Hs.
Qed.

(* over a limit after an accepted append: everything resident is pinned *)
Lemma append_pinned k id p k' o l effs :
  cinv (k_sm k) ->
  append_and_apply k (RAppend id p) = Ret (k', WOk o l, effs) ->
  let c' := m_cache (k_sm k') in
  ch_evictable c' = ch_evictable (m_cache (k_sm k)) /\
  (need_evict c' (length (ch_entries c')) (ch_size c') = true ->
   forall id' p', In (id', p') (ch_entries c') -> opair_leb (Some id') (ch_evictable c') = false).
Proof.
  intros Hinv H c'. subst c'.
  rewrite (append_and_apply_ok_cache k (RAppend id p) _ _ _ _ H). cbn [cache_apply].
  split; [apply cache_insert_evictable|].
  rewrite cache_insert_evictable. apply C15_over_limit_pinned_cache. apply Hinv.
Qed.

Lemma do_append_pinned es : forall k acc effs k' o l effs',
  es <> [] -> cinv (k_sm k) ->
  do_append k es acc effs = Ret (k', WOk o l, effs') ->
  let c' := m_cache (k_sm k') in
  ch_evictable c' = ch_evictable (m_cache (k_sm k)) /\
  (need_evict c' (length (ch_entries c')) (ch_size c') = true ->
   forall id' p', In (id', p') (ch_entries c') -> opair_leb (Some id') (ch_evictable c') = false).
Proof.
  induction es as [|[id p] r IH]; intros k acc effs k' o l effs' Hne Hinv H; [congruence|].
  cbn [do_append] in H.
  destruct (append_and_apply k (RAppend id p)) as [[[k1 w1] ef]|] eqn:Ea; [|discriminate].
  destruct w1 as [o1 l1|e]; [|discriminate].
  pose proof (append_pinned _ _ _ _ _ _ _ Hinv Ea) as [Hev1 Hpin1].
  destruct r as [|e2 r2].
  - cbn [do_append] in H. inversion H; subst. split; [exact Hev1 | exact Hpin1].
  - assert (Hinv1 : cinv (k_sm k1)).
    { eapply append_and_apply_cinv; [ | | exact Ea]; [exact Hinv | exact I]. }
    assert (Hne2 : e2 :: r2 <> []) by discriminate.
    pose proof (IH _ _ _ _ _ _ _ Hne2 Hinv1 H) as [Hev2 Hpin2].
    split; [congruence | exact Hpin2].
Qed.

Lemma cinv_over_limit_pinned y es y' o l : sys_cinv y -> es <> [] ->
  run_op y (OW (OAppend es)) = (Some y', ResW (WOk o l)) ->
  let c := m_cache (k_sm (y_core y)) in
  let c' := m_cache (k_sm (y_core y')) in
  need_evict c' (length (ch_entries c')) (ch_size c') = true ->
  forall id p, In (id, p) (ch_entries c') -> opair_leb (Some id) (ch_evictable c) = false.
Proof.
  intros Hinv Hne Hop c c'. subst c c'. unfold sys_cinv in Hinv.
  cbn [run_op do_write] in Hop.
  destruct (wal_last_segment (y_core y)) as [w0|]; [|discriminate].
  destruct (do_append (y_core y) es w0 []) as [[[k r] effs]|] eqn:Ea; [|discriminate].
  inversion Hop; subst. rewrite apply_effs_core. cbn [with_core y_core].
  pose proof (do_append_pinned _ _ _ _ _ _ _ _ Hne Hinv Ea) as [Hev Hpin].
  rewrite <- Hev. exact Hpin.
Qed.

Lemma cinv_drain_above y y' r : sys_cinv y -> run_op y ODrain = (Some y', r) ->
  let c' := m_cache (k_sm (y_core y')) in
  ch_evictable c' = ch_evictable (m_cache (k_sm (y_core y))) /\
  forall id p, In (id, p) (ch_entries c') -> opair_leb (Some id) (ch_evictable c') = false.
Proof.
  intros [Hok _] Hop c'. subst c'. cbn [run_op] in Hop. inversion Hop; subst.
  cbn [with_core y_core]. unfold core_with_cache, core_with_sm. cbn [k_sm m_cache].
  split; [apply cache_drain_evictable|].
  rewrite cache_drain_evictable. apply C15_drain_cache. exact Hok.
Qed.

Theorem C15_counts_exact : forall cfg ops res y,
  ops_no_restart ops = true ->
  run_case cfg ops = (res, Some y) ->
  cache_ok (m_cache (k_sm (y_core y))).
Proof. intros cfg ops res y Hops H. apply (run_case_cinv cfg ops res y Hops H). Qed.

Theorem C15_keys_le_last : forall cfg ops res y,
  ops_no_restart ops = true ->
  run_case cfg ops = (res, Some y) ->
  keys_le (m_cache (k_sm (y_core y))) (r_last (m_rs (k_sm (y_core y)))).
Proof. intros cfg ops res y Hops H. apply (run_case_cinv cfg ops res y Hops H). Qed.

(* what stat() reports *)
Theorem C15_stat_exact : forall cfg ops res y,
  ops_no_restart ops = true ->
  run_case cfg ops = (res, Some y) ->
  let es := ch_entries (m_cache (k_sm (y_core y))) in
  st_items (do_stat (y_core y)) = N.of_nat (length es) /\
  st_size (do_stat (y_core y)) = total es /\
  NoDup (map fst es).
Proof. intros cfg ops res y Hops H. exact (cinv_stat_exact y (run_case_cinv _ _ _ _ Hops H)). Qed.

Theorem C15_over_limit_pinned : forall cfg ops res y es y' o l,
  ops_no_restart ops = true ->
  run_case cfg ops = (res, Some y) ->
  es <> [] ->
  run_op y (OW (OAppend es)) = (Some y', ResW (WOk o l)) ->
  let c := m_cache (k_sm (y_core y)) in
  let c' := m_cache (k_sm (y_core y')) in
  need_evict c' (length (ch_entries c')) (ch_size c') = true ->
  forall id p, In (id, p) (ch_entries c') -> opair_leb (Some id) (ch_evictable c) = false.
Proof.
  intros cfg ops res y es y' o l Hops Hrun. exact (cinv_over_limit_pinned y es y' o l (run_case_cinv _ _ _ _ Hops Hrun)).
Qed.

Corollary C15_over_limit_pinned_single : forall cfg ops res y id0 p0 y' o l,
  ops_no_restart ops = true ->
  run_case cfg ops = (res, Some y) ->
  run_op y (OW (OAppend [(id0, p0)])) = (Some y', ResW (WOk o l)) ->
  let c := m_cache (k_sm (y_core y)) in
  let c' := m_cache (k_sm (y_core y')) in
  c' = cache_insert c id0 p0 /\
  (need_evict c' (length (ch_entries c')) (ch_size c') = true ->
   forall id p, In (id, p) (ch_entries c') -> opair_leb (Some id) (ch_evictable c) = false).
Proof.
  intros cfg ops res y id0 p0 y' o l Hops Hrun Hop c c'. split.
  - subst c c'. pose proof (run_case_cinv _ _ _ _ Hops Hrun) as Hinv. unfold sys_cinv in Hinv.
    cbn [run_op do_write] in Hop.
    destruct (wal_last_segment (y_core y)) as [w0|]; [|discriminate].
    cbn [do_append] in Hop.
    destruct (append_and_apply (y_core y) (RAppend id0 p0)) as [[[k1 w1] ef]|] eqn:Ea; [|discriminate].
    destruct w1 as [o1 l1|e]; inversion Hop; subst.
    rewrite apply_effs_core. cbn [with_core y_core].
    apply (append_and_apply_ok_cache (y_core y) (RAppend id0 p0) _ _ _ _ Ea).
  - apply (C15_over_limit_pinned cfg ops res y [(id0, p0)] y' o l Hops Hrun); [discriminate | exact Hop].
Qed.

(* after drain_cache_evictable nothing resident is at or below the boundary *)
Theorem C15_drain : forall cfg ops res y y' r,
  ops_no_restart ops = true ->
  run_case cfg ops = (res, Some y) ->
  run_op y ODrain = (Some y', r) ->
  let c' := m_cache (k_sm (y_core y')) in
  ch_evictable c' = ch_evictable (m_cache (k_sm (y_core y))) /\
  forall id p, In (id, p) (ch_entries c') -> opair_leb (Some id) (ch_evictable c') = false.
Proof. intros cfg ops res y y' r Hops Hrun. exact (cinv_drain_above y y' r (run_case_cinv _ _ _ _ Hops Hrun)). Qed.

Print Assumptions C15_counts_exact.
Print Assumptions C15_keys_le_last.
Print Assumptions C15_stat_exact.
Print Assumptions C15_over_limit_pinned.
Print Assumptions C15_over_limit_pinned_single.
Print Assumptions C15_drain.
