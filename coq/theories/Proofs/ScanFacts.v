(* The record iterator [scan] / [scan_file] of Model/Recover.v, on which C10 (RecoverFacts.v), C09 and the dumps
   of C11 rest: the fuel never runs out; whatever is scanned is the canonical encoding of the records returned,
   followed by a rest on which the iterator stops ([scan_file_inv], [stops]); a torn tail (proper prefix of a
   record) stops with SEof and so does every cut of a file of records; a zero tail stops with SEof (fewer than 28
   zero bytes) or SInvalid (28 zero bytes are the record RVote (0,0) with a checksum that does not fit). *)
From Coq Require Import List NArith Lia Arith.
From Coq.Strings Require Import Byte.
From RaftLog Require Import Base.Bytes Base.Crc32 Model.Types Model.Codec Model.Recover.
From RaftLog Require Import Proofs.CodecFacts.
Import ListNotations.

Definition encs (rs : list record) : bytes := concat (map enc_record rs).
Definition sized (rs : list record) : list (record * N) := map (fun r => (r, rec_size r)) rs.

Lemma encs_nil : encs [] = [].
Proof. reflexivity. Qed.

Lemma encs_cons r rs : encs (r :: rs) = enc_record r ++ encs rs.
Proof. reflexivity. Qed.

Lemma encs_app rs1 rs2 : encs (rs1 ++ rs2) = encs rs1 ++ encs rs2.
Proof. unfold encs. rewrite map_app, concat_app. reflexivity. Qed.

Lemma sized_fst rs : map fst (sized rs) = rs.
Proof.
  unfold sized. rewrite map_map. cbn [fst]. apply map_id.
Qed.

Lemma sized_snd rs : map snd (sized rs) = map rec_size rs.
Proof.
  unfold sized. rewrite map_map. reflexivity.
Qed.

Lemma sized_app rs1 rs2 : sized (rs1 ++ rs2) = sized rs1 ++ sized rs2.
Proof. apply map_app. Qed.

Lemma sized_length rs : length (sized rs) = length rs.
Proof. apply map_length. Qed.

Lemma encs_length rs :
  N.of_nat (length (encs rs)) = fold_right N.add 0%N (map rec_size rs).
Proof.
  induction rs as [|r rs IH]; [reflexivity|].
  rewrite encs_cons, app_length, Nat2N.inj_add, IH. reflexivity.
Qed.

Lemma encs_nonempty r rs : encs (r :: rs) <> [].
Proof.
  rewrite encs_cons. intros H. apply (f_equal (@length byte)) in H.
  rewrite app_length in H. pose proof (enc_record_min_len r). cbn [length] in H. lia.
Qed.

Lemma scan_eq_S fuel bs :
  scan (S fuel) bs =
  match bs with
  | [] => ([], [], SEnd)
  | _ =>
    match dec_record bs with
    | DOk (r, rest) =>
      let '(rs, tl, e) := scan fuel rest in
      ((r, N.of_nat (length bs - length rest)) :: rs, tl, e)
    | DEof => ([], bs, SEof)
    | DInvalid => ([], bs, SInvalid)
    end
  end.
Proof.
  cbn [scan]. destruct bs as [|b bs]; [reflexivity|].
  destruct (dec_record (b :: bs)) as [[r rest]| |]; reflexivity.
Qed.

Lemma dec_record_shorter bs r t :
  dec_record bs = DOk (r, t) -> length t < length bs.
Proof.
  intros H. apply dec_record_consumed_min in H. lia.
Qed.

Lemma scan_fuel_indep : forall f1 f2 bs,
  length bs < f1 -> length bs < f2 -> scan f1 bs = scan f2 bs.
Proof.
  induction f1 as [|f1 IH]; intros f2 bs H1 H2; [lia|].
  destruct f2 as [|f2]; [lia|].
  rewrite !scan_eq_S. destruct bs as [|b bs]; [reflexivity|].
  destruct (dec_record (b :: bs)) as [[r rest]| |] eqn:E; try reflexivity.
  pose proof (dec_record_shorter _ _ _ E) as Hs.
  rewrite (IH f2 rest) by lia. reflexivity.
Qed.

Lemma scan_file_eq bs :
  scan_file bs =
  match bs with
  | [] => ([], [], SEnd)
  | _ =>
    match dec_record bs with
    | DOk (r, rest) =>
      let '(rs, tl, e) := scan_file rest in
      ((r, N.of_nat (length bs - length rest)) :: rs, tl, e)
    | DEof => ([], bs, SEof)
    | DInvalid => ([], bs, SInvalid)
    end
  end.
Proof.
  unfold scan_file at 1. rewrite scan_eq_S.
  destruct bs as [|b bs]; [reflexivity|].
  destruct (dec_record (b :: bs)) as [[r rest]| |] eqn:E; try reflexivity.
  pose proof (dec_record_shorter _ _ _ E) as Hs.
  unfold scan_file. rewrite (scan_fuel_indep (length (b :: bs)) (S (length rest)) rest) by lia.
  reflexivity.
Qed.

Definition stops (tl : bytes) (e : scan_end) : Prop :=
  match e with
  | SEnd => tl = []
  | SEof => tl <> [] /\ dec_record tl = DEof
  | SInvalid => tl <> [] /\ dec_record tl = DInvalid
  | SFuel => False
  end.

Lemma scan_file_stop tl e : stops tl e -> scan_file tl = ([], tl, e).
Proof.
  intros S. rewrite scan_file_eq. destruct e; cbn [stops] in S.
  - subst tl. reflexivity.
  - destruct S as [N ->]. destruct tl; [congruence|reflexivity].
  - destruct S as [N ->]. destruct tl; [congruence|reflexivity].
  - destruct S.
Qed.

Lemma scan_file_record r t :
  wf_record r ->
  scan_file (enc_record r ++ t) =
  let '(rs, tl, e) := scan_file t in ((r, rec_size r) :: rs, tl, e).
Proof.
  intros Hr. rewrite scan_file_eq, (dec_enc_record r t Hr).
  rewrite app_length, Nat.add_sub.
  destruct (enc_record r ++ t) as [|b bs] eqn:E; [|reflexivity].
  apply (f_equal (@length byte)) in E. rewrite app_length in E.
  pose proof (enc_record_min_len r). cbn [length] in E. lia.
Qed.

Lemma scan_file_encs_app rs t :
  Forall wf_record rs ->
  scan_file (encs rs ++ t) =
  let '(rs', tl, e) := scan_file t in (sized rs ++ rs', tl, e).
Proof.
  intros H. induction H as [|r rs Hr Hrs IH].
  - cbn [encs map concat sized app]. destruct (scan_file t) as [[rs' tl] e]. reflexivity.
  - rewrite encs_cons, <- app_assoc, (scan_file_record r _ Hr), IH.
    destruct (scan_file t) as [[rs' tl] e]. reflexivity.
Qed.

Lemma scan_file_stops rs tl e :
  Forall wf_record rs -> stops tl e -> scan_file (encs rs ++ tl) = (sized rs, tl, e).
Proof.
  intros W S. rewrite (scan_file_encs_app rs tl W), (scan_file_stop tl e S), app_nil_r.
  reflexivity.
Qed.

Theorem scan_encs : forall rs,
  Forall wf_record rs -> scan_file (encs rs) = (sized rs, [], SEnd).
Proof.
  intros rs H. rewrite <- (app_nil_r (encs rs)) at 1. now apply scan_file_stops.
Qed.

Theorem scan_torn : forall rs r q,
  Forall wf_record rs -> wf_record r -> pprefix q (enc_record r) -> q <> [] ->
  scan_file (encs rs ++ q) = (sized rs, q, SEof).
Proof.
  intros rs r q Hrs Hr Hq Hne.
  exact (scan_file_stops rs q SEof Hrs (conj Hne (dec_record_prefix_eof r q Hr Hq))).
Qed.

Lemma pprefix_firstn (p : nat) (x : bytes) : p < length x -> pprefix (firstn p x) x.
Proof.
  intros H. exists (skipn p x). split.
  - intros E. apply (f_equal (@length byte)) in E. rewrite skipn_length in E.
    cbn [length] in E. lia.
  - symmetry. apply firstn_skipn.
Qed.

Theorem cut_shape : forall rs p,
  p <= length (encs rs) ->
  exists k q,
    firstn p (encs rs) = encs (firstn k rs) ++ q /\
    (q = [] \/ exists r, nth_error rs k = Some r /\ pprefix q (enc_record r)).
Proof.
  induction rs as [|r rs IH]; intros p Hp.
  - exists 0, []. split; [|left; reflexivity].
    cbn [encs map concat] in *. rewrite firstn_nil. reflexivity.
  - rewrite encs_cons in *. rewrite app_length in Hp.
    destruct (Nat.lt_ge_cases p (length (enc_record r))) as [Hlt|Hge].
    + exists 0, (firstn p (enc_record r)). split.
      * rewrite firstn_app. replace (p - length (enc_record r)) with 0 by lia.
        cbn [firstn encs map concat app]. rewrite app_nil_r. reflexivity.
      * right. exists r. split; [reflexivity|]. apply pprefix_firstn, Hlt.
    + destruct (IH (p - length (enc_record r)) ltac:(lia)) as [k [q [E Hq]]].
      exists (S k), q. split.
      * rewrite firstn_app, firstn_all2 by lia. rewrite E.
        cbn [firstn]. rewrite encs_cons, app_assoc. reflexivity.
      * destruct Hq as [Hq|[r' [Hn Hq]]]; [left; exact Hq|].
        right. exists r'. split; [exact Hn|exact Hq].
Qed.

Lemma Forall_firstn_ {A} (P : A -> Prop) (l : list A) k : Forall P l -> Forall P (firstn k l).
Proof.
  intros H. revert k. induction H as [|x l Hx Hl IH]; intros k.
  - rewrite firstn_nil. constructor.
  - destruct k as [|k]; cbn [firstn]; constructor; auto.
Qed.

(* cutting a file of complete records anywhere leaves exactly the complete
   records before the cut *)
Theorem scan_cut : forall rs p,
  Forall wf_record rs -> p <= length (encs rs) ->
  exists k q,
    firstn p (encs rs) = encs (firstn k rs) ++ q /\
    (q = [] \/ exists r, nth_error rs k = Some r /\ pprefix q (enc_record r)) /\
    scan_file (firstn p (encs rs)) =
      (sized (firstn k rs), q, match q with [] => SEnd | _ => SEof end).
Proof.
  intros rs p Hrs Hp.
  destruct (cut_shape rs p Hp) as [k [q [E Hq]]].
  exists k, q. split; [exact E|]. split; [exact Hq|].
  pose proof (Forall_firstn_ _ _ k Hrs) as Hk.
  rewrite E. destruct q as [|b q].
  - rewrite app_nil_r. apply scan_encs, Hk.
  - destruct Hq as [Hq|[r [Hn Hq]]]; [discriminate|].
    apply (scan_torn _ r); [exact Hk| |exact Hq|discriminate].
    rewrite Forall_forall in Hrs. apply Hrs. eapply nth_error_In, Hn.
Qed.

Lemma zeros_app a b : zeros (a + b) = zeros a ++ zeros b.
Proof. unfold zeros. apply repeat_app. Qed.

Lemma zeros_length z : length (zeros z) = z.
Proof. apply repeat_length. Qed.

Lemma all_zero_zeros z : all_zero (zeros z) = true.
Proof.
  induction z as [|z IH]; [reflexivity|].
  unfold zeros, all_zero in *. cbn [repeat forallb]. rewrite IH. reflexivity.
Qed.

Lemma zeros_nonempty z : 1 <= z -> zeros z <> [].
Proof. destruct z; [lia|discriminate]. Qed.

(* the checksum of the 20 zero bytes that form the body "RVote (0,0)" *)

Lemma crc32_zeros20_nonzero : crc32 (zeros 20) <> 0%N.
Proof. vm_compute. discriminate. Qed.

Lemma enc_body_vote0 : enc_body (RVote (0%N, 0%N)) = zeros 20.
Proof. vm_compute. reflexivity. Qed.

Lemma enc_u64_0 : enc_u64 0 = zeros 8.
Proof. vm_compute. reflexivity. Qed.

Lemma dec_record_zeros_short z : z < 28 -> dec_record (zeros z) = DEof.
Proof.
  intros H.
  do 28 (destruct z as [|z]; [vm_compute; reflexivity|]). lia.
Qed.

Lemma dec_record_zeros28 t : dec_record (zeros 28 ++ t) = DInvalid.
Proof.
  change 28 with (20 + 8). rewrite zeros_app, <- app_assoc.
  rewrite dec_record_eq, <- enc_body_vote0.
  rewrite (g_rt _ _ _ Good_p_body) by (cbn; unfold wf_pair, wf_u64; cbn; split; reflexivity).
  rewrite firstn_consumed, <- enc_u64_0.
  rewrite (g_rt _ _ _ Good_u64) by reflexivity.
  rewrite enc_body_vote0.
  destruct (N.eqb_spec 0%N (crc32 (zeros 20))) as [E|E]; [|reflexivity].
  exfalso. apply crc32_zeros20_nonzero. symmetry. exact E.
Qed.

Lemma dec_record_zeros_long z : 28 <= z -> dec_record (zeros z) = DInvalid.
Proof.
  intros H. replace z with (28 + (z - 28)) by lia.
  rewrite zeros_app. apply dec_record_zeros28.
Qed.

Theorem scan_zero_tail_short : forall rs z,
  Forall wf_record rs -> 1 <= z -> z < 28 ->
  scan_file (encs rs ++ zeros z) = (sized rs, zeros z, SEof).
Proof.
  intros rs z Hrs H1 H2.
  exact (scan_file_stops rs _ SEof Hrs (conj (zeros_nonempty z H1) (dec_record_zeros_short z H2))).
Qed.

Theorem scan_zero_tail_long : forall rs z,
  Forall wf_record rs -> 28 <= z ->
  scan_file (encs rs ++ zeros z) = (sized rs, zeros z, SInvalid).
Proof.
  intros rs z Hrs H.
  exact (scan_file_stops rs _ SInvalid Hrs
           (conj (zeros_nonempty z ltac:(lia)) (dec_record_zeros_long z H))).
Qed.

Lemma sized_sizes rs : Forall (fun x => snd x = rec_size (fst x)) (sized rs).
Proof. induction rs; constructor; [reflexivity|assumption]. Qed.

Lemma scan_file_inv : forall bs recs tl e,
  scan_file bs = (recs, tl, e) ->
  exists rs, recs = sized rs /\ bs = encs rs ++ tl /\ Forall wf_record rs /\ stops tl e.
Proof.
  intros bs. remember (length bs) as n eqn:En. revert bs En.
  induction n as [n IH] using lt_wf_ind. intros bs En recs tl e H.
  rewrite scan_file_eq in H. destruct bs as [|b bs].
  - injection H as <- <- <-. exists []. repeat split. constructor.
  - destruct (dec_record (b :: bs)) as [[r t]| |] eqn:E.
    + destruct (scan_file t) as [[rs' tl'] e'] eqn:Es. injection H as <- <- <-.
      pose proof (dec_record_shorter _ _ _ E) as Hs.
      destruct (IH (length t) ltac:(lia) t eq_refl _ _ _ Es) as (rs & -> & Et & W & S).
      pose proof (dec_record_consumed _ _ _ E) as Hsz.
      apply dec_record_canonical in E as [Hwf Eb].
      exists (r :: rs). rewrite encs_cons, <- app_assoc, <- Et.
      repeat split; [unfold sized; cbn [map]; rewrite <- Hsz; reflexivity|exact Eb|
                     constructor; assumption|exact S].
    + injection H as <- <- <-. exists []. repeat split; [constructor|discriminate|exact E].
    + injection H as <- <- <-. exists []. repeat split; [constructor|discriminate|exact E].
Qed.

Theorem scan_file_iff bs recs tl e :
  scan_file bs = (recs, tl, e) <->
  exists rs, recs = sized rs /\ bs = encs rs ++ tl /\ Forall wf_record rs /\ stops tl e.
Proof.
  split; [apply scan_file_inv|].
  intros (rs & -> & -> & W & S). now apply scan_file_stops.
Qed.

Theorem scan_file_no_fuel : forall bs, let '(_, _, e) := scan_file bs in e <> SFuel.
Proof.
  intros bs. destruct (scan_file bs) as [[recs tl] e] eqn:E.
  destruct (scan_file_inv _ _ _ _ E) as (_ & _ & _ & _ & S). intros ->. exact S.
Qed.

Theorem scan_file_sound : forall bs recs rest e,
  scan_file bs = (recs, rest, e) ->
  bs = encs (map fst recs) ++ rest /\
  Forall wf_record (map fst recs) /\
  Forall (fun x => snd x = rec_size (fst x)) recs.
Proof.
  intros bs recs rest e H. destruct (scan_file_inv _ _ _ _ H) as (rs & -> & E & W & _).
  rewrite sized_fst. split; [exact E|]. split; [exact W|apply sized_sizes].
Qed.

(* the conclusion is [stops rest e], written out *)
Theorem scan_file_end : forall bs recs rest e,
  scan_file bs = (recs, rest, e) ->
  match e with
  | SEnd => rest = []
  | SEof => rest <> [] /\ dec_record rest = DEof
  | SInvalid => rest <> [] /\ dec_record rest = DInvalid
  | SFuel => False
  end.
Proof.
  intros bs recs rest e H. destruct (scan_file_inv _ _ _ _ H) as (_ & _ & _ & _ & S). exact S.
Qed.

Print Assumptions scan_file_no_fuel.
Print Assumptions scan_encs.
Print Assumptions scan_torn.
Print Assumptions scan_cut.
Print Assumptions scan_zero_tail_short.
Print Assumptions scan_zero_tail_long.
Print Assumptions scan_file_sound.
Print Assumptions scan_file_end.
