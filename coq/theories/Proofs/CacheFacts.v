(* C15, cache level: the payload cache of Model/Cache.v. Every loop of the cache pops from one end while a test
   holds ([pop_gen], [pop_gen_spec]); each operation gets one statement [cache_*_spec] from it; [cache_ok] is the
   accounting invariant (sorted keys, exact size). *)
From Coq Require Import List NArith Bool Lia Sorted.
From RaftLog Require Import Model.Types Model.Cache.
From RaftLog Require Import Proofs.OrderFacts.
Import ListNotations.
Local Open Scope N_scope.

Definition key_lt (a b : logid) : Prop := pair_cmp a b = Lt.
Definition sorted_keys (es : list (logid * payload)) : Prop :=
  StronglySorted key_lt (map fst es).
Definition total (es : list (logid * payload)) : N :=
  fold_right (fun e acc => (psize (snd e) + acc)%N) 0%N es.
Definition cache_ok (c : cache) : Prop :=
  sorted_keys (ch_entries c) /\ ch_size c = total (ch_entries c).
Definition keys_le (c : cache) (b : option logid) : Prop :=
  forall id p, In (id, p) (ch_entries c) -> opair_leb (Some id) b = true.

Lemma key_lt_trans (a b c : logid) : key_lt a b -> key_lt b c -> key_lt a c.
Proof. apply pair_cmp_lt_trans. Qed.

Lemma key_lt_irrefl (a : logid) : ~ key_lt a a.
Proof. unfold key_lt. rewrite pair_cmp_refl. discriminate. Qed.

Lemma pair_cmp_total (a b : N * N) :
  pair_cmp a b = Lt \/ a = b \/ pair_cmp b a = Lt.
Proof.
  destruct (pair_cmp a b) eqn:E.
  - right; left; apply pair_cmp_eq; exact E.
  - left; reflexivity.
  - right; right; apply pair_cmp_Gt_Lt; exact E.
Qed.

Lemma pair_leb_trans (a b c : N * N) :
  pair_leb a b = true -> pair_leb b c = true -> pair_leb a c = true.
Proof. rewrite !pair_leb_le. apply pair_cmp_le_trans. Qed.

Lemma pair_lt_leb (a b : N * N) : pair_cmp a b = Lt -> pair_leb a b = true.
Proof. intros H. apply pair_leb_le. rewrite H. discriminate. Qed.

Lemma opair_leb_Some_None (a : N * N) : opair_leb (Some a) None = false.
Proof. reflexivity. Qed.
Lemma opair_leb_None (b : option (N * N)) : opair_leb None b = true.
Proof. apply opair_leb_le, opair_None_le. Qed.
Lemma opair_ltb_None_Some (b : N * N) : opair_ltb None (Some b) = true.
Proof. reflexivity. Qed.
Lemma opair_ltb_None_r (a : option (N * N)) : opair_ltb a None = false.
Proof. destruct a; reflexivity. Qed.

Lemma opair_cmp_antisym (a b : option (N * N)) : opair_cmp a b = CompOpp (opair_cmp b a).
Proof. apply opair_cmp_opp. Qed.

Lemma opair_cmp_eq (a b : option (N * N)) : opair_cmp a b = Eq <-> a = b.
Proof. split; [apply opair_cmp_Eq_inv|intros ->; apply opair_cmp_refl]. Qed.

Lemma opair_leb_refl (a : option (N * N)) : opair_leb a a = true.
Proof. apply opair_leb_le, opair_eq_le. Qed.

Lemma opair_leb_trans (a b c : option (N * N)) :
  opair_leb a b = true -> opair_leb b c = true -> opair_leb a c = true.
Proof. rewrite !opair_leb_le. apply opair_le_trans. Qed.

Lemma opair_ltb_false_iff (a b : option (N * N)) :
  opair_ltb a b = false <-> opair_leb b a = true.
Proof. rewrite opair_ltb_ge, opair_leb_le. reflexivity. Qed.

Lemma opair_leb_false_iff (a b : option (N * N)) :
  opair_leb a b = false <-> opair_ltb b a = true.
Proof. rewrite opair_leb_gt, opair_ltb_lt. reflexivity. Qed.

Lemma opair_ltb_leb (a b : option (N * N)) : opair_ltb a b = true -> opair_leb a b = true.
Proof. rewrite opair_ltb_lt, opair_leb_le. apply opair_lt_le. Qed.

Lemma opair_le_gt_lt (id k : N * N) (b : option (N * N)) :
  opair_leb (Some id) b = true -> opair_leb (Some k) b = false -> pair_cmp id k = Lt.
Proof. rewrite opair_leb_le, opair_leb_gt. apply (opair_le_lt_trans (Some id) b (Some k)). Qed.

Lemma opair_gt_mono (id id' : N * N) (b : option (N * N)) :
  opair_leb (Some id) b = false -> pair_leb id id' = true -> opair_leb (Some id') b = false.
Proof. rewrite !opair_leb_gt, pair_leb_le. apply (opair_lt_le_trans b (Some id) (Some id')). Qed.

Lemma sorted_keys_nil : sorted_keys [].
Proof. constructor. Qed.

Lemma sorted_keys_app_iff (l1 l2 : list (logid * payload)) :
  sorted_keys (l1 ++ l2) <->
  sorted_keys l1 /\ sorted_keys l2 /\
  (forall e1 e2, In e1 l1 -> In e2 l2 -> key_lt (fst e1) (fst e2)).
Proof.
  unfold sorted_keys. rewrite !SS_map. split.
  - apply SS_app_inv.
  - intros (H1 & H2 & H3). apply SS_app_intro; assumption.
Qed.

Lemma sorted_keys_suffix (pre es : list (logid * payload)) :
  sorted_keys (pre ++ es) -> sorted_keys es.
Proof. intros H. apply sorted_keys_app_iff in H. tauto. Qed.

Lemma sorted_keys_prefix (es suf : list (logid * payload)) :
  sorted_keys (es ++ suf) -> sorted_keys es.
Proof. intros H. apply sorted_keys_app_iff in H. tauto. Qed.

Lemma sorted_keys_cons_iff (e : logid * payload) (es : list (logid * payload)) :
  sorted_keys (e :: es) <->
  sorted_keys es /\ (forall e', In e' es -> key_lt (fst e) (fst e')).
Proof.
  change (e :: es) with ([e] ++ es). rewrite sorted_keys_app_iff. split.
  - intros (_ & H2 & H3). split; [assumption|]. intros e' He'. apply H3; [left; reflexivity|exact He'].
  - intros (H2 & H3). split; [repeat constructor|]. split; [assumption|].
    intros e1 e2 [<-|[]] He2. apply H3; exact He2.
Qed.

Lemma sorted_keys_functional (es : list (logid * payload)) k v v' :
  sorted_keys es -> In (k, v) es -> In (k, v') es -> v = v'.
Proof.
  induction es as [|e es IH]; intros Hs H1 H2; [destruct H1|].
  apply sorted_keys_cons_iff in Hs. destruct Hs as [Hs Hlt].
  destruct H1 as [H1|H1], H2 as [H2|H2].
  - congruence.
  - subst e. apply Hlt in H2. cbn [fst] in H2. exfalso. exact (key_lt_irrefl _ H2).
  - subst e. apply Hlt in H1. cbn [fst] in H1. exfalso. exact (key_lt_irrefl _ H1).
  - apply IH; assumption.
Qed.

Lemma sorted_keys_NoDup (es : list (logid * payload)) :
  sorted_keys es -> NoDup (map fst es).
Proof.
  induction es as [|e es IH]; intros Hs; cbn [map]; [constructor|].
  apply sorted_keys_cons_iff in Hs. destruct Hs as [Hs Hlt].
  constructor; [|apply IH; exact Hs].
  intros Hin. apply in_map_iff in Hin. destruct Hin as (e' & Heq & He').
  apply Hlt in He'. rewrite Heq in He'. exact (key_lt_irrefl _ He').
Qed.

Lemma total_nil : total [] = 0.
Proof. reflexivity. Qed.

Lemma total_cons e es : total (e :: es) = psize (snd e) + total es.
Proof. reflexivity. Qed.

Lemma total_app (l1 l2 : list (logid * payload)) : total (l1 ++ l2) = total l1 + total l2.
Proof.
  induction l1 as [|e l1 IH]; cbn [app].
  - rewrite total_nil. lia.
  - rewrite !total_cons, IH. lia.
Qed.

Lemma total_rev (l : list (logid * payload)) : total (rev l) = total l.
Proof.
  induction l as [|e l IH]; cbn [rev]; [reflexivity|].
  rewrite total_app, IH, !total_cons, total_nil. lia.
Qed.

Lemma ent_insert_in k v es e :
  In e (ent_insert k v es) -> e = (k, v) \/ In e es.
Proof.
  induction es as [|[k' v'] r IH]; cbn [ent_insert]; intros H.
  - destruct H as [H|[]]. left; congruence.
  - destruct (pair_cmp k k') eqn:E.
    + destruct H as [H|H]; [left; congruence | right; right; exact H].
    + destruct H as [H|H]; [left; congruence | right; exact H].
    + destruct H as [H|H]; [right; left; exact H|].
      apply IH in H. destruct H as [H|H]; [left; exact H | right; right; exact H].
Qed.

Lemma ent_insert_in_new k v es : In (k, v) (ent_insert k v es).
Proof.
  induction es as [|[k' v'] r IH]; cbn [ent_insert]; [left; reflexivity|].
  destruct (pair_cmp k k'); [left; reflexivity | left; reflexivity | right; exact IH].
Qed.

Lemma ent_insert_in_old k v es e :
  In e es -> fst e <> k -> In e (ent_insert k v es).
Proof.
  induction es as [|[k' v'] r IH]; cbn [ent_insert]; intros H Hne; [destruct H|].
  destruct (pair_cmp k k') eqn:E.
  - apply pair_cmp_eq in E. subst k'. destruct H as [H|H].
    + subst e. cbn [fst] in Hne. congruence.
    + right; exact H.
  - right; exact H.
  - destruct H as [H|H]; [left; exact H | right; apply IH; assumption].
Qed.

Lemma ent_insert_sorted k v es : sorted_keys es -> sorted_keys (ent_insert k v es).
Proof.
  induction es as [|[k' v'] r IH]; cbn [ent_insert]; intros Hs.
  - repeat constructor.
  - pose proof Hs as Hs0. apply sorted_keys_cons_iff in Hs. destruct Hs as [Hr Hlt].
    destruct (pair_cmp k k') eqn:E.
    + apply pair_cmp_eq in E. subst k'. apply sorted_keys_cons_iff. split; [exact Hr|].
      intros e' He'. apply Hlt in He'. exact He'.
    + apply sorted_keys_cons_iff. split; [exact Hs0|].
      intros e' [<-|He']; cbn [fst]; [exact E|].
      apply Hlt in He'. cbn [fst] in He'. eapply key_lt_trans; [exact E | exact He'].
    + apply sorted_keys_cons_iff. split; [apply IH; exact Hr|].
      intros e' He'. apply ent_insert_in in He'. destruct He' as [->|He']; cbn [fst].
      * apply pair_cmp_Gt_Lt. exact E.
      * apply Hlt in He'. exact He'.
Qed.

Lemma ent_insert_above k v es :
  (forall e, In e es -> key_lt (fst e) k) -> ent_insert k v es = es ++ [(k, v)].
Proof.
  induction es as [|[k' v'] r IH]; cbn [ent_insert app]; intros H; [reflexivity|].
  assert (Hk : key_lt k' k) by (apply (H (k', v')); left; reflexivity).
  unfold key_lt in Hk. apply pair_cmp_Gt_Lt in Hk. rewrite Hk.
  rewrite IH; [reflexivity|]. intros e He. apply H. right; exact He.
Qed.

Lemma ent_insert_total_fresh k v es :
  ~ In k (map fst es) -> total (ent_insert k v es) = total es + psize v.
Proof.
  induction es as [|[k' v'] r IH]; cbn [ent_insert map fst]; intros Hn.
  - rewrite total_cons, total_nil. cbn [snd]. lia.
  - destruct (pair_cmp k k') eqn:E.
    + apply pair_cmp_eq in E. exfalso. apply Hn. left; congruence.
    + rewrite !total_cons. cbn [snd]. lia.
    + rewrite !total_cons, IH; [cbn [snd]; lia|].
      intros Hin. apply Hn. right; exact Hin.
Qed.

Lemma ent_insert_length_fresh k v es :
  ~ In k (map fst es) -> length (ent_insert k v es) = S (length es).
Proof.
  induction es as [|[k' v'] r IH]; cbn [ent_insert map fst]; intros Hn; [reflexivity|].
  destruct (pair_cmp k k') eqn:E.
  - apply pair_cmp_eq in E. exfalso. apply Hn. left; congruence.
  - reflexivity.
  - cbn [length]. rewrite IH; [reflexivity|]. intros Hin. apply Hn. right; exact Hin.
Qed.

Lemma above_not_in k (es : list (logid * payload)) :
  (forall id p, In (id, p) es -> key_lt id k) -> ~ In k (map fst es).
Proof.
  intros H Hin. apply in_map_iff in Hin. destruct Hin as ([id p] & Heq & He).
  cbn [fst] in Heq. subst id. apply H in He. exact (key_lt_irrefl _ He).
Qed.

Lemma ent_get_insert_same k v es : ent_get k (ent_insert k v es) = Some v.
Proof.
  induction es as [|[k' v'] r IH]; cbn [ent_insert ent_get].
  - rewrite pair_eqb_refl. reflexivity.
  - destruct (pair_cmp k k') eqn:E; cbn [ent_get].
    + rewrite pair_eqb_refl. reflexivity.
    + rewrite pair_eqb_refl. reflexivity.
    + assert (Hne : pair_eqb k k' = false).
      { apply pair_eqb_neq. intros ->. rewrite pair_cmp_refl in E. discriminate. }
      rewrite Hne. exact IH.
Qed.

Lemma ent_get_insert_other k k' v es :
  k' <> k -> ent_get k' (ent_insert k v es) = ent_get k' es.
Proof.
  intros Hne. induction es as [|[k2 v2] r IH]; cbn [ent_insert ent_get].
  - rewrite (proj2 (pair_eqb_neq _ _) Hne). reflexivity.
  - destruct (pair_cmp k k2) eqn:E; cbn [ent_get].
    + apply pair_cmp_eq in E. subst k2. rewrite (proj2 (pair_eqb_neq _ _) Hne). reflexivity.
    + rewrite (proj2 (pair_eqb_neq _ _) Hne). reflexivity.
    + rewrite IH. reflexivity.
Qed.

Lemma ent_get_in k v es : ent_get k es = Some v -> In (k, v) es.
Proof.
  induction es as [|[k' v'] r IH]; cbn [ent_get]; intros H; [discriminate|].
  destruct (pair_eqb k k') eqn:E.
  - apply pair_eqb_eq in E. left; congruence.
  - right; apply IH; exact H.
Qed.

Lemma ent_get_sorted k v es : sorted_keys es -> (ent_get k es = Some v <-> In (k, v) es).
Proof.
  intros Hs. split; [apply ent_get_in|].
  induction es as [|[k' v'] r IH]; intros H; [destruct H|].
  apply sorted_keys_cons_iff in Hs. destruct Hs as [Hr Hlt]. cbn [ent_get].
  destruct H as [H|H].
  - inversion H; subst. rewrite pair_eqb_refl. reflexivity.
  - destruct (pair_eqb k k') eqn:E.
    + apply pair_eqb_eq in E. subst k'. apply Hlt in H. cbn [fst] in H.
      exfalso. exact (key_lt_irrefl _ H).
    + apply IH; assumption.
Qed.

Lemma ent_get_none k (es : list (logid * payload)) :
  ent_get k es = None <-> ~ In k (map fst es).
Proof.
  induction es as [|[k' v'] r IH]; cbn [ent_get map fst In].
  - split; [intros _ [] | reflexivity].
  - destruct (pair_eqb k k') eqn:E.
    + apply pair_eqb_eq in E. split; [discriminate|]. intros H. exfalso. apply H. left; congruence.
    + rewrite IH. split.
      * intros H [H1|H1]; [|exact (H H1)]. subst k'. rewrite pair_eqb_refl in E. discriminate.
      * intros H H1. apply H. right; exact H1.
Qed.

(* ------------------------------------------------------------------ the loops *)
(* every loop pops from one end while a test holds; the test of [evict_loop] also looks at
   the number of entries left and at the size *)
Fixpoint pop_gen (g : nat -> N -> logid -> bool) (es : list (logid * payload)) (sz : N)
  : list (logid * payload) * N :=
  match es with
  | [] => ([], sz)
  | (id, p) :: r => if g (length es) sz id then pop_gen g r (sz - psize p) else (es, sz)
  end.

Lemma drain_loop_gen b es sz :
  drain_loop b es sz = pop_gen (fun _ _ id => opair_leb (Some id) b) es sz.
Proof. revert sz. induction es as [|[id p] r IH]; intros sz; cbn; [|rewrite IH]; reflexivity. Qed.

Lemma purge_loop_gen key b es sz :
  purge_loop key b es sz = pop_gen (fun _ _ id => pair_leb id key && opair_leb (Some id) b) es sz.
Proof. revert sz. induction es as [|[id p] r IH]; intros sz; cbn; [|rewrite IH]; reflexivity. Qed.

Lemma pop_last_loop_gen key es sz :
  pop_last_loop key es sz = pop_gen (fun _ _ id => pair_ltb key id) es sz.
Proof. revert sz. induction es as [|[id p] r IH]; intros sz; cbn; [|rewrite IH]; reflexivity. Qed.

Lemma evict_loop_gen c es sz :
  evict_loop c es sz =
  pop_gen (fun n s id => need_evict c n s && opair_leb (Some id) (ch_evictable c)) es sz.
Proof.
  revert sz. induction es as [|[id p] r IH]; intros sz; [reflexivity|].
  cbn [evict_loop pop_gen]. rewrite IH.
  destruct (need_evict c (length ((id, p) :: r)) sz), (opair_leb (Some id) (ch_evictable c)); reflexivity.
Qed.

Definition head_fails (f : logid -> bool) (es : list (logid * payload)) : Prop :=
  match es with [] => True | (id, _) :: _ => f id = false end.

(* [pre] is what was popped: each member passed the test at the count and size it was met with (the
   [n], [s] of the second clause), which the callers weaken to the part of the test about the key *)
Lemma pop_gen_spec g es sz :
  exists pre, es = pre ++ fst (pop_gen g es sz) /\
    (forall e, In e pre -> exists n s, g n s (fst e) = true) /\
    (sz = total es -> snd (pop_gen g es sz) = total (fst (pop_gen g es sz))) /\
    snd (pop_gen g es sz) <= sz /\
    head_fails (g (length (fst (pop_gen g es sz))) (snd (pop_gen g es sz))) (fst (pop_gen g es sz)).
Proof.
  revert sz. induction es as [|[id p] r IH]; intros sz; cbn [pop_gen].
  - exists []. repeat split; auto. { intros e []. } apply N.le_refl.
  - destruct (g (length ((id, p) :: r)) sz id) eqn:E.
    + destruct (IH (sz - psize p)) as (pre & Hes & Hpre & Hsz & Hle & Hhd).
      exists ((id, p) :: pre). split; [cbn [app]; congruence|].
      split; [|split; [|split; [lia|exact Hhd]]].
      * intros e [<-|He]; [eauto|apply Hpre; exact He].
      * intros Hs. apply Hsz. rewrite Hs, total_cons. cbn [snd]. lia.
    + exists []. cbn [fst snd app head_fails]. repeat split; auto. { intros e []. } apply N.le_refl.
Qed.

Lemma head_above_all (b : option logid) (es : list (logid * payload)) :
  sorted_keys es ->
  head_fails (fun id => opair_leb (Some id) b) es ->
  forall id p, In (id, p) es -> opair_leb (Some id) b = false.
Proof.
  destruct es as [|[id0 p0] r]; intros Hs Hh id p Hin; [destruct Hin|].
  cbn [head_fails] in Hh. apply sorted_keys_cons_iff in Hs. destruct Hs as [_ Hlt].
  destruct Hin as [Hin|Hin].
  - inversion Hin; subst. exact Hh.
  - apply Hlt in Hin. cbn [fst] in Hin. eapply opair_gt_mono; [exact Hh|].
    apply pair_lt_leb. exact Hin.
Qed.

Lemma cache_insert_eq c k v :
  cache_insert c k v =
  cache_with c (snd (evict_loop c (ent_insert k v (ch_entries c)) (ch_size c + psize v)))
               (fst (evict_loop c (ent_insert k v (ch_entries c)) (ch_size c + psize v))).
Proof. unfold cache_insert. destruct (evict_loop _ _ _) as [es' sz']. reflexivity. Qed.

Lemma cache_drain_eq c :
  cache_drain c =
  cache_with c (snd (drain_loop (ch_evictable c) (ch_entries c) (ch_size c)))
               (fst (drain_loop (ch_evictable c) (ch_entries c) (ch_size c))).
Proof. unfold cache_drain. destruct (drain_loop _ _ _) as [es' sz']. reflexivity. Qed.

Lemma cache_purge_upto_eq c key :
  cache_purge_upto c key =
  cache_with c (snd (purge_loop key (ch_evictable c) (ch_entries c) (ch_size c)))
               (fst (purge_loop key (ch_evictable c) (ch_entries c) (ch_size c))).
Proof. unfold cache_purge_upto. destruct (purge_loop _ _ _ _) as [es' sz']. reflexivity. Qed.

Lemma cache_truncate_after_eq c key :
  cache_truncate_after c key =
  cache_with c (snd (pop_last_loop key (rev (ch_entries c)) (ch_size c)))
               (rev (fst (pop_last_loop key (rev (ch_entries c)) (ch_size c)))).
Proof. unfold cache_truncate_after. destruct (pop_last_loop _ _ _) as [es' sz']. reflexivity. Qed.

Lemma cache_insert_evictable c k v : ch_evictable (cache_insert c k v) = ch_evictable c.
Proof. rewrite cache_insert_eq. reflexivity. Qed.
Lemma cache_insert_max_items c k v : ch_max_items (cache_insert c k v) = ch_max_items c.
Proof. rewrite cache_insert_eq. reflexivity. Qed.
Lemma cache_insert_capacity c k v : ch_capacity (cache_insert c k v) = ch_capacity c.
Proof. rewrite cache_insert_eq. reflexivity. Qed.

Lemma cache_drain_evictable c : ch_evictable (cache_drain c) = ch_evictable c.
Proof. rewrite cache_drain_eq. reflexivity. Qed.
Lemma cache_drain_max_items c : ch_max_items (cache_drain c) = ch_max_items c.
Proof. rewrite cache_drain_eq. reflexivity. Qed.
Lemma cache_drain_capacity c : ch_capacity (cache_drain c) = ch_capacity c.
Proof. rewrite cache_drain_eq. reflexivity. Qed.

Lemma cache_purge_upto_evictable c key : ch_evictable (cache_purge_upto c key) = ch_evictable c.
Proof. rewrite cache_purge_upto_eq. reflexivity. Qed.
Lemma cache_purge_upto_max_items c key : ch_max_items (cache_purge_upto c key) = ch_max_items c.
Proof. rewrite cache_purge_upto_eq. reflexivity. Qed.
Lemma cache_purge_upto_capacity c key : ch_capacity (cache_purge_upto c key) = ch_capacity c.
Proof. rewrite cache_purge_upto_eq. reflexivity. Qed.

Lemma cache_truncate_after_evictable c key :
  ch_evictable (cache_truncate_after c key) = ch_evictable c.
Proof. rewrite cache_truncate_after_eq. reflexivity. Qed.
Lemma cache_truncate_after_max_items c key :
  ch_max_items (cache_truncate_after c key) = ch_max_items c.
Proof. rewrite cache_truncate_after_eq. reflexivity. Qed.
Lemma cache_truncate_after_capacity c key :
  ch_capacity (cache_truncate_after c key) = ch_capacity c.
Proof. rewrite cache_truncate_after_eq. reflexivity. Qed.

Lemma cache_clear_evictable c : ch_evictable (cache_clear c) = ch_evictable c.
Proof. reflexivity. Qed.
Lemma cache_clear_max_items c : ch_max_items (cache_clear c) = ch_max_items c.
Proof. reflexivity. Qed.
Lemma cache_clear_capacity c : ch_capacity (cache_clear c) = ch_capacity c.
Proof. reflexivity. Qed.

Lemma cache_set_evictable_max_items c b : ch_max_items (cache_set_evictable c b) = ch_max_items c.
Proof. reflexivity. Qed.
Lemma cache_set_evictable_capacity c b : ch_capacity (cache_set_evictable c b) = ch_capacity c.
Proof. reflexivity. Qed.
Lemma cache_set_evictable_evictable c b : ch_evictable (cache_set_evictable c b) = b.
Proof. reflexivity. Qed.
Lemma cache_set_evictable_entries c b : ch_entries (cache_set_evictable c b) = ch_entries c.
Proof. reflexivity. Qed.
Lemma cache_set_evictable_size c b : ch_size (cache_set_evictable c b) = ch_size c.
Proof. reflexivity. Qed.

Lemma need_evict_ext c c' n sz :
  ch_max_items c' = ch_max_items c -> ch_capacity c' = ch_capacity c ->
  need_evict c' n sz = need_evict c n sz.
Proof. intros H1 H2. unfold need_evict. rewrite H1, H2. reflexivity. Qed.

(* ------------------------------------------------------------------ each operation, in one statement *)
(* insert: the inserted list loses a prefix of evictable entries; afterwards the limits hold
   or the first entry is pinned *)
Lemma cache_insert_spec c k v :
  let c' := cache_insert c k v in
  exists pre, ent_insert k v (ch_entries c) = pre ++ ch_entries c' /\
    (forall e, In e pre -> opair_leb (Some (fst e)) (ch_evictable c) = true) /\
    (ch_size c + psize v = total (ent_insert k v (ch_entries c)) -> ch_size c' = total (ch_entries c')) /\
    (need_evict c (length (ch_entries c')) (ch_size c') = false \/
     head_fails (fun id => opair_leb (Some id) (ch_evictable c)) (ch_entries c')).
Proof.
  cbv zeta. rewrite cache_insert_eq, evict_loop_gen. cbn [cache_with ch_entries ch_size].
  destruct (pop_gen_spec (fun n s id => need_evict c n s && opair_leb (Some id) (ch_evictable c))
              (ent_insert k v (ch_entries c)) (ch_size c + psize v)) as (pre & H1 & H2 & H3 & _ & H5).
  exists pre. split; [exact H1|]. split; [|split; [exact H3|]].
  - intros e He. destruct (H2 e He) as (n & s & H). apply andb_true_iff in H. apply H.
  - destruct (fst (pop_gen _ _ _)) as [|[id p] t]; [right; exact I|].
    apply andb_false_iff in H5. exact H5.
Qed.

Lemma cache_purge_upto_spec c key :
  let c' := cache_purge_upto c key in
  exists pre, ch_entries c = pre ++ ch_entries c' /\
    (forall e, In e pre -> pair_leb (fst e) key = true /\
                           opair_leb (Some (fst e)) (ch_evictable c) = true) /\
    (ch_size c = total (ch_entries c) -> ch_size c' = total (ch_entries c')) /\
    ch_size c' <= ch_size c.
Proof.
  cbv zeta. rewrite cache_purge_upto_eq, purge_loop_gen. cbn [cache_with ch_entries ch_size].
  destruct (pop_gen_spec (fun _ _ id => pair_leb id key && opair_leb (Some id) (ch_evictable c))
              (ch_entries c) (ch_size c)) as (pre & H1 & H2 & H3 & H4 & _).
  exists pre. split; [exact H1|]. split; [|split; assumption].
  intros e He. destruct (H2 e He) as (_ & _ & H). apply andb_true_iff in H. exact H.
Qed.

Lemma cache_drain_spec c :
  let c' := cache_drain c in
  exists pre, ch_entries c = pre ++ ch_entries c' /\
    (forall e, In e pre -> opair_leb (Some (fst e)) (ch_evictable c) = true) /\
    (ch_size c = total (ch_entries c) -> ch_size c' = total (ch_entries c')) /\
    head_fails (fun id => opair_leb (Some id) (ch_evictable c)) (ch_entries c').
Proof.
  cbv zeta. rewrite cache_drain_eq, drain_loop_gen. cbn [cache_with ch_entries ch_size].
  destruct (pop_gen_spec (fun _ _ id => opair_leb (Some id) (ch_evictable c))
              (ch_entries c) (ch_size c)) as (pre & H1 & H2 & H3 & _ & H5).
  exists pre. split; [exact H1|]. split; [|split; assumption].
  intros e He. destruct (H2 e He) as (_ & _ & H). exact H.
Qed.

Lemma cache_truncate_after_spec c key :
  let c' := cache_truncate_after c key in
  exists suf, ch_entries c = ch_entries c' ++ suf /\
    (forall e, In e suf -> pair_ltb key (fst e) = true) /\
    (ch_size c = total (ch_entries c) -> ch_size c' = total (ch_entries c')) /\
    ch_size c' <= ch_size c /\
    head_fails (fun id => pair_ltb key id) (rev (ch_entries c')).
Proof.
  cbv zeta. rewrite cache_truncate_after_eq, pop_last_loop_gen. cbn [cache_with ch_entries ch_size].
  destruct (pop_gen_spec (fun _ _ id => pair_ltb key id) (rev (ch_entries c)) (ch_size c))
    as (pre & H1 & H2 & H3 & H4 & H5).
  exists (rev pre). rewrite rev_involutive, <- rev_app_distr, <- H1, rev_involutive.
  split; [reflexivity|]. split; [|split; [|split; assumption]].
  - intros e He. apply in_rev in He. destruct (H2 e He) as (_ & _ & H). exact H.
  - rewrite !total_rev in *. exact H3.
Qed.

Lemma cache_insert_entries c k v :
  exists pre, ent_insert k v (ch_entries c) = pre ++ ch_entries (cache_insert c k v) /\
    (forall e, In e pre -> opair_leb (Some (fst e)) (ch_evictable c) = true).
Proof. destruct (cache_insert_spec c k v) as (pre & H1 & H2 & _). exists pre. split; assumption. Qed.

Lemma cache_purge_upto_entries c key :
  exists pre, ch_entries c = pre ++ ch_entries (cache_purge_upto c key) /\
    (forall e, In e pre -> pair_leb (fst e) key = true /\
                           opair_leb (Some (fst e)) (ch_evictable c) = true).
Proof. destruct (cache_purge_upto_spec c key) as (pre & H1 & H2 & _). exists pre. split; assumption. Qed.

Lemma cache_drain_entries c :
  exists pre, ch_entries c = pre ++ ch_entries (cache_drain c) /\
    (forall e, In e pre -> opair_leb (Some (fst e)) (ch_evictable c) = true).
Proof. destruct (cache_drain_spec c) as (pre & H1 & H2 & _). exists pre. split; assumption. Qed.

Lemma cache_truncate_after_entries c key :
  sorted_keys (ch_entries c) ->
  ch_entries (cache_truncate_after c key) =
  filter (fun e => pair_leb (fst e) key) (ch_entries c).
Proof.
  intros Hs. destruct (cache_truncate_after_spec c key) as (suf & H1 & H2 & _ & _ & Hh).
  rewrite H1 in Hs. rewrite H1 at 1. rewrite filter_app, (filter_all_false _ suf), app_nil_r.
  2:{ intros e He. apply pair_leb_gt, pair_ltb_lt, H2, He. }
  symmetry. apply filter_all_true. intros e He.
  destruct (rev (ch_entries (cache_truncate_after c key))) as [|[id p] t] eqn:Er; [apply in_rev in He; rewrite Er in He; destruct He|].
  cbn [head_fails] in Hh. apply pair_ltb_ge, pair_leb_le in Hh.
  apply (f_equal (@rev _)) in Er. rewrite rev_involutive in Er. cbn [rev] in Er.
  rewrite Er in He, Hs. apply in_app_or in He. destruct He as [He|[<-|[]]]; [|exact Hh].
  apply sorted_keys_prefix, sorted_keys_app_iff in Hs. destruct Hs as (_ & _ & H3).
  specialize (H3 e (id, p) He (or_introl eq_refl)).
  eapply pair_leb_trans; [apply pair_lt_leb; exact H3|exact Hh].
Qed.

Lemma cache_clear_entries c : ch_entries (cache_clear c) = [].
Proof. reflexivity. Qed.

Lemma cache_truncate_after_incl c key :
  incl (ch_entries (cache_truncate_after c key)) (ch_entries c).
Proof.
  destruct (cache_truncate_after_spec c key) as (suf & H & _).
  intros e He. rewrite H. apply in_or_app. left; exact He.
Qed.
Lemma cache_purge_upto_incl c key : incl (ch_entries (cache_purge_upto c key)) (ch_entries c).
Proof.
  destruct (cache_purge_upto_spec c key) as (pre & H & _).
  intros e He. rewrite H. apply in_or_app. right; exact He.
Qed.
Lemma cache_drain_incl c : incl (ch_entries (cache_drain c)) (ch_entries c).
Proof.
  destruct (cache_drain_spec c) as (pre & H & _).
  intros e He. rewrite H. apply in_or_app. right; exact He.
Qed.
Lemma cache_insert_incl c k v :
  incl (ch_entries (cache_insert c k v)) ((k, v) :: ch_entries c).
Proof.
  destruct (cache_insert_spec c k v) as (pre & H & _).
  intros e He. assert (Hin : In e (ent_insert k v (ch_entries c))).
  { rewrite H. apply in_or_app. right; exact He. }
  apply ent_insert_in in Hin. destruct Hin as [->|Hin]; [left; reflexivity | right; exact Hin].
Qed.

(* ------------------------------------------------------------------ cache_ok is preserved *)
Lemma cache_new_ok mi cap : cache_ok (cache_new mi cap).
Proof. split; [apply sorted_keys_nil | reflexivity]. Qed.

Lemma cache_insert_ok c k v :
  cache_ok c -> (forall id p, In (id, p) (ch_entries c) -> key_lt id k) ->
  cache_ok (cache_insert c k v).
Proof.
  intros [Hs Hsz] H. destruct (cache_insert_spec c k v) as (pre & H1 & _ & H3 & _). split.
  - apply (sorted_keys_suffix pre). rewrite <- H1. apply ent_insert_sorted. exact Hs.
  - apply H3. rewrite ent_insert_total_fresh by (apply above_not_in; exact H). rewrite Hsz. reflexivity.
Qed.

Lemma cache_truncate_after_ok c key : cache_ok c -> cache_ok (cache_truncate_after c key).
Proof.
  intros [Hs Hsz]. destruct (cache_truncate_after_spec c key) as (suf & H1 & _ & H3 & _).
  split; [|exact (H3 Hsz)]. rewrite H1 in Hs. apply sorted_keys_prefix in Hs. exact Hs.
Qed.

Lemma cache_purge_upto_ok c key : cache_ok c -> cache_ok (cache_purge_upto c key).
Proof.
  intros [Hs Hsz]. destruct (cache_purge_upto_spec c key) as (pre & H1 & _ & H3 & _).
  split; [|exact (H3 Hsz)]. rewrite H1 in Hs. apply sorted_keys_suffix in Hs. exact Hs.
Qed.

Lemma cache_drain_ok c : cache_ok c -> cache_ok (cache_drain c).
Proof.
  intros [Hs Hsz]. destruct (cache_drain_spec c) as (pre & H1 & _ & H3 & _).
  split; [|exact (H3 Hsz)]. rewrite H1 in Hs. apply sorted_keys_suffix in Hs. exact Hs.
Qed.

Lemma cache_clear_ok c : cache_ok (cache_clear c).
Proof. split; [apply sorted_keys_nil | reflexivity]. Qed.

Lemma cache_set_evictable_ok c b : cache_ok c -> cache_ok (cache_set_evictable c b).
Proof. intros H. exact H. Qed.

(* ------------------------------------------------------------------ keys_le *)
Lemma keys_le_new mi cap b : keys_le (cache_new mi cap) b.
Proof. intros id p []. Qed.

Lemma keys_le_mono c b b' : keys_le c b -> opair_leb b b' = true -> keys_le c b'.
Proof. intros H Hb id p Hin. eapply opair_leb_trans; [apply (H id p Hin) | exact Hb]. Qed.

Lemma keys_le_incl c c' b : incl (ch_entries c') (ch_entries c) -> keys_le c b -> keys_le c' b.
Proof. intros Hi H id p Hin. apply (H id p). apply Hi. exact Hin. Qed.

Lemma keys_le_set_evictable c b e : keys_le c b -> keys_le (cache_set_evictable c e) b.
Proof. intros H. exact H. Qed.

Lemma keys_le_clear c b : keys_le (cache_clear c) b.
Proof. intros id p []. Qed.

Lemma keys_le_drain c b : keys_le c b -> keys_le (cache_drain c) b.
Proof. apply keys_le_incl, cache_drain_incl. Qed.

Lemma keys_le_purge_upto c key b : keys_le c b -> keys_le (cache_purge_upto c key) b.
Proof. apply keys_le_incl, cache_purge_upto_incl. Qed.

Lemma keys_le_truncate_after c key b : keys_le c b -> keys_le (cache_truncate_after c key) b.
Proof. apply keys_le_incl, cache_truncate_after_incl. Qed.

Lemma keys_le_truncate_after_key c key :
  sorted_keys (ch_entries c) -> keys_le (cache_truncate_after c key) (Some key).
Proof.
  intros Hs id p Hin. rewrite cache_truncate_after_entries in Hin by exact Hs.
  apply filter_In in Hin. destruct Hin as [_ Hle]. exact Hle.
Qed.

Lemma keys_le_insert c k v b :
  keys_le c b -> opair_leb b (Some k) = true -> keys_le (cache_insert c k v) (Some k).
Proof.
  intros H Hb id p Hin. apply cache_insert_incl in Hin. destruct Hin as [Hin|Hin].
  - inversion Hin; subst. apply opair_leb_refl.
  - eapply opair_leb_trans; [apply (H id p Hin) | exact Hb].
Qed.

Lemma keys_le_below c b k :
  keys_le c b -> opair_leb (Some k) b = false ->
  forall id p, In (id, p) (ch_entries c) -> key_lt id k.
Proof. intros H Hk id p Hin. eapply opair_le_gt_lt; [apply (H id p Hin) | exact Hk]. Qed.

(* ------------------------------------------------------------------ C15 at the cache level *)
(* over a limit after an insert: every resident entry is above the boundary *)
Theorem C15_over_limit_pinned_cache c k v :
  cache_ok c ->
  let c' := cache_insert c k v in
  need_evict c' (length (ch_entries c')) (ch_size c') = true ->
  forall id p, In (id, p) (ch_entries c') -> opair_leb (Some id) (ch_evictable c) = false.
Proof.
  intros [Hs _] c'. subst c'.
  rewrite (need_evict_ext c (cache_insert c k v))
    by (apply cache_insert_max_items || apply cache_insert_capacity).
  destruct (cache_insert_spec c k v) as (pre & H1 & _ & _ & H4).
  intros Hne. destruct H4 as [H4|H4]; [congruence|].
  apply head_above_all; [|exact H4].
  apply (sorted_keys_suffix pre). rewrite <- H1. apply ent_insert_sorted. exact Hs.
Qed.

(* after a drain nothing resident is at or below the boundary *)
Theorem C15_drain_cache c :
  cache_ok c ->
  forall id p, In (id, p) (ch_entries (cache_drain c)) -> opair_leb (Some id) (ch_evictable c) = false.
Proof.
  intros [Hs _]. destruct (cache_drain_spec c) as (pre & H1 & _ & _ & H4).
  apply head_above_all; [|exact H4].
  rewrite H1 in Hs. apply sorted_keys_suffix in Hs. exact Hs.
Qed.

(* the reported numbers: item count = number of distinct resident keys, size = payload bytes *)
Lemma cache_ok_counts c :
  cache_ok c ->
  NoDup (map fst (ch_entries c)) /\ ch_size c = total (ch_entries c).
Proof. intros [Hs Hsz]. split; [apply sorted_keys_NoDup; exact Hs | exact Hsz]. Qed.

Print Assumptions cache_insert_ok.
Print Assumptions cache_truncate_after_entries.
Print Assumptions ent_get_sorted.
Print Assumptions C15_over_limit_pinned_cache.
Print Assumptions C15_drain_cache.
