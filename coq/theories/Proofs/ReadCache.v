(* Property C07: the payload cache under eviction. [CI lg ch sp Q]: the cache [ch] agrees with the
   reference log [sp] on every entry it holds; every live entry (index map [lg]) is resident or
   satisfies [Q] ("readable from its chunk file"), and satisfies [Q] when it is at or below the
   eviction boundary. No cache budget: eviction, purge and drain only drop entries at or below the
   boundary. The one operation that could drop an entry without [Q] is the insertion of an id that
   is not above the boundary: the case of [rec_sw_sim7] that needs a hypothesis (finding F2). *)
From Coq Require Import List NArith Bool Lia Sorted.
From RaftLog Require Import Model.Types Model.Cache Model.Core Model.Recover Spec.Spec.
From RaftLog Require Proofs.CacheFacts Proofs.CacheSys.
From RaftLog Require Import Proofs.JournalChunk.
From RaftLog Require Import Proofs.OrderFacts Proofs.SmFacts Proofs.Refine Proofs.PurgeLive.
Import ListNotations.
Local Open Scope N_scope.

Record CI (lg : logmap) (ch : cache) (sp : spec) (Q : logdata -> Prop) : Prop := mkCI {
  ci_sorted : StronglySorted clt (ch_entries ch);
  ci_le : forall e, In e (ch_entries ch) -> opair_cmp (Some (fst e)) (sp_last sp) <> Gt;
  ci_val : forall id p p', In (id, p) (sp_entries sp) -> In (id, p') (ch_entries ch) -> p' = p;
  ci_res : forall i ld p, In (i, ld) lg -> In (ld_id ld, p) (sp_entries sp) ->
     In (ld_id ld, p) (ch_entries ch) \/ Q ld;
  ci_ev : forall i ld p, In (i, ld) lg -> In (ld_id ld, p) (sp_entries sp) ->
     opair_leb (Some (ld_id ld)) (ch_evictable ch) = true -> Q ld }.

(* the shrink rule behind [CI_drain], [CI_trunc], [CI_purge]: [CI] survives fewer index-map entries, fewer
   log entries and a sub-cache with the same boundary, if the last id still bounds the keys and whatever
   left the cache was at or below the boundary *)
Lemma CI_sub : forall lg ch sp Q lg' ch' sp',
  CI lg ch sp Q ->
  incl lg' lg -> incl (sp_entries sp') (sp_entries sp) ->
  StronglySorted clt (ch_entries ch') -> incl (ch_entries ch') (ch_entries ch) ->
  ch_evictable ch' = ch_evictable ch ->
  (forall e, In e (ch_entries ch') -> opair_cmp (Some (fst e)) (sp_last sp') <> Gt) ->
  (forall id p, In (id, p) (sp_entries sp') -> In (id, p) (ch_entries ch) ->
     In (id, p) (ch_entries ch') \/ opair_leb (Some id) (ch_evictable ch) = true) ->
  CI lg' ch' sp' Q.
Proof.
  intros lg ch sp Q lg' ch' sp' [C1 C2 C3 C4 C5] Hlg Hsp Hs Hch Hev Hle Hkeep.
  constructor.
  - exact Hs.
  - exact Hle.
  - intros id p p' Hp Hp'. apply (C3 id p p'); [apply Hsp; exact Hp|apply Hch; exact Hp'].
  - intros i ld p Hl Hp.
    destruct (C4 i ld p (Hlg _ Hl) (Hsp _ Hp)) as [Hin|HQ]; [|right; exact HQ].
    destruct (Hkeep _ _ Hp Hin) as [Hin'|Hb]; [left; exact Hin'|right].
    apply (C5 i ld p (Hlg _ Hl) (Hsp _ Hp) Hb).
  - intros i ld p Hl Hp Hb. rewrite Hev in Hb. apply (C5 i ld p (Hlg _ Hl) (Hsp _ Hp) Hb).
Qed.

Lemma CI_mono : forall lg ch sp (Q Q' : logdata -> Prop),
  CI lg ch sp Q -> (forall i ld, In (i, ld) lg -> Q ld -> Q' ld) -> CI lg ch sp Q'.
Proof.
  intros lg ch sp Q Q' [C1 C2 C3 C4 C5] H. constructor; try assumption.
  - intros i ld p Hl Hp. destruct (C4 i ld p Hl Hp) as [Hin|HQ]; [left; exact Hin|right; eapply H; eassumption].
  - intros i ld p Hl Hp Hb. eapply H; [exact Hl|]. eapply C5; eassumption.
Qed.

Lemma CI_spec_eq : forall lg ch sp sp' Q,
  sp_entries sp' = sp_entries sp -> sp_purged sp' = sp_purged sp -> CI lg ch sp Q -> CI lg ch sp' Q.
Proof.
  intros lg ch sp sp' Q He Hp [C1 C2 C3 C4 C5].
  assert (HL : sp_last sp' = sp_last sp) by (rewrite !sp_last_olast, He, Hp; reflexivity).
  constructor; rewrite ?He, ?HL; assumption.
Qed.

(* a new boundary and a new notion of "readable from disk" (the worker has run) *)
Lemma CI_reboot : forall lg ch sp (Q Q' : logdata -> Prop) ch',
  CI lg ch sp Q -> ch_entries ch' = ch_entries ch ->
  (forall i ld, In (i, ld) lg -> Q ld -> Q' ld) ->
  (forall i ld p, In (i, ld) lg -> In (ld_id ld, p) (sp_entries sp) ->
     opair_leb (Some (ld_id ld)) (ch_evictable ch') = true -> Q' ld) ->
  CI lg ch' sp Q'.
Proof.
  intros lg ch sp Q Q' ch' [C1 C2 C3 C4 C5] He HQ Hev. constructor; rewrite ?He; try assumption.
  - intros i ld p Hl Hp. destruct (C4 i ld p Hl Hp) as [Hin|H]; [left; exact Hin|right; eapply HQ; eassumption].
Qed.

Lemma CI_drain : forall lg ch sp Q, CI lg ch sp Q -> CI lg (cache_drain ch) sp Q.
Proof.
  intros lg ch sp Q HC. pose proof HC as [C1 C2 C3 C4 C5].
  destruct (CacheFacts.cache_drain_entries ch) as [pre [E Hpre]].
  assert (Hincl : incl (ch_entries (cache_drain ch)) (ch_entries ch)).
  { intros x Hx. rewrite E. apply in_or_app. right. exact Hx. }
  eapply CI_sub; [exact HC|apply incl_refl|apply incl_refl| |exact Hincl| | |].
  - rewrite E in C1. apply SS_app_inv in C1. apply C1.
  - apply CacheFacts.cache_drain_evictable.
  - intros e He. apply C2. apply Hincl. exact He.
  - intros id p _ Hin. rewrite E in Hin. apply in_app_or in Hin. destruct Hin as [Hin|Hin].
    + right. apply (Hpre _ Hin).
    + left. exact Hin.
Qed.

Lemma cache_insert_sorted c k v : CacheFacts.sorted_keys (ch_entries c) ->
  CacheFacts.sorted_keys (ch_entries (cache_insert c k v)).
Proof.
  intros S. destruct (CacheFacts.cache_insert_entries c k v) as (pre & E & _).
  apply (CacheFacts.sorted_keys_suffix pre). rewrite <- E. apply CacheFacts.ent_insert_sorted. exact S.
Qed.

Lemma cache_insert_mem c k v e : CacheFacts.sorted_keys (ch_entries c) ->
  In e (ch_entries (cache_insert c k v)) -> e = (k, v) \/ (In e (ch_entries c) /\ fst e <> k).
Proof.
  intros S He. destruct (CacheFacts.cache_insert_entries c k v) as (pre & E & _).
  assert (Hi : In e (ent_insert k v (ch_entries c))) by (rewrite E; apply in_or_app; right; exact He).
  destruct (N.eq_dec (fst (fst e)) (fst k)) as [E1|E1]; [destruct (N.eq_dec (snd (fst e)) (snd k)) as [E2|E2]|].
  - left. destruct e as [[a b] w]. destruct k as [a' b']. cbn [fst snd] in E1, E2. subst a' b'.
    f_equal. apply (CacheFacts.sorted_keys_functional _ (a, b) w v (CacheFacts.ent_insert_sorted _ _ _ S) Hi).
    apply CacheFacts.ent_insert_in_new.
  - right. apply CacheFacts.ent_insert_in in Hi. destruct Hi as [Hi|Hi]; [subst e; cbn [fst] in E2; congruence|].
    split; [exact Hi|]. intros Ek. apply E2. rewrite Ek. reflexivity.
  - right. apply CacheFacts.ent_insert_in in Hi. destruct Hi as [Hi|Hi]; [subst e; cbn [fst] in E1; congruence|].
    split; [exact Hi|]. intros Ek. apply E1. rewrite Ek. reflexivity.
Qed.

(* conversely, what was there or is inserted stays unless it is at or below the boundary *)
Lemma cache_insert_keeps c k v e :
  e = (k, v) \/ In e (ch_entries c) /\ fst e <> k ->
  In e (ch_entries (cache_insert c k v)) \/ opair_leb (Some (fst e)) (ch_evictable c) = true.
Proof.
  intros He. destruct (CacheFacts.cache_insert_entries c k v) as (pre & E & Hpre).
  assert (Hi : In e (pre ++ ch_entries (cache_insert c k v))).
  { rewrite <- E. destruct He as [->|[He Hne]];
      [apply CacheFacts.ent_insert_in_new|apply CacheFacts.ent_insert_in_old; assumption]. }
  apply in_app_or in Hi. destruct Hi as [Hi|Hi]; [right; exact (Hpre e Hi)|left; exact Hi].
Qed.

Lemma CI_insert : forall lg ch sp Q (id : logid) (p : payload) ld0,
  CI lg ch sp Q ->
  opair_cmp (sp_last sp) (Some id) = Lt ->
  (forall i ld p0, In (i, ld) lg -> In (ld_id ld, p0) (sp_entries sp ++ [(id, p)]) ->
     In (ld_id ld, p0) (sp_entries sp)) ->
  (forall p0, In (id, p0) (sp_entries sp ++ [(id, p)]) -> p0 = p) ->
  ld_id ld0 = id ->
  (opair_leb (Some id) (ch_evictable ch) = true -> Q ld0) ->
  CI (lm_insert (lid_index id) ld0 lg) (cache_insert ch id p)
     (mkSpec (sp_vote sp) (sp_entries sp ++ [(id, p)]) (sp_committed sp) (sp_purged sp) (sp_user sp)) Q.
Proof.
  intros lg ch sp Q id p ld0 [C1 C2 C3 C4 C5] Hlt Hold Hnew Hid Hab.
  assert (F3 : forall e, In e (ch_entries ch) -> pair_cmp (fst e) id = Lt).
  { intros e He. exact (opair_le_lt_trans _ _ _ (C2 e He) Hlt). }
  assert (F4 : forall e, In e (ch_entries ch) -> fst e <> id).
  { intros e He E. specialize (F3 e He). rewrite E, pair_cmp_refl in F3. discriminate F3. }
  pose proof (proj2 (sorted_keys_clt _) C1) as S1.
  set (es' := ch_entries (cache_insert ch id p)).
  assert (Hsub : forall x, In x es' -> In x (ch_entries ch) \/ x = (id, p)).
  { intros x Hx. destruct (cache_insert_mem _ _ _ _ S1 Hx) as [H|[H _]]; [right; exact H|left; exact H]. }
  assert (Hev : ch_evictable (cache_insert ch id p) = ch_evictable ch) by apply CacheFacts.cache_insert_evictable.
  constructor; cbn [sp_entries]; fold es'.
  - apply sorted_keys_clt, cache_insert_sorted, S1.
  - rewrite sp_last_olast. cbn [sp_entries]. rewrite olast_snoc. cbn [fst].
    intros e He. destruct (Hsub _ He) as [H|H].
    + cbn [opair_cmp]. rewrite (F3 _ H). discriminate.
    + subst e. cbn [fst opair_cmp]. rewrite pair_cmp_refl. discriminate.
  - intros id0 p0 p' Hp0 Hp'. destruct (Hsub _ Hp') as [H|H].
    + apply (C3 id0 p0 p'); [|exact H].
      apply in_app_or in Hp0. destruct Hp0 as [Hp0|[Hp0|[]]]; [exact Hp0|].
      inversion Hp0. subst id0. destruct (F4 _ H). reflexivity.
    + inversion H. subst id0 p'. symmetry. apply Hnew. exact Hp0.
  - intros i ld p0 Hl Hp0. apply In_lm_insert in Hl. destruct Hl as [Hl|Hl].
    + inversion Hl. subst i ld. rewrite Hid in *. rewrite (Hnew _ Hp0).
      destruct (cache_insert_keeps ch id p (id, p) (or_introl eq_refl)) as [H|H]; [left; exact H|].
      right. apply Hab, H.
    + pose proof (Hold _ _ _ Hl Hp0) as Hp1.
      destruct (C4 i ld p0 Hl Hp1) as [Hin|HQ]; [|right; exact HQ].
      destruct (cache_insert_keeps ch id p _ (or_intror (conj Hin (F4 _ Hin)))) as [H|H]; [left; exact H|right].
      cbn [fst] in H. apply (C5 i ld p0 Hl Hp1 H).
  - rewrite Hev. intros i ld p0 Hl Hp0 Hb. apply In_lm_insert in Hl. destruct Hl as [Hl|Hl].
    + inversion Hl. subst i ld. rewrite Hid in Hb. apply Hab, Hb.
    + apply (C5 i ld p0 Hl (Hold _ _ _ Hl Hp0) Hb).
Qed.

Definition sm_log_cache_same (r : record) : Prop :=
  match r with RAppend _ _ | RTrunc _ | RPurge _ => False | _ => True end.

Lemma sm_apply_same : forall s r c seg, sm_log_cache_same r ->
  m_log (fst (sm_apply s r c seg)) = m_log s /\ m_cache (fst (sm_apply s r c seg)) = m_cache s.
Proof.
  intros s r c seg H. rewrite sm_apply_eq. destruct r; try destruct H; split; reflexivity.
Qed.

Lemma sm_apply_evictable : forall s r c seg,
  ch_evictable (m_cache (fst (sm_apply s r c seg))) = ch_evictable (m_cache s).
Proof. intros s r c seg. rewrite sm_apply_eq. apply (CacheSys.cache_apply_evictable (m_cache s) r). Qed.

Definition CIs (s : sm) (sp : spec) (Q : logdata -> Prop) : Prop := CI (m_log s) (m_cache s) sp Q.

Definition step_sim7 (s : sm) (sp : spec) (r : record) (w : swrite) (Q : logdata -> Prop) : Prop :=
  match spec_step sp w with
  | Some sp' => forall c seg, CIs (fst (sm_apply s r c seg)) sp' Q
  | None => True
  end.

Lemma sim7_same : forall s sp r w Q, CIs s sp Q -> sm_log_cache_same r ->
  (forall sp', spec_step sp w = Some sp' ->
     sp_entries sp' = sp_entries sp /\ sp_purged sp' = sp_purged sp) ->
  step_sim7 s sp r w Q.
Proof.
  intros s sp r w Q HC Hr Hw. unfold step_sim7.
  destruct (spec_step sp w) as [sp'|] eqn:E; [|exact I].
  destruct (Hw sp' eq_refl) as [He Hp]. intros c seg. unfold CIs.
  destruct (sm_apply_same s r c seg Hr) as [E1 E2]. rewrite E1, E2.
  eapply CI_spec_eq; eassumption.
Qed.

Lemma CI_trunc : forall s sp o Q, spec_wf sp -> CIs s sp Q ->
  (o = sp_purged sp \/ exists id p, o = Some id /\ In (id, p) (sp_entries sp)) ->
  forall c seg,
    CIs (fst (sm_apply s (RTrunc o) c seg))
      (mkSpec (sp_vote sp) (filter (fun e => N.ltb (lid_index (fst e)) (next_index o)) (sp_entries sp))
              (sp_committed sp) (sp_purged sp) (sp_user sp)) Q.
Proof.
  intros s sp o Q HR HC Ho c seg. unfold CIs. rewrite sm_apply_eq. cbn [fst m_log m_cache log_apply cache_rec].
  destruct (sp_last_trunc sp o HR Ho) as (_ & T2 & T3). cbv zeta in T2, T3.
  pose proof HC as [C1 C2 C3 C4 C5].
  assert (Hlg : incl (lm_keep_lt (next_index o) (m_log s)) (m_log s)).
  { intros x Hx. unfold lm_keep_lt in Hx. apply filter_In in Hx. apply Hx. }
  destruct o as [key|].
  - pose proof (cache_truncate_after_entries (m_cache s) key C1) as Hce.
    eapply CI_sub; [exact HC|exact Hlg| | | | | |]; cbn [sp_entries].
    + intros x Hx. apply filter_In in Hx. apply Hx.
    + rewrite Hce. apply SS_filter. exact C1.
    + rewrite Hce. intros x Hx. apply filter_In in Hx. apply Hx.
    + apply CacheFacts.cache_truncate_after_evictable.
    + rewrite sp_last_olast. cbn [sp_entries sp_purged]. rewrite T2, Hce. intros e He. apply filter_In in He. destruct He as [_ He].
      apply negb_true_iff in He. apply pair_ltb_ge in He. exact He.
    + intros id p Hp Hin. left. rewrite Hce. apply filter_In. split; [exact Hin|].
      cbn [fst]. apply negb_true_iff. apply pair_ltb_ge. apply (T3 _ Hp).
  - eapply CI_sub; [exact HC|exact Hlg| | | | | |]; cbn [sp_entries].
    + intros x Hx. apply filter_In in Hx. apply Hx.
    + cbn. constructor.
    + cbn. intros x [].
    + reflexivity.
    + cbn. intros e [].
    + intros id p Hp _. exfalso. apply filter_In in Hp. destruct Hp as [_ Hp].
      cbn [next_index] in Hp. apply N.ltb_lt in Hp. lia.
Qed.

Lemma CI_purge : forall s sp u Q, spec_wf sp -> CIs s sp Q ->
  ((exists p, In (u, p) (sp_entries sp)) \/
   (opair_cmp (sp_last sp) (Some u) = Lt /\ forall l, sp_last sp = Some l -> lid_index l < lid_index u)) ->
  forall c seg,
    CIs (fst (sm_apply s (RPurge u) c seg))
      (mkSpec (sp_vote sp) (filter (fun e => N.ltb (lid_index u) (lid_index (fst e))) (sp_entries sp))
              (sp_committed sp)
              (if opair_ltb (sp_purged sp) (Some u) then Some u else sp_purged sp) (sp_user sp)) Q.
Proof.
  intros s sp u Q HR HC Ho c seg. unfold CIs. rewrite sm_apply_purge. cbn [m_log m_cache].
  destruct (sp_last_purge sp u HR Ho) as (P1 & P2 & _ & P4). cbv zeta in P2, P4.
  apply opair_ltb_lt in P1. rewrite <- P2 in P4.
  pose proof HC as [C1 C2 C3 C4 C5].
  destruct (CacheFacts.cache_purge_upto_entries (m_cache s) u) as [pre [E Hpre]].
  assert (Hincl : incl (ch_entries (cache_purge_upto (m_cache s) u)) (ch_entries (m_cache s))).
  { intros x Hx. rewrite E. apply in_or_app. right. exact Hx. }
  eapply CI_sub; [exact HC| | | |exact Hincl| | |]; cbn [sp_entries].
  - intros x Hx. unfold lm_keep_ge in Hx. apply filter_In in Hx. apply Hx.
  - intros x Hx. apply filter_In in Hx. apply Hx.
  - rewrite E in C1. apply SS_app_inv in C1. apply C1.
  - apply CacheFacts.cache_purge_upto_evictable.
  - intros e He. eapply opair_le_trans; [apply C2; apply Hincl; exact He|].
    rewrite (sp_last_olast (mkSpec _ _ _ _ _)). cbn [sp_entries sp_purged]. rewrite P1. exact P4.
  - intros id p _ Hin. rewrite E in Hin. apply in_app_or in Hin. destruct Hin as [Hin|Hin].
    + right. apply (Hpre _ Hin).
    + left. exact Hin.
Qed.

Lemma entry_fresh s sp id p sp' : R0 s sp -> spec_step sp (SEntry id p) = Some sp' ->
  sp' = mkSpec (sp_vote sp) (sp_entries sp ++ [(id, p)]) (sp_committed sp) (sp_purged sp) (sp_user sp) /\
  opair_cmp (sp_last sp) (Some id) = Lt /\ rs_validate (m_rs s) (RAppend id p) = None /\
  (forall e, In e (sp_entries sp) -> fst e <> id) /\
  (forall i ld, In (i, ld) (m_log s) -> ld_id ld <> id).
Proof.
  intros HR Es. apply R0_Rlog in HR. destruct (spec_entry_inv _ _ _ _ Es) as (E' & Hlt & Hidx & _).
  destruct (entry_above s sp id p HR Hlt Hidx) as [F1 _].
  split; [exact E'|]. split; [exact Hlt|]. split; [exact (entry_validates _ _ _ _ _ HR Es)|].
  assert (Hfresh : forall e, In e (sp_entries sp) -> fst e <> id).
  { intros e He Ee. destruct (F1 e He) as [Hc _]. cbn [fst] in Hc. rewrite Ee, pair_cmp_refl in Hc. discriminate Hc. }
  split; [exact Hfresh|]. intros i ld Hl E.
  destruct (Rlog_key_in s sp (i, ld) HR Hl) as [b [Hb [_ Hid]]]. cbn [snd] in Hid.
  apply (Hfresh b Hb). rewrite <- Hid. exact E.
Qed.

Lemma spec_step_scalar sp w sp' : match w with SVote _ | SCommit _ | SUser _ => True | _ => False end ->
  spec_step sp w = Some sp' -> sp_entries sp' = sp_entries sp /\ sp_purged sp' = sp_purged sp.
Proof.
  destruct w as [v|id p|i|u|id|u]; intros [] H; cbn [spec_step] in H;
    try match type of H with (if ?c then _ else _) = _ => destruct c; [|discriminate H] end;
    inversion H; split; reflexivity.
Qed.

Lemma spec_step_incl : forall sp w sp', (forall id p, w <> SEntry id p) ->
  spec_step sp w = Some sp' -> incl (sp_entries sp') (sp_entries sp).
Proof.
  intros sp w sp' Hw H. destruct w as [v|id p|i|u|id|u]; cbn [spec_step] in H.
  - destruct (ovote_accepts (sp_vote sp) v); inversion H. apply incl_refl.
  - exfalso. apply (Hw id p). reflexivity.
  - destruct (N.eqb i (next_index (sp_purged sp)) || (negb (N.eqb i 0) && sp_has_index sp (i - 1)));
      inversion H. cbn [sp_entries]. intros x Hx. apply filter_In in Hx. apply Hx.
  - destruct (N.ltb (lid_index u) (next_index (sp_purged sp))); [inversion H; apply incl_refl|].
    destruct (N.eqb (lid_index u) U64MAX); inversion H.
    cbn [sp_entries]. intros x Hx. apply filter_In in Hx. apply Hx.
  - destruct (opair_leb (sp_committed sp) (Some id)); inversion H. apply incl_refl.
  - inversion H. apply incl_refl.
Qed.

Lemma rec_sw_entries s sp r w sp' : R0 s sp -> rec_sw sp r w -> spec_step sp w = Some sp' ->
  (forall i ld p0, In (i, ld) (m_log s) -> In (ld_id ld, p0) (sp_entries sp') ->
     In (ld_id ld, p0) (sp_entries sp)) /\
  (forall id p, r = RAppend id p -> forall p0, In (id, p0) (sp_entries sp') -> p0 = p).
Proof.
  intros HR HJ Es.
  assert (Other : (forall id p, r <> RAppend id p) -> (forall id p, w <> SEntry id p) ->
            (forall i ld p0, In (i, ld) (m_log s) -> In (ld_id ld, p0) (sp_entries sp') ->
               In (ld_id ld, p0) (sp_entries sp)) /\
            (forall id p, r = RAppend id p -> forall p0, In (id, p0) (sp_entries sp') -> p0 = p)).
  { intros Hr Hw. split.
    - intros i ld p0 _ Hp. apply (spec_step_incl sp w sp' Hw Es). exact Hp.
    - intros id p Er. destruct (Hr id p Er). }
  destruct HJ as [v|id|u|id p|o Ho|u Hleg E1]; try (apply Other; intros; discriminate).
  destruct (entry_fresh s sp id p sp' HR Es) as (-> & _ & _ & Hfresh & Hlog). cbn [sp_entries]. split.
  - intros i ld p0 Hl Hp. apply in_app_or in Hp. destruct Hp as [Hp|[Hp|[]]]; [exact Hp|].
    inversion Hp as [[H1 H2]]. destruct (Hlog i ld Hl). symmetry. exact H1.
  - intros id' p' Er p0 Hp. inversion Er; subst id' p'. apply in_app_or in Hp. destruct Hp as [Hp|[Hp|[]]].
    + destruct (Hfresh _ Hp). reflexivity.
    + inversion Hp. reflexivity.
Qed.

(* The cache invariant of [t], a state machine with the Raft state of [s] and part of its index map (a
   replay of newer files; [s] itself on the live run), follows the record, provided an appended id that is
   not above the boundary satisfies [Q] where it is stored: the one record that could drop an entry which
   is not readable otherwise is the insertion of an id at or below the boundary (finding F2). *)
Lemma rec_sw_sim7 s t sp r w Q : R0 s sp -> m_rs t = m_rs s -> incl (m_log t) (m_log s) ->
  CIs t sp Q -> rec_sw sp r w ->
  (forall id p c seg, r = RAppend id p -> rs_validate (m_rs s) r = None ->
     opair_leb (Some id) (ch_evictable (m_cache t)) = true -> Q (mkLD id c (fst seg) (snd seg))) ->
  step_sim7 t sp r w Q.
Proof.
  intros HR Ers Hlg HC [v|id|u|id p|o Ho|u E1 Harg] Hab;
    try (apply sim7_same; [exact HC|exact I|intros sp'; apply spec_step_scalar; exact I]).
  - unfold step_sim7. destruct (spec_step sp (SEntry id p)) as [sp'|] eqn:Es; [|exact I]. intros c seg.
    destruct (rec_sw_entries s sp _ _ sp' HR (WsEntry sp id p) Es) as [Hold Hnew].
    destruct (entry_fresh s sp id p sp' HR Es) as (-> & Hlt & HV & _).
    unfold CIs. rewrite sm_apply_eq. cbn [fst m_log m_cache log_apply cache_rec].
    apply CI_insert; [exact HC|exact Hlt| |exact (Hnew id p eq_refl)|reflexivity|exact (Hab id p c seg eq_refl HV)].
    intros i ld p0 Hl. apply (Hold i ld p0 (Hlg _ Hl)).
  - unfold step_sim7. rewrite (trunc_step sp o Ho). apply CI_trunc; [apply (R0_wf _ _ HR)|exact HC|exact Ho].
  - unfold step_sim7. cbn [spec_step]. rewrite E1.
    destruct (N.eqb (lid_index u) U64MAX); [exact I|]. apply CI_purge; [apply (R0_wf _ _ HR)|exact HC|exact Harg].
Qed.

Lemma CI_init : forall cfg Q, CIs (sm_new cfg) spec0 Q.
Proof.
  intros cfg Q. constructor; cbn.
  - constructor.
  - intros e [].
  - intros id p p' [].
  - intros i ld p [].
  - intros i ld p [].
Qed.
