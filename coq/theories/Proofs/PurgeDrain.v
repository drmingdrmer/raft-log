(* Property C14, second half: after the store has been dropped the worker always finishes: from every
   reachable state with a live worker and no call in progress there is a failure-free sequence of worker
   events that empties the queue and ends the batch ([drain_reach], for an instance started on any
   directory; C14_drain_terminates is the empty one). The drain ([drain_batch], [drain_queue])
   asks of its invariant [live] only that a live worker tracks a file, exactly one at the syncs of the newest
   ([tracks]), and never drains a write with a batch ([nfinv]), so that no worker position is stuck. *)
From Coq Require Import List Lia Arith.
From RaftLog Require Import Model.Core
  Model.Sys Spec.Durable.
From RaftLog Require Import Proofs.AckFacts Proofs.JournalDisk Proofs.PurgeDurable.
Import ListNotations.
Local Open Scope N_scope.

Definition nfinv (z : sys2) : Prop :=
  match w_batch (z_w z) with
  | Some b => forall u d c, b_nf b <> Some (WWrite u d c)
  | None => True
  end.

Lemma nfinv_zstep z e z' v : nfinv z -> zstep z e = Some (z', v) -> nfinv z'.
Proof.
  intros Hn H. pose proof (zstep_w _ _ _ _ H) as Ew. unfold nfinv in *.
  destruct e as [o| |k nf|ok|]; try (rewrite Ew; exact Hn).
  - apply zrecv_inv in H as [_ []]. zproj. assumption.
  - (* only a reception installs [b_nf]: an action keeps the [b_nf] of its batch, or leaves no batch
       (the end of the thread, the end of the batch) *)
    apply zwork_inv in H as (b & _ & Eb & W). rewrite Eb in Hn. destruct W; zproj; first [exact Hn|exact I].
Qed.

Definition nf_len (o : option wreq) : nat :=
  match o with Some (WRemove ids) => length ids | _ => O end.

(* a measure that every successful worker action decreases *)
Definition mu (w : worker) : nat :=
  match w_batch w with
  | None => O
  | Some b =>
    let R := nf_len (b_nf b) in
    let P := length (w_postponed w) in
    let W := length (b_writes b) in
    let F := length (w_files w) in
    match b_pos b with
    | BDone => 1
    | BUnlink ids => 2 + length ids
    | BNonFlush => 3 + R
    | BPostponed => 4 + R + P
    | BCallbacks i => 5 + R + P + (W - i)
    | BSyncNew => 6 + R + P + W
    | BSetEvict => 7 + R + P + W
    | BSyncOld => 8 + R + P + W + F
    | BWrite i => 9 + R + P + W + F + (W - i)
    end
  end%nat.

Definition frame (z z' : sys2) : Prop :=
  z_queue z' = z_queue z /\ z_todo z' = z_todo z /\ z_dropped z' = z_dropped z /\ w_alive (z_w z') = true.

Lemma frame_trans z1 z2 z3 : frame z1 z2 -> frame z2 z3 -> frame z1 z3.
Proof. intros (a1&a2&a3&a4) (b1&b2&b3&b4). repeat split; congruence. Qed.

Lemma newest_some w : w_files w <> [] -> exists f, newest w = Some f.
Proof.
  unfold newest. intros H. destruct (rev (w_files w)) as [|f r] eqn:E; [|eauto].
  apply (f_equal (@rev _)) in E. rewrite rev_involutive in E. contradiction.
Qed.

(* the successful action is computed, which is shorter than choosing its constructor of [work_step]
   at each position ([AckFacts.zwork_of_step] would turn it into the step); what is left is the
   arithmetic of [mu] *)
Ltac acted := eexists _, _; split; [reflexivity|]; unfold mu, w_set_pos, w_set_batch; zproj;
  cbn [length nf_len]; split; [lia|repeat split].

Lemma zwork_progress z b : w_files (z_w z) <> [] -> sync_tail (z_w z) -> nfinv z ->
  w_alive (z_w z) = true -> w_batch (z_w z) = Some b ->
  exists z' v, zwork z true = Some (z', v) /\ (mu (z_w z') < mu (z_w z))%nat /\ frame z z'.
Proof.
  intros Hne W3 Hnf Ha Hb. destruct (newest_some _ Hne) as [nfile A1]. clear Hne.
  unfold zwork, frame, nfinv, sync_tail in *.
  destruct z as [k t d q w a dr g]. zproj.
  destruct w as [wf al ba sf pp]. zproj. subst al ba.
  destruct b as [ws nf pos bok]. zproj.
  destruct pos as [i| | | |i| | |rem|].
  - destruct (nth_error ws i) as [ww|] eqn:En; [|acted].
    assert (Hi : (i < length ws)%nat) by (apply nth_error_Some; congruence).
    destruct (ww_data ww) as [|x data]; [|rewrite A1]; acted.
  - destruct wf as [|f [|f2 rest]]; acted.
  - destruct W3 as [f ->]. acted.
  - destruct W3 as [f ->]. acted.
  - destruct (nth_error ws i) as [ww|] eqn:En; [|acted].
    assert (Hi : (i < length ws)%nat) by (apply nth_error_Some; congruence).
    destruct (ww_cb ww) as [c|]; acted.
  - destruct sf; [|destruct pp as [|id rest]]; acted.
  - destruct nf as [[u data cb|off prev|rids]|]; [exfalso; eapply Hnf; reflexivity| | |]; try acted.
    destruct sf; acted.
  - destruct rem as [|id rest]; acted.
  - acted.
Qed.

Lemma zrun_app es1 : forall z z1 v1 es2 z2 v2, zrun z es1 = Some (z1, v1) -> zrun z1 es2 = Some (z2, v2) ->
  zrun z (es1 ++ es2) = Some (z2, v1 ++ v2).
Proof.
  induction es1 as [|e es1 IH]; intros z z1 v1 es2 z2 v2 H1 H2; cbn [zrun app] in *.
  - inversion H1; subst. exact H2.
  - destruct (zstep z e) as [[za va]|]; [|discriminate].
    destruct (zrun za es1) as [[zb vb]|] eqn:Er; [|discriminate]. inversion H1; subst.
    rewrite (IH _ _ _ _ _ _ Er H2), app_assoc. reflexivity.
Qed.

Lemma zrecv_one z r q : w_alive (z_w z) = true -> w_batch (z_w z) = None -> z_queue z = r :: q ->
  exists z', zrecv z 0 false = Some (z', []) /\ z_queue z' = q /\ z_todo z' = z_todo z /\
             z_dropped z' = z_dropped z /\ w_alive (z_w z') = true.
Proof.
  intros Ha Hb Hq. unfold zrecv. rewrite Ha, Hb, Hq.
  destruct r as [u data cb|off prev|rids]; cbn [take_writes Nat.eqb negb andb].
  - eexists. split; [destruct q as [|[] ?]; reflexivity|]. repeat split. zproj. exact Ha.
  - eexists. split; [reflexivity|]. repeat split. zproj. exact Ha.
  - eexists. split; [reflexivity|]. repeat split. zproj. exact Ha.
Qed.

(* a live worker tracks at least one file, and exactly one after the loop over the older files *)
Definition tracks (z : sys2) : Prop :=
  w_alive (z_w z) = true -> w_files (z_w z) <> [] /\ sync_tail (z_w z).

Lemma tracks_zstep z e z' v : tracks z -> zstep z e = Some (z', v) -> tracks z'.
Proof.
  intros Hm H. pose proof (zstep_w _ _ _ _ H) as Ew. unfold tracks in *.
  destruct e as [o| |k nf|ok|]; try (rewrite Ew; exact Hm).
  - apply zrecv_inv in H as [_ [b q' Ha _ _ _ Hp _]]. intros _. destruct (Hm Ha) as [Hne _].
    split; [exact Hne|]. unfold sync_tail. zproj. destruct Hp as [[-> _]|[-> _]]; exact I.
  - apply zwork_inv in H as (b & Ha & Eb & W). destruct (Hm Ha) as [Hne Htl].
    unfold sync_tail in *. rewrite Eb in Htl.
    work_cases W; zproj; intros Ha'; try discriminate Ha'; (split; [try exact Hne|try exact I]).
    + exact (pos_move_tail _ _ _ Hne M).
    + discriminate.
    + rewrite Ep in Htl. exact Htl.
    + rewrite Ep. exact I.
    + destruct (w_files (z_w z)); discriminate.
Qed.

Definition live (z : sys2) : Prop := tracks z /\ nfinv z.

Lemma live_zstep z e z' v : live z -> zstep z e = Some (z', v) -> live z'.
Proof. intros [H1 H2] H. split; [eapply tracks_zstep|eapply nfinv_zstep]; eassumption. Qed.

Lemma drain_batch n : forall z, (mu (z_w z) < n)%nat -> live z -> w_alive (z_w z) = true ->
  exists es z' vis, forallb ev_fault_free es = true /\ zrun z es = Some (z', vis) /\
    w_batch (z_w z') = None /\ live z' /\ frame z z'.
Proof.
  induction n as [|n IH]; intros z Hm Hp Ha; [inversion Hm|].
  destruct (w_batch (z_w z)) as [b|] eqn:Eb.
  - destruct (proj1 Hp Ha) as [Hne Htl].
    destruct (zwork_progress _ _ Hne Htl (proj2 Hp) Ha Eb) as (z1 & v1 & Hw & Hlt & F1).
    destruct (IH z1) as (es & z' & vis & E1 & E2 & E3 & E4 & F2);
      [lia|exact (live_zstep z (ZWork true) _ _ Hp Hw)|apply F1|].
    exists (ZWork true :: es), z', (v1 ++ vis). split; [exact E1|].
    split; [cbn [zrun zstep]; rewrite Hw, E2; reflexivity|].
    split; [exact E3|]. split; [exact E4|exact (frame_trans _ _ _ F1 F2)].
  - exists [], z, []. refine (conj eq_refl (conj eq_refl (conj Eb (conj Hp _)))). repeat split. exact Ha.
Qed.

Lemma drain_queue n : forall z, (length (z_queue z) < n)%nat -> live z -> w_alive (z_w z) = true ->
  z_todo z = [] ->
  exists es z' vis, forallb ev_fault_free es = true /\ zrun z es = Some (z', vis) /\ worker_idle2 z'.
Proof.
  induction n as [|n IH]; intros z Hl Hp Ha Ht; [inversion Hl|].
  destruct (drain_batch _ z (Nat.lt_succ_diag_r _) Hp Ha)
    as (es & z1 & vis & E1 & E2 & Eb & Hp1 & Fq & Ft & _ & Ha1).
  destruct (z_queue z1) as [|r q] eqn:Eq.
  - exists es, z1, vis. split; [exact E1|]. split; [exact E2|]. repeat split; congruence.
  - destruct (zrecv_one _ _ _ Ha1 Eb Eq) as (z2 & R1 & R2 & R3 & _ & R5).
    destruct (IH z2) as (es2 & z3 & vis2 & G1 & G2 & G3).
    + rewrite R2. rewrite <- Fq in Hl. exact (proj2 (Nat.succ_lt_mono _ _) Hl).
    + exact (live_zstep z1 (ZRecv 0 false) _ _ Hp1 R1).
    + exact R5.
    + congruence.
    + exists (es ++ ZRecv 0 false :: es2), z3, (vis ++ [] ++ vis2).
      split; [rewrite forallb_app; cbn [forallb ev_fault_free]; rewrite E1, G1; reflexivity|].
      split; [|exact G3]. eapply zrun_app; [exact E2|]. cbn [zrun zstep]. rewrite R1, G2. reflexivity.
Qed.

Lemma live_reach cfg d z : reach cfg d z -> live z.
Proof.
  revert z. apply (reach_ind live); [|apply live_zstep].
  intros y Ho. destruct (open_dir_fresh _ _ _ Ho) as (_ & _ & _ & f & Hf). split; [|exact I].
  intros _. unfold sys2_of. cbn [z_w w_files]. rewrite Hf. split; [discriminate|exact I].
Qed.

(* the worker of a store opened on ANY directory finishes: no hypothesis on [d] *)
Theorem drain_reach cfg d z : reach cfg d z -> w_alive (z_w z) = true -> z_todo z = [] ->
  exists es z' vis, forallb ev_fault_free es = true /\ zrun z es = Some (z', vis) /\ worker_idle2 z'.
Proof.
  intros Hr. exact (drain_queue _ z (Nat.lt_succ_diag_r _) (live_reach cfg d z Hr)).
Qed.

Theorem C14_drain_terminates : forall cfg z, zreach cfg z -> z_dropped z = true -> z_todo z = [] ->
  w_alive (z_w z) = true ->
  exists es z' vis, forallb ev_fault_free es = true /\ zrun z es = Some (z', vis) /\ worker_idle2 z'.
Proof. intros cfg z Hr _ Ht Ha. exact (drain_reach cfg [] z Hr Ha Ht). Qed.

Print Assumptions C14_drain_terminates.
