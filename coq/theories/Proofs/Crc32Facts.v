(* Facts about CRC-32: a single altered byte always changes the checksum.

   The register update is affine over xor: [upd c b = upd0 c xor tbl b] with [upd0] linear,
   so two runs from registers that differ by [d] differ by [d] pushed through [upd0] once
   per byte, and [upd0] sends no non-zero 32-bit value to zero. *)
From Coq Require Import List NArith Lia.
From Coq.Strings Require Import Byte.
From RaftLog Require Import Base.Crc32.
Import ListNotations.
Local Open Scope N_scope.

Lemma lt_pow2_shiftr a n : a < 2^n <-> N.shiftr a n = 0.
Proof.
  rewrite N.shiftr_div_pow2. symmetry. apply N.div_small_iff, N.pow_nonzero. discriminate.
Qed.

Lemma lxor_lt a b n : a < 2^n -> b < 2^n -> N.lxor a b < 2^n.
Proof. rewrite !lt_pow2_shiftr, N.shiftr_lxor. now intros -> ->. Qed.

Lemma lxor_cancel c d : N.lxor c (N.lxor c d) = d.
Proof. now rewrite <- N.lxor_assoc, N.lxor_nilpotent, N.lxor_0_l. Qed.

Lemma lxor_swap a b c d : N.lxor (N.lxor a b) (N.lxor c d) = N.lxor (N.lxor a c) (N.lxor b d).
Proof.
  rewrite !N.lxor_assoc. f_equal. rewrite <- !N.lxor_assoc. f_equal. apply N.lxor_comm.
Qed.

Lemma land_lxor_l a b c : N.land (N.lxor a b) c = N.lxor (N.land a c) (N.land b c).
Proof. apply N.bits_inj; intro n. rewrite !N.land_spec, !N.lxor_spec, !N.land_spec.
  destruct (N.testbit a n), (N.testbit b n), (N.testbit c n); reflexivity. Qed.
Lemma land_ff a : N.land a 0xFF = a mod 256.
Proof. change 0xFF with (N.ones 8). apply N.land_ones. Qed.
Lemma land_ff_lt a : N.land a 0xFF < 256.
Proof. rewrite land_ff. apply N.mod_lt. discriminate. Qed.

Lemma to_N_lt b : Byte.to_N b < 256.
Proof. pose proof (Byte.to_N_bounded b). lia. Qed.
Lemma to_N_inj b b' : to_N b = to_N b' -> b = b'.
Proof. intros E. pose proof (Byte.of_to_N b) as H1. pose proof (Byte.of_to_N b') as H2. rewrite E in H1. congruence. Qed.

(* linearity: one step of the bitwise CRC is linear over xor, hence so is a table entry *)
Definition step1 (c : N) : N := if N.testbit c 0 then N.lxor (N.shiftr c 1) poly else N.shiftr c 1.

Lemma step1_lxor a b : step1 (N.lxor a b) = N.lxor (step1 a) (step1 b).
Proof.
  unfold step1. rewrite N.lxor_spec, N.shiftr_lxor.
  destruct (N.testbit a 0), (N.testbit b 0); cbn [xorb];
    apply N.bits_inj; intro n; rewrite ?N.lxor_spec;
    destruct (N.testbit (N.shiftr a 1) n), (N.testbit (N.shiftr b 1) n), (N.testbit poly n); reflexivity.
Qed.

Lemma step8_lxor k : forall a b, step8 k (N.lxor a b) = N.lxor (step8 k a) (step8 k b).
Proof.
  induction k as [|k IH]; intros a b; [reflexivity|].
  change (step8 k (step1 (N.lxor a b)) = N.lxor (step8 k (step1 a)) (step8 k (step1 b))).
  now rewrite step1_lxor, IH.
Qed.

(* [table] lists [step8 8 i] for i = 0 .. 255: one pass with a binary counter *)
Fixpoint tbl_ok (i : N) (l : list N) : bool :=
  match l with [] => true | t :: r => N.eqb t (step8 8 i) && tbl_ok (N.succ i) r end.

Lemma tbl_ok_nth l : forall i n, tbl_ok i l = true -> (n < length l)%nat ->
  nth n l 0 = step8 8 (i + N.of_nat n).
Proof.
  induction l as [|t r IH]; intros i n H L; cbn [length] in L; [lia|].
  cbn [tbl_ok] in H. apply andb_prop in H as [Ht Hr]. destruct n as [|n]; cbn [nth].
  - rewrite N.add_0_r. now apply N.eqb_eq.
  - rewrite (IH _ n Hr) by lia. f_equal. lia.
Qed.

Lemma tbl_step8 x : x < 256 -> tbl x = step8 8 x.
Proof.
  intros Hx. unfold tbl.
  rewrite (tbl_ok_nth table 0).
  - now rewrite N.add_0_l, N2Nat.id.
  - vm_compute. reflexivity.
  - change (length table) with 256%nat. lia.
Qed.

Lemma tbl_linear x y : x < 256 -> y < 256 -> tbl (N.lxor x y) = N.lxor (tbl x) (tbl y).
Proof.
  intros Hx Hy. rewrite !tbl_step8; auto using (lxor_lt x y 8). apply step8_lxor.
Qed.

(* the table entries are 32-bit values; only entry 0 has a zero top byte *)
Lemma step8_lt k : forall c, c < 2^32 -> step8 k c < 2^32.
Proof.
  induction k as [|k IH]; intros c H; [exact H|]. apply (IH (step1 c)). unfold step1.
  assert (Hs : N.shiftr c 1 < 2^32).
  { rewrite N.shiftr_div_pow2. apply N.div_lt_upper_bound; [discriminate|].
    eapply N.lt_trans; [exact H|reflexivity]. }
  destruct (N.testbit c 0); [apply lxor_lt; [exact Hs|reflexivity]|exact Hs].
Qed.

Lemma tbl_bound x : x < 256 -> tbl x < 2^32.
Proof.
  intros Hx. rewrite tbl_step8 by exact Hx. apply step8_lt.
  eapply N.lt_trans; [exact Hx|reflexivity].
Qed.

Lemma tbl_top x : x < 256 -> N.shiftr (tbl x) 24 = 0 -> x = 0.
Proof.
  intros Hx E. destruct (N.eq_dec x 0) as [E0|Nx]; [exact E0|exfalso].
  (* one pass over the 255 entries after the first *)
  assert (H : forallb (fun t => negb (N.eqb (N.shiftr t 24) 0)) (tl table) = true)
    by (vm_compute; reflexivity).
  rewrite forallb_forall in H. specialize (H (tbl x)). rewrite E in H.
  discriminate H. unfold tbl. destruct (N.to_nat x) as [|n] eqn:En; [lia|].
  change (In (nth n (tl table) 0) (tl table)). apply nth_In.
  change (length (tl table)) with 255%nat. lia.
Qed.
Lemma tbl_nonzero x : x < 256 -> x <> 0 -> tbl x <> 0.
Proof. intros Hx Nx E. apply Nx. apply tbl_top; [exact Hx|]. now rewrite E. Qed.

(* the update with a zero byte: the linear part of [upd] *)
Definition upd0 (c : N) : N := N.lxor (tbl (N.land c 0xFF)) (N.shiftr c 8).

Lemma upd_split c b : upd c b = N.lxor (upd0 c) (tbl (to_N b)).
Proof.
  unfold upd, upd0. rewrite land_lxor_l, (land_ff (to_N b)), (N.mod_small (to_N b)) by apply to_N_lt.
  rewrite tbl_linear by (apply land_ff_lt || apply to_N_lt).
  rewrite !N.lxor_assoc. f_equal. apply N.lxor_comm.
Qed.

Lemma upd0_lxor c d : upd0 (N.lxor c d) = N.lxor (upd0 c) (upd0 d).
Proof.
  unfold upd0. rewrite land_lxor_l, tbl_linear, N.shiftr_lxor by apply land_ff_lt.
  apply lxor_swap.
Qed.

Lemma upd0_lt d : d < 2^32 -> upd0 d < 2^32.
Proof.
  intros H. unfold upd0. apply lxor_lt; [apply tbl_bound, land_ff_lt|].
  rewrite N.shiftr_div_pow2. apply N.div_lt_upper_bound; [discriminate|].
  eapply N.lt_le_trans; [exact H|]. vm_compute. discriminate.
Qed.

Lemma upd0_inj0 d : d < 2^32 -> upd0 d = 0 -> d = 0.
Proof.
  intros Hd H0. unfold upd0 in H0. apply N.lxor_eq in H0.
  (* the table entry equals d >> 8, which has no bit from 24 on: the index d & 0xFF is 0 *)
  assert (L : N.land d 0xFF = 0).
  { apply tbl_top; [apply land_ff_lt|].
    rewrite H0, N.shiftr_shiftr. now apply (lt_pow2_shiftr d 32). }
  rewrite L in H0. change (tbl 0) with 0 in H0. symmetry in H0.
  rewrite land_ff in L. rewrite N.shiftr_div_pow2 in H0. change (2^8) with 256 in H0.
  rewrite (N.div_mod d 256), L, H0 by discriminate. reflexivity.
Qed.

Lemma upd_lt c b : c < 2^32 -> upd c b < 2^32.
Proof.
  intros H. rewrite upd_split. apply lxor_lt; [now apply upd0_lt|apply tbl_bound, to_N_lt].
Qed.

Lemma crc_run_lt bs : forall c, c < 2^32 -> crc_run c bs < 2^32.
Proof.
  unfold crc_run. induction bs as [|b r IH]; intros c H; cbn [fold_left]; [exact H|].
  apply IH, upd_lt, H.
Qed.

Lemma crc32_lt bs : crc32 bs < 2^32.
Proof. unfold crc32. apply lxor_lt; [apply crc_run_lt|]; reflexivity. Qed.

(* a difference between two registers, pushed through the same bytes *)
Definition iter0 (bs : list byte) (d : N) : N := fold_left (fun x (_ : byte) => upd0 x) bs d.

Lemma run_lxor bs : forall c d, crc_run (N.lxor c d) bs = N.lxor (crc_run c bs) (iter0 bs d).
Proof.
  induction bs as [|b bs IH]; intros c d; [reflexivity|].
  change (crc_run (upd (N.lxor c d) b) bs = N.lxor (crc_run (upd c b) bs) (iter0 bs (upd0 d))).
  rewrite <- IH. f_equal.
  rewrite !upd_split, upd0_lxor, !N.lxor_assoc. f_equal. apply N.lxor_comm.
Qed.

Lemma iter0_nonzero bs : forall d, d < 2^32 -> d <> 0 -> iter0 bs d <> 0.
Proof.
  induction bs as [|b bs IH]; intros d Hd Nd; cbn [iter0 fold_left]; [exact Nd|].
  apply IH; [apply upd0_lt; exact Hd|]. intro E. apply Nd. now apply upd0_inj0.
Qed.

Theorem crc32_single_byte pre suf b b' :
  b <> b' -> crc32 (pre ++ b :: suf) <> crc32 (pre ++ b' :: suf).
Proof.
  intros Nb E. unfold crc32 in E.
  assert (E': crc_run 0xFFFFFFFF (pre ++ b :: suf) = crc_run 0xFFFFFFFF (pre ++ b' :: suf)).
  { apply (f_equal (fun v => N.lxor v 0xFFFFFFFF)) in E. now rewrite !N.lxor_assoc, !N.lxor_nilpotent, !N.lxor_0_r in E. }
  unfold crc_run in E'. rewrite !fold_left_app in E'. cbn [fold_left] in E'.
  set (c := fold_left upd pre 4294967295) in E'.
  (* after the altered byte the registers differ by a non-zero table entry *)
  set (d := tbl (N.lxor (to_N b) (to_N b'))).
  assert (Hx : N.lxor (to_N b) (to_N b') < 256) by (apply (lxor_lt _ _ 8); apply to_N_lt).
  assert (Hd: upd c b' = N.lxor (upd c b) d).
  { unfold d. rewrite !upd_split, tbl_linear by apply to_N_lt. now rewrite N.lxor_assoc, lxor_cancel. }
  rewrite Hd in E'. change (crc_run (upd c b) suf = crc_run (N.lxor (upd c b) d) suf) in E'.
  rewrite run_lxor in E'. apply (f_equal (N.lxor (crc_run (upd c b) suf))) in E'.
  rewrite N.lxor_nilpotent, lxor_cancel in E'. symmetry in E'. revert E'.
  apply iter0_nonzero; [apply tbl_bound, Hx|apply tbl_nonzero; [exact Hx|]].
  intro X. apply Nb, to_N_inj. now apply N.lxor_eq.
Qed.
