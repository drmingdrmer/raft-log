(* C03, stage C (no system here): journal files against the reference log. [sw_of r]: the per-record
   write of the specification that journal record [r] stands for; [rec_ok sp r]: what makes the model
   and the specification agree on [r] in reference state [sp]; [files_ok sp G]: every record of the
   journal [G] was accepted in turn and every file starts with the snapshot of the state at that point.
   Replaying such a journal yields the reference state after its records (replay_files_spec in
   CrashSuffix.v). *)
From Coq Require Import List NArith Lia.
From RaftLog Require Import Model.Types Model.Codec Model.Core
  Model.Recover Spec.Spec.
From RaftLog Require Import Proofs.Refine.
From RaftLog Require Proofs.PurgeLive Proofs.RestartSim.
Import ListNotations.
Local Open Scope N_scope.
Local Arguments enc_record : simpl never.

Module PL := PurgeLive.
Module RS := RestartSim.

Notation jfile := (N * list record)%type (only parsing).

Definition sw_of (r : record) : swrite :=
  match r with
  | RVote v => SVote v
  | RAppend id p => SEntry id p
  | RCommit id => SCommit id
  | RTrunc o => STruncate (next_index o)
  | RPurge id => SPurge id
  | RState st => SUser (r_user st)
  end.

Definition rec_ok (sp : spec) (r : record) : Prop :=
  match r with
  | RTrunc o => o = sp_purged sp \/ exists id p, o = Some id /\ In (id, p) (sp_entries sp)
  | RPurge u =>
    N.ltb (lid_index u) (next_index (sp_purged sp)) = false /\
    ((exists p, In (u, p) (sp_entries sp)) \/
     (opair_cmp (sp_last sp) (Some u) = Lt /\ forall l, sp_last sp = Some l -> lid_index l < lid_index u))
  | RState st => st = rs_set_user (spec_state sp) (r_user st)
  | _ => True
  end.

Lemma rec_ok_sw sp r : rec_ok sp r -> rec_sw sp r (sw_of r).
Proof.
  intros Hok. destruct r as [v|id p|id|o|u|st]; cbn [sw_of rec_ok] in *; try constructor; try tauto.
  rewrite Hok. cbn [r_user rs_set_user]. constructor.
Qed.

Lemma rec_sim s sp r : PL.R0 s sp -> rec_ok sp r -> PL.step_sim0 s sp r (sw_of r).
Proof.
  intros HR Hok. apply PL.step_sim0_log, rec_sw_log; [apply PL.R0_Rlog, HR|apply rec_ok_sw, Hok].
Qed.

Fixpoint recs_ok (sp : spec) (rs : list record) : Prop :=
  match rs with
  | [] => True
  | r :: rest => rec_ok sp r /\ exists sp', spec_step sp (sw_of r) = Some sp' /\ recs_ok sp' rest
  end.

Definition run_recs (sp : spec) (rs : list record) : spec :=
  fold_left (fun s r => spec_apply s (sw_of r)) rs sp.

Lemma run_recs_app sp a b : run_recs sp (a ++ b) = run_recs (run_recs sp a) b.
Proof. unfold run_recs. apply fold_left_app. Qed.

Lemma recs_ok_app sp a b : recs_ok sp (a ++ b) <-> recs_ok sp a /\ recs_ok (run_recs sp a) b.
Proof.
  revert sp. induction a as [|r a IH]; intros sp; simpl; [tauto|].
  split.
  - intros (H1 & sp' & E & H2). apply IH in H2. destruct H2 as [H2 H3].
    unfold spec_apply at 1. rewrite E. split; [|exact H3]. split; [exact H1|]. eauto.
  - intros ((H1 & sp' & E & H2) & H3). split; [exact H1|]. exists sp'. split; [exact E|].
    apply IH. split; [exact H2|]. unfold spec_apply in H3 at 1. now rewrite E in H3.
Qed.

Lemma recs_ok_firstn sp rs j : recs_ok sp rs -> recs_ok sp (firstn j rs).
Proof.
  intros H. rewrite <- (firstn_skipn j rs) in H. apply recs_ok_app in H. tauto.
Qed.

Fixpoint files_ok (sp : spec) (G : list jfile) : Prop :=
  match G with
  | [] => True
  | g :: G' => exists tl, snd g = RState (spec_state sp) :: tl /\ recs_ok sp tl /\
                          files_ok (run_recs sp tl) G'
  end.

(* the journalled records: everything but the head snapshots *)
Definition jrecs (G : list jfile) : list record := flat_map (fun g => tl (snd g)) G.

Lemma jrecs_app A B : jrecs (A ++ B) = jrecs A ++ jrecs B.
Proof. unfold jrecs. apply flat_map_app. Qed.

Lemma R0_cache s sp c : PL.R0 s sp -> PL.R0 (mkSM (m_rs s) (m_log s) c) sp.
Proof. intros [H1 H2 H3 H4]. constructor; assumption. Qed.

Lemma R0_eq s s' sp : m_rs s' = m_rs s -> m_log s' = m_log s -> PL.R0 s sp -> PL.R0 s' sp.
Proof. intros E1 E2 [H1 H2 H3 H4]. constructor; rewrite ?E1, ?E2; assumption. Qed.

Lemma R0_new cfg : PL.R0 (sm_new cfg) spec0.
Proof. constructor; simpl; try reflexivity; [constructor|intros e []]. Qed.

Lemma jrecs_last (G0 : list jfile) o rs : jrecs (G0 ++ [(o, rs)]) = jrecs G0 ++ tl rs.
Proof. rewrite jrecs_app. unfold jrecs at 2. cbn [flat_map snd]. now rewrite app_nil_r. Qed.

Lemma files_ok_app sp A B : files_ok sp (A ++ B) <-> files_ok sp A /\ files_ok (run_recs sp (jrecs A)) B.
Proof.
  revert sp. induction A as [|[id rs] A IH]; intros sp; simpl; [tauto|].
  split.
  - intros (tl & E & Hr & H). apply IH in H. destruct H as [H1 H2]. split; [eauto|].
    unfold jrecs. cbn [flat_map snd]. fold (jrecs A). rewrite E. cbn [List.tl].
    now rewrite run_recs_app.
  - intros ((tl & E & Hr & H1) & H2). exists tl. split; [exact E|]. split; [exact Hr|].
    apply IH. split; [exact H1|]. unfold jrecs in H2. cbn [flat_map snd] in H2. fold (jrecs A) in H2.
    rewrite E in H2. cbn [List.tl] in H2. now rewrite run_recs_app in H2.
Qed.

Lemma files_ok_cut sp Go o recs j : files_ok sp (Go ++ [(o, recs)]) -> (1 <= j)%nat ->
  files_ok sp (Go ++ [(o, firstn j recs)]).
Proof.
  intros H Hj. apply files_ok_app in H. destruct H as [H1 H2]. apply files_ok_app. split; [exact H1|].
  simpl in *. destruct H2 as (tl & E & Hr & _). subst recs. destruct j as [|j]; [lia|].
  exists (firstn j tl). split; [reflexivity|]. split; [now apply recs_ok_firstn|exact I].
Qed.

Fixpoint rtrace (sp : spec) (rs : list record) : list spec :=
  match rs with
  | [] => []
  | r :: rest => let sp' := spec_apply sp (sw_of r) in sp' :: rtrace sp' rest
  end.

Lemma rtrace_length sp rs : length (rtrace sp rs) = length rs.
Proof. revert sp. induction rs as [|r rs IH]; intros sp; simpl; [reflexivity|]. now rewrite IH. Qed.

Lemma rtrace_app sp a b : rtrace sp (a ++ b) = rtrace sp a ++ rtrace (run_recs sp a) b.
Proof.
  revert sp. induction a as [|r a IH]; intros sp; simpl; [reflexivity|]. now rewrite IH.
Qed.

Lemma rtrace_nth sp a b : nth_error (sp :: rtrace sp (a ++ b)) (length a) = Some (run_recs sp a).
Proof.
  revert sp. induction a as [|r a IH]; intros sp; [reflexivity|].
  cbn [length nth_error app rtrace]. apply IH.
Qed.
