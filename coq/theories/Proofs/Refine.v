(* C01: the sequential core refines the reference log. [R s sp] relates a state machine to a reference log; it
   splits ([R_split]) into [Rlog] (Raft state and index map, blind to the cache) and [Rcache Q] (the cache holds
   the entries selected by [Q], is sorted, and has no key above the last id; [Q] is all entries here; the replay
   of a suffix of the files, RestartSim, takes those of the replayed index map). [Budget c n b]: [n] more
   entries and [b] more bytes fit, so the evict loop does nothing. One lemma per record kind for each half, joined
   over the pairs [rec_sw] of a record and its spec write: [rec_sw_log] and [rec_sw_cache]; [aaa_sim] says what
   [append_and_apply] does against the spec write; [do_write_sim_gen] lifts a record to a write call for any
   invariant containing [Rlog]; [Inv] runs along a history. *)
From Coq Require Import List NArith Bool Lia Sorted.
From RaftLog Require Import Model.Types Model.Codec Model.Cache Model.Core Model.Recover Model.Run Spec.Spec Spec.Hist.
From RaftLog Require Import Proofs.OrderFacts Proofs.SmFacts.
From RaftLog Require Proofs.JournalChunk.
Import ListNotations.
Local Open Scope N_scope.

Definition olast (l : list (logid * payload)) (d : option logid) : option logid :=
  match rev l with (id, _) :: _ => Some id | [] => d end.

Lemma sp_last_olast : forall s, sp_last s = olast (sp_entries s) (sp_purged s).
Proof. reflexivity. Qed.

Lemma olast_nil : forall d, olast [] d = d.
Proof. reflexivity. Qed.

Lemma olast_snoc : forall l x d, olast (l ++ [x]) d = Some (fst x).
Proof. intros l [id p] d. unfold olast. rewrite rev_app_distr. reflexivity. Qed.

Lemma olast_app : forall l1 l2 d d', l2 <> [] -> olast (l1 ++ l2) d = olast l2 d'.
Proof.
  intros l1 l2 d d' H. destruct (exists_last H) as [l2' [x E]]. subst l2.
  rewrite app_assoc, !olast_snoc. reflexivity.
Qed.

Definition klt (a b : logid * payload) : Prop :=
  pair_cmp (fst a) (fst b) = Lt /\ lid_index (fst a) < lid_index (fst b).

Lemma last_max : forall es d e, StronglySorted klt es -> In e es ->
  exists x, In x es /\ olast es d = Some (fst x) /\ (e = x \/ klt e x).
Proof.
  intros es d e S He.
  assert (Hne : es <> []) by (intros E; subst; destruct He).
  destruct (exists_last Hne) as [l [x E]]. subst es.
  exists x. split; [apply in_or_app; right; left; reflexivity|].
  split; [apply olast_snoc|].
  apply in_app_or in He. destruct He as [He|[He|[]]].
  - right. apply SS_app_inv in S. destruct S as [_ [_ S3]]. apply S3; [exact He|left; reflexivity].
  - left. symmetry. exact He.
Qed.

Lemma sorted_mono : forall es a b, StronglySorted klt es -> In a es -> In b es ->
  lid_index (fst a) < lid_index (fst b) -> pair_cmp (fst a) (fst b) = Lt.
Proof.
  intros es a b S Ha Hb Hlt. apply in_split in Ha. destruct Ha as [l1 [l2 E]]. subst es.
  destruct (SS_split_rel _ _ _ _ S) as [S1 S2].
  apply in_app_or in Hb. destruct Hb as [Hb|[Hb|Hb]].
  - destruct (S1 b Hb) as [_ Hi]. lia.
  - subst b. lia.
  - destruct (S2 b Hb) as [Hc _]. exact Hc.
Qed.

Lemma sorted_mono_le : forall es a b, StronglySorted klt es -> In a es -> In b es ->
  lid_index (fst a) <= lid_index (fst b) -> pair_cmp (fst a) (fst b) <> Gt.
Proof.
  intros es a b S Ha Hb Hle. apply in_split in Ha. destruct Ha as [l1 [l2 E]]. subst es.
  destruct (SS_split_rel _ _ _ _ S) as [S1 S2].
  apply in_app_or in Hb. destruct Hb as [Hb|[Hb|Hb]].
  - destruct (S1 b Hb) as [_ Hi]. lia.
  - subst b. rewrite pair_cmp_refl. discriminate.
  - destruct (S2 b Hb) as [Hc _]. rewrite Hc. discriminate.
Qed.

Lemma trunc_last : forall es d id p, StronglySorted klt es -> In (id, p) es ->
  olast (filter (fun e => N.ltb (lid_index (fst e)) (lid_index id + 1)) es) d = Some id.
Proof.
  intros es d id p S Hin.
  set (f := fun e : logid * payload => N.ltb (lid_index (fst e)) (lid_index id + 1)).
  assert (Hf : In (id, p) (filter f es)).
  { apply filter_In. split; [exact Hin|]. unfold f. cbn [fst]. apply N.ltb_lt. lia. }
  destruct (last_max (filter f es) d (id, p) (SS_filter _ f es S) Hf) as [x [Hx [Hl Hc]]].
  rewrite Hl. destruct Hc as [Hc|Hc].
  - subst x. reflexivity.
  - exfalso. destruct Hc as [_ Hc]. cbn [fst] in Hc.
    apply filter_In in Hx. destruct Hx as [_ Hx]. unfold f in Hx. apply N.ltb_lt in Hx. lia.
Qed.

Lemma purge_last : forall es d u p, StronglySorted klt es -> In (u, p) es ->
  olast (filter (fun e => N.ltb (lid_index u) (lid_index (fst e))) es) (Some u) = olast es d.
Proof.
  intros es d u p S Hin. apply in_split in Hin. destruct Hin as [l1 [l2 E]]. subst es.
  destruct (SS_split_rel _ _ _ _ S) as [S1 S2].
  rewrite filter_app. cbn [filter fst]. rewrite N.ltb_irrefl.
  rewrite (filter_all_false _ l1).
  2:{ intros x Hx. destruct (S1 x Hx) as [_ Hi]. cbn [fst] in Hi. apply N.ltb_ge. lia. }
  rewrite (filter_all_true _ l2).
  2:{ intros x Hx. destruct (S2 x Hx) as [_ Hi]. cbn [fst] in Hi. apply N.ltb_lt. exact Hi. }
  cbn [app]. destruct l2 as [|y l2].
  - rewrite olast_nil, olast_snoc. reflexivity.
  - change (l1 ++ (u, p) :: y :: l2) with (l1 ++ [(u, p)] ++ (y :: l2)).
    rewrite app_assoc. symmetry. apply olast_app. discriminate.
Qed.

(* ------------------------------------------------------------------ well-formed reference logs *)
Definition spec_wf (sp : spec) : Prop :=
  StronglySorted klt (sp_entries sp) /\
  forall e, In e (sp_entries sp) ->
    opair_cmp (sp_purged sp) (Some (fst e)) = Lt /\ next_index (sp_purged sp) <= lid_index (fst e).

Lemma wf_purged_le_last : forall sp, spec_wf sp ->
  opair_cmp (sp_purged sp) (sp_last sp) <> Gt /\ next_index (sp_purged sp) <= next_index (sp_last sp).
Proof.
  intros sp [S P]. rewrite sp_last_olast. destruct (sp_entries sp) as [|e es] eqn:E.
  - rewrite olast_nil. split; [apply opair_eq_le|lia].
  - destruct (last_max (e :: es) (sp_purged sp) e) as [x [Hx [Hl _]]]; [exact S|left; reflexivity|].
    rewrite Hl. destruct (P x Hx) as [H1 H2].
    split; [rewrite H1; discriminate|]. cbn [next_index]. lia.
Qed.

Lemma wf_entry_le_last : forall sp e, spec_wf sp -> In e (sp_entries sp) ->
  exists l, sp_last sp = Some l /\ pair_cmp (fst e) l <> Gt /\ lid_index (fst e) <= lid_index l.
Proof.
  intros sp e [S _] He.
  destruct (last_max _ (sp_purged sp) e S He) as [x [Hx [Hl Hc]]].
  exists (fst x). split; [exact Hl|]. destruct Hc as [Hc|[Hc1 Hc2]].
  - subst x. split; [rewrite pair_cmp_refl; discriminate|lia].
  - split; [rewrite Hc1; discriminate|lia].
Qed.

Lemma spec_wf_filter : forall sp f v c u, spec_wf sp ->
  spec_wf (mkSpec v (filter f (sp_entries sp)) c (sp_purged sp) u).
Proof.
  intros sp f v c u [S P]. split; cbn [sp_entries sp_purged].
  - apply SS_filter. exact S.
  - intros e He. apply filter_In in He. apply P, He.
Qed.

Lemma spec_wf_snoc : forall sp id p v c u, spec_wf sp ->
  opair_cmp (sp_last sp) (Some id) = Lt ->
  (forall l, sp_last sp = Some l -> lid_index id = lid_index l + 1) ->
  (forall e, In e (sp_entries sp) -> klt e (id, p)) /\
  spec_wf (mkSpec v (sp_entries sp ++ [(id, p)]) c (sp_purged sp) u).
Proof.
  intros sp id p v c u W Hlt Hidx.
  assert (F1 : forall e, In e (sp_entries sp) -> klt e (id, p)).
  { intros e He. destruct (wf_entry_le_last sp e W He) as [l [Hl [H1 H2]]].
    rewrite Hl in Hlt. cbn [opair_cmp] in Hlt. specialize (Hidx l Hl).
    split; cbn [fst]; [eapply pair_cmp_le_lt_trans; eassumption|lia]. }
  split; [exact F1|]. destruct (wf_purged_le_last sp W) as [P1 P2]. destruct W as [S P].
  split; cbn [sp_entries sp_purged].
  - apply SS_app_intro; [exact S|apply SS_single|]. intros a x Ha [Hx|[]]. subst x. apply F1. exact Ha.
  - intros e He. apply in_app_or in He. destruct He as [He|[He|[]]]; [apply (P e He)|].
    subst e. cbn [fst]. split.
    + eapply opair_le_lt_trans; eassumption.
    + destruct (sp_last sp) as [l|] eqn:EL.
      * rewrite (Hidx l eq_refl). cbn [next_index] in P2. exact P2.
      * apply opair_le_None in P1. rewrite P1. cbn [next_index]. lia.
Qed.

Lemma sp_last_trunc : forall sp o, spec_wf sp ->
  (o = sp_purged sp \/ exists id p, o = Some id /\ In (id, p) (sp_entries sp)) ->
  let es' := filter (fun e => N.ltb (lid_index (fst e)) (next_index o)) (sp_entries sp) in
  opair_cmp o (sp_last sp) <> Gt /\ olast es' (sp_purged sp) = o /\
  (forall e, In e es' -> opair_cmp (Some (fst e)) o <> Gt).
Proof.
  intros sp o W Ho es'. destruct Ho as [Ho|[id [p [Ho Hin]]]]; subst o.
  - assert (Hnil : es' = []).
    { apply filter_all_false. intros x Hx. destruct (proj2 W x Hx) as [_ Hi]. apply N.ltb_ge. exact Hi. }
    split; [apply (wf_purged_le_last sp W)|]. rewrite Hnil. split; [reflexivity|intros e []].
  - split; [|split].
    + destruct (wf_entry_le_last sp (id, p) W Hin) as [l [Hl [H1 _]]]. rewrite Hl. exact H1.
    + apply (trunc_last _ _ id p (proj1 W) Hin).
    + intros e He. apply filter_In in He. destruct He as [He1 He2].
      cbn [next_index] in He2. apply N.ltb_lt in He2. cbn [opair_cmp].
      apply (sorted_mono_le _ e (id, p) (proj1 W) He1 Hin). cbn [fst]. lia.
Qed.

Lemma sp_last_purge : forall sp u, spec_wf sp ->
  ((exists p, In (u, p) (sp_entries sp)) \/
   (opair_cmp (sp_last sp) (Some u) = Lt /\ forall l, sp_last sp = Some l -> lid_index l < lid_index u)) ->
  let es' := filter (fun e => N.ltb (lid_index u) (lid_index (fst e))) (sp_entries sp) in
  let nl := if opair_ltb (sp_last sp) (Some u) then Some u else sp_last sp in
  opair_cmp (sp_purged sp) (Some u) = Lt /\ olast es' (Some u) = nl /\
  (forall e, In e es' -> pair_cmp u (fst e) = Lt) /\ opair_cmp (sp_last sp) nl <> Gt.
Proof.
  intros sp u W Ho es' nl. destruct Ho as [[p Hin]|[Hlt Hidx]].
  - destruct (wf_entry_le_last sp (u, p) W Hin) as [l [Hl [H1 _]]]. cbn [fst] in H1.
    assert (Hnl : nl = sp_last sp).
    { unfold nl. rewrite Hl, (proj2 (opair_ltb_ge (Some l) (Some u)) H1). reflexivity. }
    rewrite Hnl. split; [apply (proj2 W (u, p) Hin)|]. split; [|split; [|apply opair_eq_le]].
    + rewrite sp_last_olast. apply (purge_last _ _ u p (proj1 W) Hin).
    + intros e He. apply filter_In in He. destruct He as [He1 He2]. apply N.ltb_lt in He2.
      apply (sorted_mono _ (u, p) e (proj1 W) Hin He1). exact He2.
  - assert (Hnl : nl = Some u).
    { unfold nl. rewrite (proj2 (opair_ltb_lt _ _) Hlt). reflexivity. }
    assert (Hnil : es' = []).
    { apply filter_all_false. intros x Hx.
      destruct (wf_entry_le_last sp x W Hx) as [l [Hl [_ H2]]]. specialize (Hidx l Hl).
      apply N.ltb_ge. lia. }
    rewrite Hnil, Hnl. split; [|split; [reflexivity|split; [intros e []|rewrite Hlt; discriminate]]].
    destruct (wf_purged_le_last sp W) as [Q1 _]. eapply opair_le_lt_trans; eassumption.
Qed.

Lemma spec_wf_purge : forall sp u v c us, spec_wf sp ->
  spec_wf (mkSpec v (filter (fun e => N.ltb (lid_index u) (lid_index (fst e))) (sp_entries sp)) c (Some u) us) <->
  forall e, In e (filter (fun e => N.ltb (lid_index u) (lid_index (fst e))) (sp_entries sp)) ->
    pair_cmp u (fst e) = Lt.
Proof.
  intros sp u v c us [S _]. unfold spec_wf. cbn [sp_entries sp_purged]. split.
  - intros [_ P] e He. apply (P e He).
  - intros P3. split; [apply SS_filter; exact S|]. intros e He. split; [apply (P3 e He)|].
    apply filter_In in He. destruct He as [_ He]. apply N.ltb_lt in He. cbn [next_index]. lia.
Qed.

(* ------------------------------------------------------------------ the abstraction relation *)
Definition f_log (e : N * logdata) : N * logid := (fst e, ld_id (snd e)).
Definition g_ent (e : logid * payload) : N * logid := (lid_index (fst e), fst e).

Record R (s : sm) (sp : spec) : Prop := mkR {
  R_rs : m_rs s = spec_state sp;
  R_log : map f_log (m_log s) = map g_ent (sp_entries sp);
  R_sorted : StronglySorted klt (sp_entries sp);
  R_purged : forall e, In e (sp_entries sp) ->
      opair_cmp (sp_purged sp) (Some (fst e)) = Lt /\ next_index (sp_purged sp) <= lid_index (fst e);
  R_hit : forall e, In e (sp_entries sp) -> ent_get (fst e) (ch_entries (m_cache s)) = Some (snd e);
  R_csorted : StronglySorted clt (ch_entries (m_cache s));
  R_cle : forall e, In e (ch_entries (m_cache s)) -> opair_cmp (Some (fst e)) (sp_last sp) <> Gt }.

Record Rlog (s : sm) (sp : spec) : Prop := mkRlog {
  L_rs : m_rs s = spec_state sp;
  L_log : map f_log (m_log s) = map g_ent (sp_entries sp);
  L_wf : spec_wf sp }.

Record Rcache (Q : logid * payload -> Prop) (c : cache) (sp : spec) : Prop := mkRcache {
  C_hit : forall e, In e (sp_entries sp) -> Q e -> ent_get (fst e) (ch_entries c) = Some (snd e);
  C_sorted : StronglySorted clt (ch_entries c);
  C_le : forall e, In e (ch_entries c) -> opair_cmp (Some (fst e)) (sp_last sp) <> Gt }.

Lemma R_split : forall s sp, R s sp <-> Rlog s sp /\ Rcache (fun _ => True) (m_cache s) sp.
Proof.
  intros s sp. split.
  - intros [H1 H2 H3 H4 H5 H6 H7]. split; constructor; try assumption; [split; assumption|].
    intros e He _. exact (H5 e He).
  - intros [[H1 H2 [H3 H4]] [H5 H6 H7]]. constructor; try assumption. intros e He. exact (H5 e He I).
Qed.

Definition Budget (c : cache) (n b : N) : Prop :=
  N.of_nat (length (ch_entries c)) + n <= ch_max_items c /\ ch_size c + b <= ch_capacity c.

Lemma Budget_mono : forall c n b n' b', Budget c n b -> n' <= n -> b' <= b -> Budget c n' b'.
Proof. intros c n b n' b' [H1 H2] Hn Hb. split; lia. Qed.

Lemma Budget_shrink : forall c c' n b, Budget c n b ->
  (length (ch_entries c') <= length (ch_entries c))%nat -> ch_size c' <= ch_size c ->
  ch_max_items c' = ch_max_items c -> ch_capacity c' = ch_capacity c -> Budget c' n b.
Proof. intros c c' n b [H1 H2] Hl Hs Hm Hc. unfold Budget. rewrite Hm, Hc. split; lia. Qed.

Lemma Rlog_key_in : forall s sp e, Rlog s sp -> In e (m_log s) ->
  exists b, In b (sp_entries sp) /\ fst e = lid_index (fst b) /\ ld_id (snd e) = fst b.
Proof.
  intros s sp e HR He.
  destruct (map_eq_in_l f_log g_ent _ _ e (L_log _ _ HR) He) as [b [Hb1 Hb2]].
  exists b. split; [exact Hb1|]. unfold f_log, g_ent in Hb2. inversion Hb2. split; reflexivity.
Qed.

Lemma lm_get_rel : forall m es i, map f_log m = map g_ent es ->
  match lm_get i m with
  | Some d => exists p, In (ld_id d, p) es /\ lid_index (ld_id d) = i
  | None => existsb (fun e => N.eqb (lid_index (fst e)) i) es = false
  end.
Proof.
  intros m. induction m as [|[k d] m IH]; intros [|[id p] es] i H; cbn [map] in H; try discriminate.
  - reflexivity.
  - injection H as H1 H2 H3. cbn [fst snd] in H1, H2. subst k. cbn [lm_get]. destruct (N.eqb i (lid_index id)) eqn:E.
    + apply N.eqb_eq in E. exists p. rewrite H2. split; [left; reflexivity|]. symmetry. exact E.
    + specialize (IH es i H3). destruct (lm_get i m) as [d'|].
      * destruct IH as [p' [Hp1 Hp2]]. exists p'. split; [right; exact Hp1|exact Hp2].
      * cbn [existsb fst]. rewrite N.eqb_sym, E. exact IH.
Qed.

Lemma Rlog_same : forall s sp s' sp', Rlog s sp ->
  sp_entries sp' = sp_entries sp -> sp_purged sp' = sp_purged sp ->
  m_log s' = m_log s -> m_rs s' = spec_state sp' -> Rlog s' sp'.
Proof.
  intros s sp s' sp' [H1 H2 H3] He Hp Hl Hrs.
  constructor; [exact Hrs|rewrite He, Hl; exact H2|]. unfold spec_wf. rewrite He, Hp. exact H3.
Qed.

Lemma Rcache_same : forall Q c sp sp', Rcache Q c sp ->
  sp_entries sp' = sp_entries sp -> sp_purged sp' = sp_purged sp -> Rcache Q c sp'.
Proof.
  intros Q c sp sp' [H1 H2 H3] He Hp.
  assert (HL : sp_last sp' = sp_last sp) by (rewrite !sp_last_olast, He, Hp; reflexivity).
  constructor; rewrite ?He, ?HL; assumption.
Qed.

(* ------------------------------------------------------------------ one record against one spec write *)
Definition step_log (s : sm) (sp : spec) (r : record) (w : swrite) : Prop :=
  match spec_step sp w with
  | Some sp' =>
    index_limit r = false /\ rs_validate (m_rs s) r = None /\
    forall c seg, Rlog (fst (sm_apply s r c seg)) sp'
  | None => index_limit r = true \/ exists e, rs_validate (m_rs s) r = Some e
  end.

Lemma log_vote : forall s sp v, Rlog s sp -> step_log s sp (RVote v) (SVote v).
Proof.
  intros s sp v HR. unfold step_log. cbn [spec_step index_limit].
  assert (HV : r_vote (m_rs s) = sp_vote sp) by (rewrite (L_rs _ _ HR); reflexivity).
  unfold rs_validate. rewrite HV.
  destruct (ovote_accepts (sp_vote sp) v) eqn:E.
  - split; [reflexivity|]. split; [reflexivity|]. intros c seg.
    rewrite sm_apply_eq. unfold rs_apply, rs_validate. rewrite HV, E. cbn [fst].
    eapply Rlog_same; [exact HR|reflexivity|reflexivity|reflexivity|].
    cbn [m_rs]. rewrite (L_rs _ _ HR). reflexivity.
  - right. eexists. reflexivity.
Qed.

Lemma log_commit : forall s sp id, Rlog s sp -> step_log s sp (RCommit id) (SCommit id).
Proof.
  intros s sp id HR. unfold step_log. cbn [spec_step index_limit].
  assert (HV : r_committed (m_rs s) = sp_committed sp) by (rewrite (L_rs _ _ HR); reflexivity).
  unfold rs_validate. rewrite HV. rewrite (opair_leb_negb_ltb (sp_committed sp) (Some id)).
  destruct (opair_ltb (Some id) (sp_committed sp)) eqn:E; cbn [negb].
  - right. eexists. reflexivity.
  - split; [reflexivity|]. split; [reflexivity|]. intros c seg.
    rewrite sm_apply_eq. unfold rs_apply, rs_validate. rewrite HV, E. cbn [fst].
    eapply Rlog_same; [exact HR|reflexivity|reflexivity|reflexivity|].
    cbn [m_rs]. rewrite (L_rs _ _ HR). reflexivity.
Qed.

Lemma log_user : forall s sp u, Rlog s sp ->
  step_log s sp (RState (rs_set_user (m_rs s) u)) (SUser u).
Proof.
  intros s sp u HR. unfold step_log. cbn [spec_step index_limit].
  split; [reflexivity|]. split; [reflexivity|]. intros c seg.
  rewrite sm_apply_eq. cbn [fst rs_apply rs_validate].
  eapply Rlog_same; [exact HR|reflexivity|reflexivity|reflexivity|].
  cbn [m_rs]. rewrite (L_rs _ _ HR). reflexivity.
Qed.

(* ------------------------------------------------------------------ append *)
Lemma entry_validate : forall rs id p,
  rs_validate rs (RAppend id p) = None <->
  (opair_ltb (r_last rs) (Some id) &&
   match r_last rs with Some l => N.eqb (lid_index id) (lid_index l + 1) | None => true end) = true.
Proof.
  intros rs id p. unfold rs_validate. rewrite (opair_ltb_negb_leb (r_last rs) (Some id)).
  destruct (opair_leb (Some id) (r_last rs)); cbn [negb andb].
  - split; discriminate.
  - destruct (r_last rs) as [l|]; [|split; reflexivity].
    rewrite (N.eqb_sym (lid_index id)).
    destruct (N.eqb (lid_index l + 1) (lid_index id)); split; congruence.
Qed.

(* the reference log accepts an entry: what every simulation of an append starts from *)
Lemma spec_entry_inv sp id p sp' : spec_step sp (SEntry id p) = Some sp' ->
  sp' = mkSpec (sp_vote sp) (sp_entries sp ++ [(id, p)]) (sp_committed sp) (sp_purged sp) (sp_user sp) /\
  opair_cmp (sp_last sp) (Some id) = Lt /\
  (forall l, sp_last sp = Some l -> lid_index id = lid_index l + 1) /\
  N.eqb (lid_index id) U64MAX = false.
Proof.
  cbn [spec_step]. intros E.
  match type of E with (if ?c then _ else _) = _ => destruct c eqn:C end; inversion E.
  apply andb_true_iff in C as [C C3]. apply andb_true_iff in C as [C1 C2].
  split; [reflexivity|]. split; [apply opair_ltb_lt, C1|]. split; [|apply negb_true_iff, C3].
  intros l Hl. rewrite Hl in C2. apply N.eqb_eq, C2.
Qed.

Lemma entry_validates s sp id p sp' : Rlog s sp -> spec_step sp (SEntry id p) = Some sp' ->
  rs_validate (m_rs s) (RAppend id p) = None.
Proof.
  intros HR E. apply entry_validate. rewrite (L_rs _ _ HR). cbn [spec_state r_last].
  cbn [spec_step] in E. destruct (_ && _ && _) eqn:C; [|discriminate E].
  apply andb_true_iff in C. apply C.
Qed.

(* ... and is then above every entry of the reference log and every key of the index map *)
Lemma entry_above s sp id p : Rlog s sp -> opair_cmp (sp_last sp) (Some id) = Lt ->
  (forall l, sp_last sp = Some l -> lid_index id = lid_index l + 1) ->
  (forall e, In e (sp_entries sp) -> klt e (id, p)) /\ (forall e, In e (m_log s) -> fst e < lid_index id).
Proof.
  intros HR Hlt Hidx.
  destruct (spec_wf_snoc sp id p (sp_vote sp) (sp_committed sp) (sp_user sp) (L_wf _ _ HR) Hlt Hidx) as [F1 _].
  split; [exact F1|]. intros e He. destruct (Rlog_key_in s sp e HR He) as [x [Hx1 [Hx2 _]]].
  destruct (F1 x Hx1) as [_ Hi]. cbn [fst] in Hi. lia.
Qed.

Lemma entry_accept_log : forall s sp id p, Rlog s sp ->
  opair_cmp (sp_last sp) (Some id) = Lt ->
  (forall l, sp_last sp = Some l -> lid_index id = lid_index l + 1) ->
  rs_validate (m_rs s) (RAppend id p) = None ->
  forall c seg,
    Rlog (fst (sm_apply s (RAppend id p) c seg))
      (mkSpec (sp_vote sp) (sp_entries sp ++ [(id, p)]) (sp_committed sp) (sp_purged sp) (sp_user sp)).
Proof.
  intros s sp id p HR Hlt Hidx HV c seg.
  rewrite sm_apply_eq. unfold rs_apply. rewrite HV. cbn [fst log_apply].
  destruct (spec_wf_snoc sp id p (sp_vote sp) (sp_committed sp) (sp_user sp) (L_wf _ _ HR) Hlt Hidx)
    as [_ W'].
  destruct (entry_above s sp id p HR Hlt Hidx) as [_ F2].
  constructor; [| |exact W'].
  - cbn [m_rs]. unfold spec_state. rewrite sp_last_olast. cbn [sp_entries]. rewrite olast_snoc.
    rewrite (L_rs _ _ HR). reflexivity.
  - cbn [m_log sp_entries]. rewrite (lm_insert_end _ _ _ F2), !map_app, (L_log _ _ HR). reflexivity.
Qed.

Lemma log_entry : forall s sp id p, Rlog s sp -> step_log s sp (RAppend id p) (SEntry id p).
Proof.
  intros s sp id p HR. unfold step_log. cbn [spec_step index_limit].
  pose proof (entry_validate (m_rs s) id p) as HV.
  assert (HL : r_last (m_rs s) = sp_last sp) by (rewrite (L_rs _ _ HR); reflexivity).
  rewrite HL in HV.
  destruct (opair_ltb (sp_last sp) (Some id) &&
            match sp_last sp with Some l => N.eqb (lid_index id) (lid_index l + 1) | None => true end) eqn:E1.
  - destruct (N.eqb (lid_index id) U64MAX) eqn:E3; cbn [andb negb].
    + left. reflexivity.
    + split; [reflexivity|]. split; [apply HV; reflexivity|]. intros c seg.
      apply andb_true_iff in E1. destruct E1 as [E1 E2].
      apply entry_accept_log; [exact HR| | |apply HV; reflexivity].
      * apply opair_ltb_lt. exact E1.
      * intros l Hl. rewrite Hl in E2. apply N.eqb_eq in E2. exact E2.
  - cbn [andb]. right. destruct (rs_validate (m_rs s) (RAppend id p)) as [e|] eqn:V.
    + exists e. reflexivity.
    + exfalso. destruct HV as [HV _]. specialize (HV eq_refl). discriminate.
Qed.

(* the new entry is above every cached key and fits: it goes to the end and nothing is evicted *)
Lemma entry_accept_cache : forall (Q Q' : logid * payload -> Prop) c sp id p n b v cm u,
  Rcache Q c sp -> (forall e, In e (sp_entries sp) -> Q' e -> Q e) ->
  Budget c (n + 1) (b + psize p) -> opair_cmp (sp_last sp) (Some id) = Lt ->
  Rcache Q' (cache_insert c id p) (mkSpec v (sp_entries sp ++ [(id, p)]) cm (sp_purged sp) u) /\
  Budget (cache_insert c id p) n b.
Proof.
  intros Q Q' c sp id p n b v cm u HC HQ [HB1 HB2] Hlt.
  assert (F3 : forall e, In e (ch_entries c) -> pair_cmp (fst e) id = Lt).
  { intros e He. exact (opair_le_lt_trans _ _ _ (C_le _ _ _ HC e He) Hlt). }
  rewrite (cache_insert_end c id p F3) by lia. split.
  - constructor; cbn [sp_entries cache_with ch_entries].
    + intros e He Hq. apply in_app_or in He. destruct He as [He|[He|[]]].
      * apply ent_get_app_l. apply (C_hit _ _ _ HC e He (HQ e He Hq)).
      * subst e. cbn [fst snd]. rewrite ent_get_app_r.
        -- cbn [ent_get]. rewrite pair_eqb_refl. reflexivity.
        -- intros e He. apply pair_cmp_lt_neq. apply F3. exact He.
    + apply SS_app_intro; [apply (C_sorted _ _ _ HC)|apply SS_single|].
      intros a x Ha [Hx|[]]. subst x. apply F3. exact Ha.
    + rewrite sp_last_olast. cbn [sp_entries]. rewrite olast_snoc. cbn [fst].
      intros e He. apply in_app_or in He. destruct He as [He|[He|[]]]; cbn [opair_cmp].
      * rewrite (F3 e He). discriminate.
      * subst e. cbn [fst]. rewrite pair_cmp_refl. discriminate.
  - unfold Budget. cbn [cache_with ch_entries ch_size ch_max_items ch_capacity].
    rewrite app_length, Nat2N.inj_add. cbn [length]. change (N.of_nat 1) with 1. split; lia.
Qed.

(* ------------------------------------------------------------------ truncate *)

Lemma trunc_accept_log : forall s sp o, Rlog s sp ->
  (o = sp_purged sp \/ exists id p, o = Some id /\ In (id, p) (sp_entries sp)) ->
  forall c seg,
    Rlog (fst (sm_apply s (RTrunc o) c seg))
      (mkSpec (sp_vote sp) (filter (fun e => N.ltb (lid_index (fst e)) (next_index o)) (sp_entries sp))
              (sp_committed sp) (sp_purged sp) (sp_user sp)).
Proof.
  intros s sp o HR Ho c seg. rewrite sm_apply_eq. cbn [fst rs_apply rs_validate log_apply].
  destruct (sp_last_trunc sp o (L_wf _ _ HR) Ho) as [T1 [T2 _]].
  set (sp' := mkSpec _ _ _ _ _). assert (T2' : sp_last sp' = o) by exact T2.
  constructor; cbn [m_rs m_log]; [| |apply spec_wf_filter, (L_wf _ _ HR)].
  - rewrite (L_rs _ _ HR). cbn [spec_state r_last]. unfold spec_state. rewrite T2'.
    destruct (opair_ltb o (sp_last sp)) eqn:E; [reflexivity|].
    apply opair_ltb_ge in E. rewrite (opair_le_antisym _ _ T1 E). reflexivity.
  - exact (map_filter_rel (fun q : N * logid => N.ltb (fst q) (next_index o)) f_log g_ent _ _ (L_log _ _ HR)).
Qed.

Lemma trunc_accept_cache : forall (Q Q' : logid * payload -> Prop) c sp o n b,
  Rcache Q c sp -> (forall e, In e (sp_entries sp) -> Q' e -> Q e) -> Budget c n b -> spec_wf sp ->
  (o = sp_purged sp \/ exists id p, o = Some id /\ In (id, p) (sp_entries sp)) ->
  Rcache Q' (cache_rec c (RTrunc o))
    (mkSpec (sp_vote sp) (filter (fun e => N.ltb (lid_index (fst e)) (next_index o)) (sp_entries sp))
            (sp_committed sp) (sp_purged sp) (sp_user sp)) /\
  Budget (cache_rec c (RTrunc o)) n b.
Proof.
  intros Q Q' c sp o n b HC HQ HB W Ho. destruct (sp_last_trunc sp o W Ho) as [_ [T2 T3]].
  destruct o as [key|]; cbn [cache_rec].
  - pose proof (cache_truncate_after_entries c key (C_sorted _ _ _ HC)) as Hce.
    destruct (cache_truncate_after_meta c key) as [M1 [M2 M3]]. split.
    + constructor; rewrite ?sp_last_olast; cbn [sp_entries sp_purged]; rewrite ?T2, Hce.
      * intros e He Hq. rewrite (ent_get_filter_key (fun k0 => negb (pair_ltb key k0))).
        -- apply filter_In in He. apply (C_hit _ _ _ HC e (proj1 He) (HQ e (proj1 He) Hq)).
        -- apply negb_true_iff. apply pair_ltb_ge. apply (T3 e He).
      * apply SS_filter. apply (C_sorted _ _ _ HC).
      * intros e He. apply filter_In in He. destruct He as [_ He].
        apply negb_true_iff in He. apply pair_ltb_ge in He. exact He.
    + eapply Budget_shrink; [exact HB| |exact M1|exact M2|exact M3].
      rewrite Hce. apply filter_length_le'.
  - assert (Hnil : filter (fun e => N.ltb (lid_index (fst e)) (next_index None)) (sp_entries sp) = []).
    { apply filter_all_false. intros x _. cbn [next_index]. apply N.ltb_ge. lia. }
    split.
    + constructor; cbn [sp_entries cache_clear cache_with ch_entries]; [rewrite Hnil| |]; try intros e []; try intros e [] _.
      constructor.
    + eapply Budget_shrink; [exact HB|cbn; lia|cbn; lia|reflexivity|reflexivity].
Qed.

(* ------------------------------------------------------------------ purge *)
Lemma purge_accept_log : forall s sp u, Rlog s sp ->
  ((exists p, In (u, p) (sp_entries sp)) \/
   (opair_cmp (sp_last sp) (Some u) = Lt /\ forall l, sp_last sp = Some l -> lid_index l < lid_index u)) ->
  forall c seg,
    Rlog (fst (sm_apply s (RPurge u) c seg))
      (mkSpec (sp_vote sp) (filter (fun e => N.ltb (lid_index u) (lid_index (fst e))) (sp_entries sp))
              (sp_committed sp)
              (if opair_ltb (sp_purged sp) (Some u) then Some u else sp_purged sp) (sp_user sp)).
Proof.
  intros s sp u HR Ho c seg. rewrite sm_apply_purge.
  destruct (sp_last_purge sp u (L_wf _ _ HR) Ho) as [P1 [P2 [P3 _]]].
  apply opair_ltb_lt in P1. rewrite P1. constructor; cbn [m_rs m_log].
  - rewrite (L_rs _ _ HR). unfold spec_state. rewrite (sp_last_olast (mkSpec _ _ _ _ _)).
    cbn [r_purged sp_entries sp_purged]. rewrite P1, P2. cbv zeta.
    cbn [rs_set_purged rs_set_last r_last r_vote r_committed r_user r_purged].
    destruct (opair_ltb (sp_last sp) (Some u)); reflexivity.
  - unfold lm_keep_ge.
    rewrite (filter_ext (fun e : N * logdata => N.leb (next_index (Some u)) (fst e))
                        (fun e : N * logdata => N.ltb (lid_index u) (fst e))).
    + exact (map_filter_rel (fun q : N * logid => N.ltb (lid_index u) (fst q)) f_log g_ent _ _ (L_log _ _ HR)).
    + intros a. cbn [next_index]. destruct (N.ltb (lid_index u) (fst a)) eqn:E.
      * apply N.leb_le. apply N.ltb_lt in E. lia.
      * apply N.leb_gt. apply N.ltb_ge in E. lia.
  - apply (spec_wf_purge sp u); [apply (L_wf _ _ HR)|exact P3].
Qed.

Lemma purge_accept_cache : forall (Q Q' : logid * payload -> Prop) c sp u n b,
  Rcache Q c sp -> (forall e, In e (sp_entries sp) -> Q' e -> Q e) -> Budget c n b -> spec_wf sp ->
  ((exists p, In (u, p) (sp_entries sp)) \/
   (opair_cmp (sp_last sp) (Some u) = Lt /\ forall l, sp_last sp = Some l -> lid_index l < lid_index u)) ->
  Rcache Q' (cache_purge_upto c u)
    (mkSpec (sp_vote sp) (filter (fun e => N.ltb (lid_index u) (lid_index (fst e))) (sp_entries sp))
            (sp_committed sp)
            (if opair_ltb (sp_purged sp) (Some u) then Some u else sp_purged sp) (sp_user sp)) /\
  Budget (cache_purge_upto c u) n b.
Proof.
  intros Q Q' c sp u n b HC HQ HB W Ho. destruct (sp_last_purge sp u W Ho) as [P1 [P2 [P3 P4]]].
  apply opair_ltb_lt in P1. rewrite P1.
  destruct (cache_purge_upto_split c u) as [es1 [C1 [C2 [C3 [C4 C5]]]]]. split.
  - constructor; rewrite ?sp_last_olast; cbn [sp_entries sp_purged]; rewrite ?P2.
    + intros e He Hq. assert (Hin : In e (sp_entries sp)) by (apply filter_In in He; apply He).
      pose proof (C_hit _ _ _ HC e Hin (HQ e Hin Hq)) as Hh. rewrite C1 in Hh. rewrite ent_get_app_r in Hh; [exact Hh|].
      intros x Hx. apply pair_cmp_lt_neq.
      eapply pair_cmp_le_lt_trans; [apply C2; exact Hx|apply P3; exact He].
    + pose proof (C_sorted _ _ _ HC) as Hs. rewrite C1 in Hs. apply SS_app_inv in Hs. apply Hs.
    + intros e He. eapply opair_le_trans; [|exact P4].
      apply (C_le _ _ _ HC). rewrite C1. apply in_or_app. right. exact He.
  - eapply Budget_shrink; [exact HB| |exact C3|exact C4|exact C5].
    rewrite C1 at 1. rewrite app_length. lia.
Qed.

(* ------------------------------------------------------------------ the spec write of a journalled record *)
(* the pairs (record, spec write) that a Raft-legal write call produces in state [sp] *)
Inductive rec_sw (sp : spec) : record -> swrite -> Prop :=
| WsVote v : rec_sw sp (RVote v) (SVote v)
| WsCommit id : rec_sw sp (RCommit id) (SCommit id)
| WsUser u : rec_sw sp (RState (rs_set_user (spec_state sp) u)) (SUser u)
| WsEntry id p : rec_sw sp (RAppend id p) (SEntry id p)
| WsTrunc o : (o = sp_purged sp \/ exists id p, o = Some id /\ In (id, p) (sp_entries sp)) ->
    rec_sw sp (RTrunc o) (STruncate (next_index o))
| WsPurge u : N.ltb (lid_index u) (next_index (sp_purged sp)) = false ->
    ((exists p, In (u, p) (sp_entries sp)) \/
     (opair_cmp (sp_last sp) (Some u) = Lt /\ forall l, sp_last sp = Some l -> lid_index l < lid_index u)) ->
    rec_sw sp (RPurge u) (SPurge u).

Lemma trunc_step : forall sp o,
  (o = sp_purged sp \/ exists id p, o = Some id /\ In (id, p) (sp_entries sp)) ->
  spec_step sp (STruncate (next_index o)) =
  Some (mkSpec (sp_vote sp) (filter (fun e => N.ltb (lid_index (fst e)) (next_index o)) (sp_entries sp))
               (sp_committed sp) (sp_purged sp) (sp_user sp)).
Proof.
  intros sp o Ho. cbn [spec_step].
  replace (_ || _) with true; [reflexivity|]. symmetry. destruct Ho as [->|(id & p & -> & Hin)].
  - rewrite N.eqb_refl. reflexivity.
  - apply orb_true_iff. right. cbn [next_index]. apply andb_true_iff. split.
    + apply negb_true_iff, N.eqb_neq. lia.
    + apply existsb_exists. exists (id, p). split; [exact Hin|]. cbn [fst]. apply N.eqb_eq. lia.
Qed.

Lemma purge_legal_arg : forall sp u, purge_legal sp u = true ->
  N.ltb (lid_index u) (next_index (sp_purged sp)) = false ->
  (exists p, In (u, p) (sp_entries sp)) \/
  (opair_cmp (sp_last sp) (Some u) = Lt /\ forall l, sp_last sp = Some l -> lid_index l < lid_index u).
Proof.
  intros sp u Hleg E1. unfold purge_legal in Hleg. rewrite E1 in Hleg. cbn [orb] in Hleg.
  apply orb_true_iff in Hleg. destruct Hleg as [Hl|Hl].
  - left. apply existsb_exists in Hl. destruct Hl as [[id p] [Hin He]].
    cbn [fst] in He. apply pair_eqb_eq in He. subst id. exists p. exact Hin.
  - right. apply andb_true_iff in Hl. destruct Hl as [H1 H2].
    split; [apply opair_ltb_lt; exact H1|]. intros l Hl. rewrite Hl in H2.
    apply N.ltb_lt. exact H2.
Qed.

Lemma rec_sw_log : forall s sp r sw, Rlog s sp -> rec_sw sp r sw -> step_log s sp r sw.
Proof.
  intros s sp r sw HR [v|id|u|id p|o Ho|u E1 Hu].
  - apply log_vote, HR.
  - apply log_commit, HR.
  - rewrite <- (L_rs _ _ HR). apply log_user, HR.
  - apply log_entry, HR.
  - unfold step_log. rewrite (trunc_step sp o Ho). split; [reflexivity|]. split; [reflexivity|].
    intros c seg. apply trunc_accept_log; assumption.
  - unfold step_log. cbn [spec_step index_limit]. rewrite E1.
    destruct (N.eqb (lid_index u) U64MAX); [left; reflexivity|].
    split; [reflexivity|]. split; [reflexivity|]. intros c seg.
    apply purge_accept_log; assumption.
Qed.

(* the cache part of one record, for any selectors [Q], [Q'] of the entries that must be resident before
   and after: an entry spends one cache entry and its size, nothing else spends *)
Lemma rec_sw_cache (Q Q' : logid * payload -> Prop) s sp r sw sp' n b c seg :
  Rcache Q (m_cache s) sp -> (forall e, In e (sp_entries sp) -> Q' e -> Q e) -> spec_wf sp ->
  rec_sw sp r sw -> spec_step sp sw = Some sp' ->
  match r with RAppend _ p => Budget (m_cache s) (n + 1) (b + psize p) | _ => Budget (m_cache s) n b end ->
  Rcache Q' (m_cache (fst (sm_apply s r c seg))) sp' /\ Budget (m_cache (fst (sm_apply s r c seg))) n b.
Proof.
  intros HC HQ W Hw E HB. rewrite sm_apply_eq. cbn [fst m_cache].
  assert (Same : sp_entries sp' = sp_entries sp -> sp_purged sp' = sp_purged sp -> Rcache Q' (m_cache s) sp').
  { intros He Hp. apply (Rcache_same _ _ sp sp'); [|exact He|exact Hp].
    destruct HC as [H1 H2 H3]. constructor; [|exact H2|exact H3]. intros e He0 Hq. exact (H1 e He0 (HQ e He0 Hq)). }
  destruct Hw as [v|id|u|id p|o Ho|u E1 Hu]; cbn [spec_step] in E.
  - split; [|exact HB]. destruct (ovote_accepts _ _); [|discriminate E]. injection E as <-. apply Same; reflexivity.
  - split; [|exact HB]. destruct (opair_leb _ _); [|discriminate E]. injection E as <-. apply Same; reflexivity.
  - split; [|exact HB]. injection E as <-. apply Same; reflexivity.
  - destruct (spec_entry_inv sp id p sp' E) as (-> & Hlt & _). exact (entry_accept_cache Q Q' _ sp id p n b _ _ _ HC HQ HB Hlt).
  - change (spec_step sp (STruncate (next_index o)) = Some sp') in E. rewrite (trunc_step sp o Ho) in E. injection E as <-.
    exact (trunc_accept_cache Q Q' _ sp o n b HC HQ HB W Ho).
  - rewrite E1 in E. destruct (N.eqb (lid_index u) U64MAX); [discriminate E|]. injection E as <-.
    exact (purge_accept_cache Q Q' _ sp u n b HC HQ HB W Hu).
Qed.

Definition res_agrees (r : wres) (ok : bool) : Prop :=
  match r with WOk _ _ => ok = true | WErr _ => ok = false end.

(* [append_and_apply] of a journalled record against its spec write: the result agrees; refused, nothing
   changes; accepted, the state machine is [sm_apply] at the end of the open chunk, related to the new
   reference log, and the chunk may have been rotated *)
Lemma aaa_sim k sp r sw k' res ef : Rlog (k_sm k) sp -> rec_sw sp r sw ->
  append_and_apply k r = Ret (k', res, ef) ->
  res_agrees res (snd (spec_one sp sw)) /\
  match spec_step sp sw with
  | None => k' = k /\ ef = []
  | Some sp' => exists sm1, rs_validate (m_rs (k_sm k)) r = None /\
      sm_apply (k_sm k) r (ck_id (k_open k)) (ck_end (k_open k), rec_size r) = (sm1, None) /\
      Rlog sm1 sp' /\
      (k' = JournalChunk.appended k r sm1 /\ ef = [] \/
       k' = JournalChunk.rotated (JournalChunk.appended k r sm1) /\
       ef = JournalChunk.rotate_effs (JournalChunk.appended k r sm1))
  end.
Proof.
  intros HL Hw H. pose proof (rec_sw_log _ _ _ _ HL Hw) as HS. unfold step_log in HS. unfold spec_one.
  destruct (JournalChunk.aaa_spec k r) as (k0 & w0 & e0 & E & D). rewrite E in H. inversion H; subst k0 w0 e0.
  destruct (spec_step sp sw) as [sp'|]; cbn [snd].
  - destruct HS as [HLim [HV Hsim]].
    destruct D as [(_ & _ & [[C _]|(_ & e & C & _)])|(_ & _ & -> & sm1 & Hs & D)]; [congruence|congruence|].
    split; [reflexivity|]. exists sm1. split; [exact HV|]. split; [exact Hs|]. split.
    + specialize (Hsim (ck_id (k_open k)) (ck_end (k_open k), rec_size r)). rewrite Hs in Hsim. exact Hsim.
    + destruct D as [(-> & -> & _)|(-> & -> & _)]; [left|right]; split; reflexivity.
  - destruct D as [(-> & -> & [[_ ->]|(_ & e & _ & ->)])|(HLim & HV & _)]; [repeat split..|].
    destruct HS as [HS|[e HS]]; congruence.
Qed.

Definition bytes_of (es : list (logid * payload)) : N :=
  fold_right (fun e acc => psize (snd e) + acc) 0 es.

Lemma bytes_of_app : forall a b, bytes_of (a ++ b) = bytes_of a + bytes_of b.
Proof.
  intros a b. induction a as [|x a IH]; cbn [app bytes_of fold_right]; [reflexivity|].
  fold (bytes_of (a ++ b)). fold (bytes_of a). rewrite IH. lia.
Qed.

(* A write call against the reference log, for an invariant [Q k effs sp n b] of the core reached, the
   effects produced so far, the reference log and a cache budget ([n] more entries, [b] more bytes; an
   invariant without a budget ignores them). [Q] is kept and the result agrees as soon as [Q] contains
   the log part of [R], this holds for one journalled record paired by [rec_sw] with its spec write (an
   entry spends one cache entry and its size, nothing else spends), and the removal of obsolete chunks
   keeps [Q]. *)
Section WriteSim.
  Variable Q : core -> list eff -> spec -> N -> N -> Prop.
  Hypothesis Q_mono : forall k effs sp n b n' b', Q k effs sp n b -> n' <= n -> b' <= b -> Q k effs sp n' b'.

  Lemma do_append_sim_gen es :
    (forall k effs sp n b id p k' res ef, In (id, p) es -> Q k effs sp (n + 1) (b + psize p) ->
       append_and_apply k (RAppend id p) = Ret (k', res, ef) ->
       Q k' (effs ++ ef) (fst (spec_one sp (SEntry id p))) n b /\
       res_agrees res (snd (spec_one sp (SEntry id p)))) ->
    forall k sp acc effs0 n b k' r effs,
      Q k effs0 sp (n + N.of_nat (length es)) (b + bytes_of es) -> wres_ok acc ->
      do_append k es acc effs0 = Ret (k', r, effs) ->
      Q k' effs (fst (spec_append sp es)) n b /\ res_agrees r (snd (spec_append sp es)).
  Proof using Q_mono.
    induction es as [|[id p] es IH]; intros Hrec k sp acc effs0 n b k' r effs HQ Hacc H;
      cbn [do_append spec_append] in *.
    - inversion H; subst. split; [apply (Q_mono _ _ _ _ _ _ _ HQ); lia|].
      destruct r; [reflexivity|destruct Hacc].
    - destruct (append_and_apply k (RAppend id p)) as [[[k1 res] ef]|] eqn:Ha; [|discriminate].
      destruct (Hrec k effs0 sp (n + N.of_nat (length es)) (b + bytes_of es) id p k1 res ef) as [HQ1 Hag];
        [left; reflexivity| |exact Ha|].
      { apply (Q_mono _ _ _ _ _ _ _ HQ); [cbn [length]|cbn [bytes_of fold_right snd]; fold (bytes_of es)]; lia. }
      unfold spec_one in HQ1, Hag.
      destruct (spec_step sp (SEntry id p)) as [sp1|]; cbn [fst snd] in HQ1, Hag.
      + destruct res as [off len|e]; [|discriminate Hag].
        exact (IH (fun k effs sp n b i q k' res ef Hi => Hrec k effs sp n b i q k' res ef (or_intror Hi))
                  _ _ (WOk off len) _ _ _ _ _ _ HQ1 I H).
      + destruct res as [off len|e]; [discriminate Hag|]. inversion H; subst.
        split; [apply (Q_mono _ _ _ _ _ _ _ HQ1); lia|reflexivity].
  Qed.

  Variable w : wop.
  Hypothesis Q_log : forall k effs sp n b, Q k effs sp n b -> Rlog (k_sm k) sp.
  Hypothesis Q_rec : forall k effs sp n b r sw k' res ef, issues k w r -> rec_sw sp r sw ->
    match r with RAppend _ p => Q k effs sp (n + 1) (b + psize p) | _ => Q k effs sp n b end ->
    append_and_apply k r = Ret (k', res, ef) ->
    Q k' (effs ++ ef) (fst (spec_one sp sw)) n b /\ res_agrees res (snd (spec_one sp sw)).
  Hypothesis Q_pop : forall k effs sp n b u ids rest, Q k effs sp n b ->
    opair_cmp (Some u) (sp_purged sp) <> Gt ->
    pop_obsolete u (k_closed k) = (ids, rest) -> Q (JournalChunk.purged_core k ids rest) effs sp n b.

  Lemma do_write_sim_gen k sp n b k' res effs :
    Q k [] sp (n + N.of_nat (length (op_entries (OW w)))) (b + bytes_of (op_entries (OW w))) ->
    wop_legal sp w = true -> do_write k w = Ret (k', res, effs) ->
    Q k' effs (fst (spec_wop sp w)) n b /\ res_agrees res (snd (spec_wop sp w)).
  Proof using Q_mono Q_log Q_rec Q_pop.
    intros HQ Hleg H.
    assert (HI : Q k [] sp n b) by (apply (Q_mono _ _ _ _ _ _ _ HQ); lia).
    pose proof (Q_log _ _ _ _ _ HI) as HR. pose proof (L_rs _ _ HR) as Ers.
    pose proof (fun r sw => Q_rec k [] sp n b r sw k' res effs) as One.
    destruct w as [v|es|i|u|id|u|st]; cbn [do_write spec_wop op_entries] in *.
    - exact (One _ _ (IsVote k v) (WsVote sp v) HI H).
    - destruct (wal_last_segment_cases k) as [Hp|(s0 & l0 & Hs)]; rewrite ?Hp, ?Hs in H; [discriminate|].
      refine (do_append_sim_gen es _ _ _ (WOk s0 l0) _ _ _ _ _ _ HQ I H).
      intros k0 e0 sp0 n0 b0 id p k1 res1 ef Hi.
      exact (Q_rec _ _ _ _ _ (RAppend id p) _ _ _ _ (IsEntry k0 es id p Hi) (WsEntry sp0 id p)).
    - pose proof (IsTruncPurged k i) as Hip. rewrite Ers in H, Hip. cbn [spec_state r_purged] in H, Hip.
      destruct (N.eqb i (next_index (sp_purged sp))) eqn:E1.
      { apply N.eqb_eq in E1. rewrite E1. exact (One _ _ Hip (WsTrunc sp _ (or_introl eq_refl)) HI H). }
      pose proof (lm_get_rel (m_log (k_sm k)) (sp_entries sp) (i - 1) (L_log _ _ HR)) as HG.
      unfold lm_get_id in H.
      destruct (N.eqb i 0) eqn:E2; [|destruct (lm_get (i - 1) (m_log (k_sm k))) as [d|] eqn:El].
      + inversion H; subst. unfold spec_one. cbn [spec_step]. rewrite E1, E2. split; [exact HI|reflexivity].
      + destruct HG as [p [Hin Hidx]].
        assert (Hi : i = next_index (Some (ld_id d))) by (cbn [next_index]; apply N.eqb_neq in E2; lia).
        rewrite Hi. refine (One _ _ (IsTruncEntry k i d El) (WsTrunc sp (Some (ld_id d)) _) HI H).
        right. eauto.
      + inversion H; subst. unfold spec_one. cbn [spec_step]. rewrite E1, E2. cbn [orb negb andb].
        unfold sp_has_index. rewrite HG. split; [exact HI|reflexivity].
    - cbn [wop_legal] in Hleg. rewrite Ers in H. cbn [spec_state r_purged] in H.
      destruct (N.ltb (lid_index u) (next_index (sp_purged sp))) eqn:E1.
      + destruct (wal_last_segment_cases k) as [Hp|(s0 & l0 & Hs)]; [rewrite Hp in H; discriminate|].
        rewrite Hs in H. inversion H; subst. unfold spec_one. cbn [spec_step]. rewrite E1.
        split; [exact HI|reflexivity].
      + destruct (append_and_apply k (RPurge u)) as [[[k1 r1] ef]|] eqn:Ea; [|discriminate].
        destruct (Q_rec _ _ _ _ _ _ _ _ _ _ (IsPurge k u)
                    (WsPurge sp u E1 (purge_legal_arg _ _ Hleg E1)) HI Ea) as [HI1 Hag].
        destruct r1 as [off len|e]; [|inversion H; subst; split; assumption].
        destruct (pop_obsolete u (k_closed k1)) as [ids rest] eqn:Ep. inversion H; subst.
        split; [|exact Hag]. apply (Q_pop _ _ _ _ _ u ids rest HI1); [|exact Ep].
        unfold spec_one in Hag |- *. cbn [spec_step] in *. rewrite E1 in *.
        destruct (N.eqb (lid_index u) U64MAX); [discriminate Hag|]. cbn [fst sp_purged].
        destruct (opair_ltb (sp_purged sp) (Some u)) eqn:E3; [apply opair_eq_le|].
        apply opair_ltb_ge in E3. exact E3.
    - exact (One _ _ (IsCommit k id) (WsCommit sp id) HI H).
    - pose proof (IsUser k u) as Hiu. rewrite Ers in H, Hiu. exact (One _ _ Hiu (WsUser sp u) HI H).
    - discriminate Hleg.
  Qed.
End WriteSim.


(* ------------------------------------------------------------------ entries and chunks *)
(* every index-map entry is stored in a chunk the core still lists, and the entries stored in a closed
   chunk are at most the last id recorded when it was closed (so a chunk popped by a purge holds no
   live entry). PurgeLive.J and RestartInv.live_ok, closed_bound are this. *)

Record Jc (k : core) : Prop := mkJc {
  Jc_in : forall e, In e (m_log (k_sm k)) -> In (ld_chunk (snd e)) (JournalChunk.closed_ids k ++ [ck_id (k_open k)]);
  Jc_le : forall e c, In e (m_log (k_sm k)) -> In c (k_closed k) -> ld_chunk (snd e) = ck_id (cl_chunk c) ->
          opair_cmp (Some (ld_id (snd e))) (r_last (cl_state c)) <> Gt }.

Lemma Rlog_entry_le_last s sp e : Rlog s sp -> In e (m_log s) ->
  opair_cmp (Some (ld_id (snd e))) (r_last (m_rs s)) <> Gt.
Proof.
  intros HR He. destruct (Rlog_key_in s sp e HR He) as (b & Hb & _ & Hid).
  destruct (wf_entry_le_last sp b (L_wf _ _ HR) Hb) as (l & Hl & Hc & _).
  rewrite (L_rs _ _ HR). cbn [spec_state r_last]. rewrite Hl, Hid. cbn [opair_cmp]. exact Hc.
Qed.

Lemma Jc_record k r sm1 seg : Jc k ->
  (forall c, In c (k_closed k) -> ck_id (cl_chunk c) <> ck_id (k_open k)) ->
  fst (sm_apply (k_sm k) r (ck_id (k_open k)) seg) = sm1 -> Jc (JournalChunk.appended k r sm1).
Proof.
  intros [J1 J2] Hne <-. set (sm1 := fst _).
  assert (Hlog : forall e, In e (m_log sm1) -> In e (m_log (k_sm k)) \/ ld_chunk (snd e) = ck_id (k_open k)).
  { intros e He. destruct (JournalChunk.sm_apply_log _ _ _ _ _ He) as [H1|(id & p & _ & ->)]; [left; exact H1|right; reflexivity]. }
  constructor; unfold JournalChunk.closed_ids; cbn [JournalChunk.appended k_sm k_closed k_open]; rewrite ?JournalChunk.ck_id_push.
  - intros e He. destruct (Hlog e He) as [H|H]; [apply J1, H|].
    rewrite H. apply in_or_app. right. left. reflexivity.
  - intros e c He Hc Ec. destruct (Hlog e He) as [H|H]; [apply J2; assumption|].
    destruct (Hne c Hc). rewrite <- Ec. exact H.
Qed.

Lemma Jc_rotate k sp : Jc k -> Rlog (k_sm k) sp ->
  k_closed (JournalChunk.rotated k) = k_closed k ++ [mkClosed (k_open k) (m_rs (k_sm k)) false] -> Jc (JournalChunk.rotated k).
Proof.
  intros [J1 J2] HR Hcl. constructor; unfold JournalChunk.closed_ids; rewrite Hcl; cbn [JournalChunk.rotated k_sm k_open].
  - intros e He. rewrite map_app. cbn [map cl_chunk]. rewrite JournalChunk.ck_id_push. cbn [ck_id].
    apply in_or_app. left. apply J1, He.
  - intros e c He Hc Ec. apply in_app_or in Hc as [Hc|[<-|[]]]; [apply J2; assumption|].
    cbn [cl_state]. exact (Rlog_entry_le_last _ _ e HR He).
Qed.

Lemma Jc_pop k sp u ids rest : Jc k -> Rlog (k_sm k) sp -> opair_cmp (Some u) (sp_purged sp) <> Gt ->
  pop_obsolete u (k_closed k) = (ids, rest) -> Jc (JournalChunk.purged_core k ids rest).
Proof.
  intros [J1 J2] HR Hu Hp. destruct (JournalChunk.pop_obsolete_spec _ _ _ _ Hp) as (pre & E1 & _ & E3 & _).
  constructor; unfold JournalChunk.closed_ids in *; cbn [JournalChunk.purged_core k_sm k_closed k_open].
  - (* an entry stored in a popped chunk would lie at or below the purge boundary *)
    intros e He. specialize (J1 e He). rewrite E1, map_app, <- app_assoc in J1.
    apply in_app_or in J1 as [J1|J1]; [|exact J1].
    exfalso. apply in_map_iff in J1 as (c & Ec & Hc).
    assert (Hcl : In c (k_closed k)) by (rewrite E1; apply in_or_app; left; exact Hc).
    pose proof (J2 e c He Hcl (eq_sym Ec)) as Hle.
    rewrite Forall_forall in E3. specialize (E3 c Hc). apply opair_ltb_ge in E3.
    destruct (Rlog_key_in _ _ e HR He) as (b & Hb & _ & Hid).
    destruct (proj2 (L_wf _ _ HR) b Hb) as [Hpg _]. rewrite <- Hid in Hpg.
    apply (opair_lt_not_ge _ _ Hpg). eapply opair_le_trans; [|exact Hu]. eapply opair_le_trans; eassumption.
  - intros e c He Hc Ec. apply J2; [exact He| |exact Ec]. rewrite E1. apply in_or_app. right. exact Hc.
Qed.

(* ------------------------------------------------------------------ the invariant of a run *)
Definition Inv (k : core) (sp : spec) (n b : N) : Prop :=
  R (k_sm k) sp /\ Budget (m_cache (k_sm k)) n b /\ ck_ends (k_open k) <> [].

Lemma Inv_mono : forall k sp n b n' b', Inv k sp n b -> n' <= n -> b' <= b -> Inv k sp n' b'.
Proof.
  intros k sp n b n' b' [HR [HB HO]] Hn Hb. split; [exact HR|]. split; [|exact HO].
  eapply Budget_mono; eassumption.
Qed.

Lemma Inv_ext : forall k k' sp n b, k_sm k' = k_sm k -> k_open k' = k_open k ->
  Inv k sp n b -> Inv k' sp n b.
Proof. intros k k' sp n b H1 H2 HI. unfold Inv. rewrite H1, H2. exact HI. Qed.

Lemma Inv_evictable : forall k sp n b x, Inv k sp n b ->
  Inv (core_with_cache k (cache_set_evictable (m_cache (k_sm k)) x)) sp n b.
Proof.
  intros k sp n b x [HR [HB HO]]. split; [|split; [exact HB|exact HO]].
  destruct HR as [H1 H2 H3 H4 H5 H6 H7]. constructor; cbn; assumption.
Qed.

Lemma Inv_rec : forall k sp n b r sw k' res ef,
  match r with RAppend _ p => Inv k sp (n + 1) (b + psize p) | _ => Inv k sp n b end ->
  rec_sw sp r sw -> append_and_apply k r = Ret (k', res, ef) ->
  Inv k' (fst (spec_one sp sw)) n b /\ res_agrees res (snd (spec_one sp sw)).
Proof.
  intros k sp n b r sw k' res ef HI Hs Ha.
  assert (G : R (k_sm k) sp /\ ck_ends (k_open k) <> [] /\ Budget (m_cache (k_sm k)) n b /\
            match r with RAppend _ p => Budget (m_cache (k_sm k)) (n + 1) (b + psize p)
                       | _ => Budget (m_cache (k_sm k)) n b end)
    by (destruct r; destruct HI as (HR & HB & HO); (split; [exact HR|split; [exact HO|split; [|exact HB]]]);
        (eapply Budget_mono; [exact HB|lia|lia])).
  destruct G as (HR & HO & HB0 & HB). apply R_split in HR. destruct HR as [HL HC].
  destruct (aaa_sim k sp r sw k' res ef HL Hs Ha) as [Hag HA]. split; [|exact Hag]. unfold spec_one.
  destruct (spec_step sp sw) as [sp'|] eqn:Es; cbn [fst].
  - destruct HA as (sm1 & _ & Hsm & HL1 & Hk).
    destruct (rec_sw_cache (fun _ => True) (fun _ => True) (k_sm k) sp r sw sp' n b (ck_id (k_open k))
                (ck_end (k_open k), rec_size r) HC (fun _ _ H => H) (L_wf _ _ HL) Hs Es HB) as [HC1 HB1].
    rewrite Hsm in HC1, HB1.
    destruct Hk as [[-> _]|[-> _]];
      (split; [apply R_split; split; assumption|split; [exact HB1|apply ck_push_ends_nonempty]]).
  - destruct HA as [-> _]. split; [apply R_split; split; assumption|split; assumption].
Qed.

Lemma do_write_sim : forall k sp w n b,
  Inv k sp (n + N.of_nat (length (op_entries (OW w)))) (b + bytes_of (op_entries (OW w))) ->
  wop_legal sp w = true ->
  exists k' r effs, do_write k w = Ret (k', r, effs) /\
    Inv k' (fst (spec_wop sp w)) n b /\ res_agrees r (snd (spec_wop sp w)).
Proof.
  intros k sp w n b HI Hleg.
  destruct (do_write k w) as [[[k' r] effs]|] eqn:H;
    [|destruct (do_write_no_panic k w (proj2 (proj2 HI)) H)].
  exists k', r, effs. split; [reflexivity|].
  apply (do_write_sim_gen (fun k _ sp n b => Inv k sp n b) (fun k _ => Inv_mono k) w) with (k := k) (effs := effs);
    [| | |exact HI|exact Hleg|exact H].
  - intros k0 _ sp0 n0 b0 [HR _]. apply R_split, HR.
  - intros k0 _ sp0 n0 b0 r0 sw k1 res ef _ Hs HI0. exact (Inv_rec _ _ _ _ _ _ _ _ _ HI0 Hs).
  - intros k0 _ sp0 n0 b0 u ids rest HI0 _ _. eapply Inv_ext; [| |exact HI0]; reflexivity.
Qed.

Lemma run_op_sim : forall y sp o n b,
  Inv (y_core y) sp (n + N.of_nat (length (op_entries o))) (b + bytes_of (op_entries o)) ->
  op_plain sp o = true ->
  exists y' r, run_op y o = (Some y', r) /\ Inv (y_core y') (spec_op sp o) n b /\
    (forall w, o = OW w -> exists wr, r = ResW wr /\ res_agrees wr (snd (spec_wop sp w))).
Proof.
  intros y sp o n b HI Hp.
  assert (HI0 : Inv (y_core y) sp n b) by (eapply Inv_mono; [exact HI|lia|lia]).
  destruct o as [w|cb|from to| | | | | |cfg]; cbn [op_plain] in Hp; try discriminate Hp;
    cbn [run_op spec_op].
  - destruct (do_write_sim _ _ _ _ _ HI Hp) as (k' & r & effs & Hd & HI' & Hag).
    rewrite Hd. eexists. eexists. split; [reflexivity|]. split.
    + rewrite apply_effs_core. exact HI'.
    + intros w0 Hw. inversion Hw. subst w0. exists r. split; [reflexivity|exact Hag].
  - cbn [do_flush]. eexists. eexists. split; [reflexivity|]. split; [|intros w Hw; discriminate Hw].
    rewrite apply_effs_core. cbn [with_core y_core].
    eapply Inv_ext; [| |exact HI0]; reflexivity.
  - pose proof (do_read_sm_open (y_core y) (y_disk y) from to) as [H1 H2].
    destruct (do_read (y_core y) (y_disk y) from to) as [k items]. cbn [fst] in H1, H2.
    eexists. eexists. split; [reflexivity|]. split; [|intros w Hw; discriminate Hw].
    cbn [with_core y_core]. eapply Inv_ext; [exact H1|exact H2|exact HI0].
  - eexists. eexists. split; [reflexivity|]. split; [exact HI0|intros w Hw; discriminate Hw].
  - eexists. eexists. split; [reflexivity|]. split; [exact HI0|intros w Hw; discriminate Hw].
  - eexists. eexists. split; [reflexivity|]. split; [exact HI0|intros w Hw; discriminate Hw].
  - eexists. eexists. split; [reflexivity|]. split; [|intros w Hw; discriminate Hw].
    apply (worker_idle_keeps (fun k => Inv k sp n b)); [|exact HI0].
    intros k x Hk. apply Inv_evictable. exact Hk.
Qed.

Lemma appended_cons : forall o r, appended (o :: r) = op_entries o ++ appended r.
Proof. reflexivity. Qed.

Lemma appended_bytes_of : forall ops, appended_bytes ops = bytes_of (appended ops).
Proof. reflexivity. Qed.

(* from one operation to a history, for an invariant that carries a cache budget *)
Section RunSim.
  Variable P : sys -> spec -> N -> N -> Prop.
  Variable ok : op -> Prop.
  Hypothesis P_mono : forall y sp n b n' b', P y sp n b -> n' <= n -> b' <= b -> P y sp n' b'.
  Hypothesis P_op : forall y sp o n b,
    P y sp (n + N.of_nat (length (op_entries o))) (b + bytes_of (op_entries o)) ->
    op_plain sp o = true -> ok o ->
    exists y' r, run_op y o = (Some y', r) /\ P y' (spec_op sp o) n b.

  Lemma P_cons y sp o r n b :
    P y sp (n + N.of_nat (length (appended (o :: r)))) (b + appended_bytes (o :: r)) ->
    P y sp ((n + N.of_nat (length (appended r))) + N.of_nat (length (op_entries o)))
           ((b + appended_bytes r) + bytes_of (op_entries o)).
  Proof using P_mono.
    intros H. apply (P_mono _ _ _ _ _ _ H).
    - rewrite appended_cons, app_length, Nat2N.inj_add. lia.
    - rewrite !appended_bytes_of, appended_cons, bytes_of_app. lia.
  Qed.

  Lemma run_ops_sim_gen ops : forall y sp res fin n b,
    P y sp (n + N.of_nat (length (appended ops))) (b + appended_bytes ops) ->
    ops_plain sp ops = true -> Forall ok ops -> run_ops y ops = (res, fin) ->
    exists y', fin = Some y' /\ P y' (spec_ops sp ops) n b.
  Proof using P_mono P_op.
    induction ops as [|o r IH]; intros y sp res fin n b HP Hp Hok Hrun; cbn [run_ops] in Hrun.
    - inversion Hrun; subst. exists y. split; [reflexivity|]. apply (P_mono _ _ _ _ _ _ HP); lia.
    - cbn [ops_plain] in Hp. apply andb_true_iff in Hp. destruct Hp as [Hp1 Hp2].
      inversion Hok as [|? ? Ho Hr]; subst.
      destruct (P_op y sp o _ _ (P_cons _ _ _ _ _ _ HP) Hp1 Ho) as (y' & r0 & Hop & HP').
      rewrite Hop in Hrun. destruct (run_ops y' r) as [rs fin'] eqn:Er. inversion Hrun; subst.
      exact (IH y' (spec_op sp o) rs fin n b HP' Hp2 Hr Er).
  Qed.
End RunSim.


Lemma run_ops_sim : forall ops y sp res fin n b,
  Inv (y_core y) sp (n + N.of_nat (length (appended ops))) (b + appended_bytes ops) ->
  ops_plain sp ops = true -> run_ops y ops = (res, fin) ->
  exists y', fin = Some y' /\ Inv (y_core y') (spec_ops sp ops) n b.
Proof.
  intros ops y sp res fin n b HI Hp.
  apply (run_ops_sim_gen (fun y => Inv (y_core y)) (fun _ => True) (fun y => Inv_mono (y_core y)));
    [|exact HI|exact Hp|apply Forall_True].
  intros y0 sp0 o n0 b0 HI0 Hp0 _. destruct (run_op_sim y0 sp0 o n0 b0 HI0 Hp0) as (y' & r & H1 & H2 & _).
  exists y', r. split; assumption.
Qed.

Lemma ops_plain_app : forall a sp b, ops_plain sp (a ++ b) = true ->
  ops_plain sp a = true /\ ops_plain (spec_ops sp a) b = true.
Proof.
  intros a. induction a as [|o a IH]; intros sp b H; cbn [app ops_plain spec_ops fold_left] in *.
  - split; [reflexivity|exact H].
  - apply andb_true_iff in H. destruct H as [H1 H2]. destruct (IH _ _ H2) as [H3 H4].
    split; [rewrite H1, H3; reflexivity|exact H4].
Qed.

Lemma R_init : forall cfg, R (sm_new cfg) spec0.
Proof.
  intros cfg. constructor; cbn.
  - reflexivity.
  - reflexivity.
  - constructor.
  - intros e [].
  - intros e [].
  - constructor.
  - intros e [].
Qed.

Lemma Inv_init : forall cfg y n b, n <= c_max_items cfg -> b <= c_capacity cfg ->
  open_dir cfg [] = OpenOk y -> Inv (y_core y) spec0 n b.
Proof.
  intros cfg y n b Hn Hb Ho. rewrite open_dir_nil_store in Ho. inversion Ho. subst y. cbn [y_core].
  split; [apply R_init|]. split; [|apply ck_push_ends_nonempty].
  unfold Budget. cbn. split; lia.
Qed.

(* ------------------------------------------------------------------ what the caller observes *)
Lemma read_items_hits : forall ch cl d m es h ms,
  map f_log m = map g_ent es ->
  (forall e, In e es -> ent_get (fst e) (ch_entries ch) = Some (snd e)) ->
  fst (fst (read_items ch cl d m h ms)) = map (fun e => RIOk (fst e) (snd e)) es.
Proof.
  intros ch cl d m. induction m as [|[k ld] m IH]; intros [|[id p] es] h ms Hm Hh;
    cbn [map] in Hm; try discriminate Hm.
  - reflexivity.
  - injection Hm as H1 H2 H3. cbn [fst snd] in H1, H2.
    cbn [read_items]. rewrite H2.
    pose proof (Hh (id, p) (or_introl eq_refl)) as Hg. cbn [fst snd] in Hg. rewrite Hg.
    assert (Hh' : forall e, In e es -> ent_get (fst e) (ch_entries ch) = Some (snd e)).
    { intros e He. apply Hh. right. exact He. }
    specialize (IH es (h + 1) ms H3 Hh').
    destruct (read_items ch cl d m (h + 1) ms) as [[items h'] ms'].
    cbn [fst snd] in IH. cbn [fst snd map]. rewrite IH. reflexivity.
Qed.

(* the slice of the index map that a read walks is the slice of the reference log; [N.max]: an
   inverted range is empty on both sides *)
Lemma lm_range_read : forall m sp from to, map f_log m = map g_ent (sp_entries sp) ->
  map f_log (lm_range from (N.max to from) m) = map g_ent (spec_read sp from to).
Proof.
  intros m sp from to H. unfold lm_range, spec_read.
  rewrite (filter_ext (fun e : N * logdata => N.leb from (fst e) && N.ltb (fst e) (N.max to from))
                      (fun e : N * logdata => N.leb from (fst e) && N.ltb (fst e) to)).
  - exact (map_filter_rel (fun q : N * logid => N.leb from (fst q) && N.ltb (fst q) to) f_log g_ent _ _ H).
  - intros a. destruct (N.leb from (fst a)) eqn:E1; cbn [andb]; [|reflexivity].
    apply N.leb_le in E1. destruct (N.ltb (fst a) to) eqn:E2.
    + apply N.ltb_lt. apply N.ltb_lt in E2. lia.
    + apply N.ltb_ge. apply N.ltb_ge in E2. lia.
Qed.

Lemma Inv_observes : forall y sp n b, Inv (y_core y) sp n b -> observes y sp.
Proof.
  intros y sp n b [HR _]. unfold observes. split; [apply (R_rs _ _ HR)|]. split.
  - intros from to. unfold read_ok. rewrite do_read_items. apply read_items_hits.
    + apply lm_range_read, (R_log _ _ HR).
    + intros e He. unfold spec_read in He. apply filter_In in He. apply (R_hit _ _ HR). apply He.
  - unfold read_ok. rewrite do_dump_iter_items. apply read_items_hits.
    + apply (R_log _ _ HR).
    + apply (R_hit _ _ HR).
Qed.

(* ------------------------------------------------------------------ C01 *)
Theorem C01_refines_spec : forall cfg ops res fin,
  ops_plain spec0 ops = true ->
  big_cache cfg ops ->
  run_case cfg ops = (res, fin) ->
  exists y, fin = Some y /\ observes y (spec_ops spec0 ops).
Proof.
  intros cfg ops res fin Hp Hb Hrun. unfold run_case in Hrun.
  destruct (open_dir cfg []) as [y0|e d] eqn:Ho.
  - pose proof (Inv_init cfg y0 _ _ (proj1 Hb) (proj2 Hb) Ho) as HI.
    destruct (run_ops_sim ops y0 spec0 res fin 0 0 HI Hp Hrun) as [y [Hf HI']].
    exists y. split; [exact Hf|]. eapply Inv_observes. exact HI'.
  - rewrite open_dir_nil_store in Ho. discriminate Ho.
Qed.

Theorem C01_results_agree : forall cfg ops0 w res0 y0,
  ops_plain spec0 (ops0 ++ [OW w]) = true ->
  big_cache cfg (ops0 ++ [OW w]) ->
  run_case cfg ops0 = (res0, Some y0) ->
  match run_op y0 (OW w) with
  | (_, ResW (WOk _ _)) => snd (spec_wop (spec_ops spec0 ops0) w) = true
  | (_, ResW (WErr _)) => snd (spec_wop (spec_ops spec0 ops0) w) = false
  | _ => False
  end.
Proof.
  intros cfg ops0 w res0 y0 Hp [B1 B2] Hrun. unfold run_case in Hrun.
  destruct (ops_plain_app _ _ _ Hp) as [Hp1 Hp2].
  cbn [ops_plain] in Hp2. rewrite andb_true_r in Hp2.
  assert (Happ : appended (ops0 ++ [OW w]) = appended ops0 ++ op_entries (OW w)).
  { unfold appended. rewrite flat_map_app. cbn [flat_map]. rewrite app_nil_r. reflexivity. }
  destruct (open_dir cfg []) as [y1|e d] eqn:Ho; [|discriminate Hrun].
  set (nw := N.of_nat (length (op_entries (OW w)))).
  set (bw := bytes_of (op_entries (OW w))).
  rewrite Happ, app_length, Nat2N.inj_add in B1. rewrite appended_bytes_of, Happ, bytes_of_app in B2.
  assert (HI : Inv (y_core y1) spec0 (nw + N.of_nat (length (appended ops0))) (bw + appended_bytes ops0)).
  { apply (Inv_init cfg); [| |exact Ho]; rewrite ?appended_bytes_of; unfold nw, bw; lia. }
  destruct (run_ops_sim ops0 _ spec0 res0 (Some y0) nw bw HI Hp1 Hrun) as [y [Hf HI']].
  inversion Hf. subst y.
  assert (HI2 : Inv (y_core y0) (spec_ops spec0 ops0)
                    (0 + N.of_nat (length (op_entries (OW w)))) (0 + bytes_of (op_entries (OW w)))).
  { eapply Inv_mono; [exact HI'|unfold nw; lia|unfold bw; lia]. }
  destruct (run_op_sim y0 _ (OW w) 0 0 HI2 Hp2) as (y' & r & Hop & _ & Hag).
  rewrite Hop. destruct (Hag w eq_refl) as [wr [Hr Hwr]]. subst r.
  destruct wr; exact Hwr.
Qed.

Corollary C01_chunking_invisible : forall cfg cfg' ops res res' y y',
  ops_plain spec0 ops = true -> big_cache cfg ops -> big_cache cfg' ops ->
  run_case cfg ops = (res, Some y) -> run_case cfg' ops = (res', Some y') ->
  m_rs (k_sm (y_core y)) = m_rs (k_sm (y_core y')) /\
  forall from to, snd (do_read (y_core y) (y_disk y) from to) = snd (do_read (y_core y') (y_disk y') from to).
Proof.
  intros cfg cfg' ops res res' y y' Hp Hb Hb' Hr Hr'.
  destruct (C01_refines_spec cfg ops res (Some y) Hp Hb Hr) as [y1 [E1 [O1 [O2 _]]]].
  destruct (C01_refines_spec cfg' ops res' (Some y') Hp Hb' Hr') as [y2 [E2 [O1' [O2' _]]]].
  inversion E1. inversion E2. subst y1 y2. split.
  - rewrite O1, O1'. reflexivity.
  - intros from to. rewrite (O2 from to), (O2' from to). reflexivity.
Qed.

(* the hypotheses are satisfiable on a history that rotates chunks, purges and truncates *)
Example C01_hyps_inhabited :
  let cfg := mkConfig 10 100 2 64 true in
  let ops := [OW (OVote (1, 1)); OW (OAppend [((1, 0), []); ((1, 1), []); ((1, 2), [])]);
              OFlush true; OIdle; OW (OPurge (1, 0)); OW (OTruncate 2); OW (OAppend [((0, 2), [])]);
              ORead 0 10] in
  ops_plain spec0 ops = true /\ big_cache cfg ops /\ exists res y, run_case cfg ops = (res, Some y) /\ map fst (sp_entries (spec_ops spec0 ops)) = [(1, 1)].
Proof.
  cbv zeta. split; [vm_compute; reflexivity|]. split.
  - split; vm_compute; intros H; discriminate H.
  - (* nothing is claimed of [res] and [y]: asked only whether the run ends in a state, the kernel's
       lazy machine does not normalise them *)
    set (r := run_case _ _).
    assert (H : match snd r with Some _ => true | None => false end = true) by (vm_compute; reflexivity).
    clearbody r. destruct r as [res [y|]]; [|discriminate H].
    exists res, y. split; [reflexivity|vm_compute; reflexivity].
Qed.

Print Assumptions C01_refines_spec.
Print Assumptions C01_results_agree.
Print Assumptions C01_chunking_invisible.
Print Assumptions C06_refused_record_no_trace.
Print Assumptions C06_refused_write_no_trace.
Print Assumptions C06_refused_append_prefix.
