(* C04 (part 2): a callback reports success only after everything journalled before its flush call has
   been written and synced: C04_ack_after_sync. The inductive invariant is [full]: [binv] (the files to be
   created lie behind the directory and the flushed offsets), [linv] (an unlink takes the oldest file),
   [finv] and [ufun] (a callback in flight names one recorded flush) and, while the worker is alive, [cinv]:
   the directory is [old ++ tin ++ fc :: fut] (synced and forgotten, tracked, the worker's newest, not yet
   tracked) and the walk [wrun] over the pending requests [stream] ends at the caller's journal end. *)
From Coq Require Import List NArith Bool Lia Sorting.Sorted.
From RaftLog Require Import Base.Bytes Model.Types Model.Core
  Model.Recover Model.Run Model.Sys Spec.Durable.
From RaftLog Require Import Proofs.CodecFacts Proofs.JournalDisk Proofs.NoPanic Proofs.AckFacts.
Import ListNotations.
Local Open Scope N_scope.

Notation blen b := (N.of_nat (length b)).

Definition ids_lt (d : disk) (x : N) : Prop := Forall (fun f => f_id f < x) d.

Lemma disk_get_none_lt id d : Forall (fun f => id < f_id f) d -> disk_get id d = None.
Proof. intros H. apply disk_get_none. eapply Forall_impl; [|exact H]. cbn. intros; lia. Qed.

Lemma disk_remove_first id d : disk_sorted d -> Forall (fun f => id <= f_id f) d ->
  disk_remove id d = d \/ exists f r, d = f :: r /\ f_id f = id /\ disk_remove id d = r.
Proof.
  intros Hs Hle. destruct d as [|f r]; [now left|]. destruct (N.eq_dec (f_id f) id) as [<-|E].
  - right. exists f, r. repeat split. exact (disk_remove_mid [] f r Hs).
  - left. apply disk_remove_absent. inversion Hle; subst. constructor; [exact E|].
    apply (fsorted_mid []) in Hs as [_ Hs]. eapply Forall_impl; [|exact Hs]. cbn. intros; lia.
Qed.

Lemma durable_tail f d U : durable_upto (f :: d) U -> durable_upto d U.
Proof. simpl. tauto. Qed.

Lemma durable_mono d d' U :
  Forall2 (fun f f' => f_id f' = f_id f /\ f_synced f <= f_synced f') d d' ->
  durable_upto d U -> durable_upto d' U.
Proof.
  induction 1 as [|f f' r r' [Hid Hsy] Hr IH]; [auto|].
  simpl. intros [H1 H2]. split; [|now apply IH].
  intros Hlt. rewrite Hid in *. specialize (H1 Hlt).
  destruct Hr as [|g g' r0 r0' [Hg _] _]; [lia|]. rewrite Hg. lia.
Qed.

Lemma Forall2_refl_mid {A} (R : A -> A -> Prop) a x y b :
  (forall z, R z z) -> R x y -> Forall2 R (a ++ x :: b) (a ++ y :: b).
Proof.
  intros Hr Hxy. apply Forall2_app; [|constructor; [exact Hxy|]].
  - induction a; constructor; auto.
  - induction b; constructor; auto.
Qed.

Lemma durable_append id data d U : disk_sorted d -> durable_upto d U -> durable_upto (disk_append id data d) U.
Proof.
  intros Hs H. destruct (disk_get id d) as [f|] eqn:E; [|unfold disk_append; rewrite E; exact H].
  destruct (disk_get_In_id _ _ _ E) as [Hin <-]. destruct (in_split _ _ Hin) as (a & b & ->).
  rewrite disk_append_mid by exact Hs.
  eapply durable_mono; [|exact H]. apply Forall2_refl_mid.
  - intros z0. split; [reflexivity|lia].
  - simpl. split; [reflexivity|lia].
Qed.

Lemma durable_sync id d U : disk_sorted d -> Forall synced_le d ->
  durable_upto d U -> durable_upto (disk_sync id d) U.
Proof.
  intros Hs Hle H. destruct (disk_get id d) as [f|] eqn:E; [|unfold disk_sync; rewrite E; exact H].
  destruct (disk_get_In_id _ _ _ E) as [Hin <-]. destruct (in_split _ _ Hin) as (a & b & ->).
  rewrite disk_sync_mid by exact Hs.
  eapply durable_mono; [|exact H]. apply Forall2_refl_mid.
  - intros z0. split; [reflexivity|lia].
  - simpl. split; [reflexivity|]. rewrite Forall_forall in Hle. apply (Hle f Hin).
Qed.

Lemma durable_snoc d g U : U <= f_id g -> durable_upto d U -> durable_upto (d ++ [g]) U.
Proof.
  intros Hg. induction d as [|f r IH]; simpl.
  - intros _. split; [lia|exact I].
  - intros [H1 H2]. split; [|now apply IH].
    intros Hlt. specialize (H1 Hlt). destruct r as [|h r']; simpl; lia.
Qed.

Lemma durable_remove_first id d U : disk_sorted d -> Forall (fun f => id <= f_id f) d ->
  durable_upto d U -> durable_upto (disk_remove id d) U.
Proof.
  intros Hs Hle H. destruct (disk_remove_first id d Hs Hle) as [->|(f & r & -> & _ & ->)]; [exact H|].
  eapply durable_tail; eauto.
Qed.

Definition core_same (k k' : core) : Prop :=
  k_open k' = k_open k /\ k_pending k' = k_pending k /\ k_closed k' = k_closed k /\
  k_removed k' = k_removed k /\ k_next_cb k' = k_next_cb k.

Lemma core_same_refl k : core_same k k.
Proof. repeat split. Qed.

(* [disk_op] without the creation, which only the caller does: [d' = dapply o d] for [o] one of
   [DNone], [DAppend], [DSync], [DRemove] ([disk_wop_is_op]) *)
Definition disk_wop (d d' : disk) : Prop :=
  d' = d \/ exists id, (exists data, d' = disk_append id data d) \/ d' = disk_sync id d \/ d' = disk_remove id d.

Lemma zwork_frame z ok z' v : zwork z ok = Some (z', v) ->
  z_todo z' = z_todo z /\ z_ghost z' = z_ghost z /\ z_queue z' = z_queue z /\
  core_same (z_core z) (z_core z') /\ disk_wop (z_disk z) (z_disk z') /\ z_dropped z' = z_dropped z.
Proof.
  intros H. apply zwork_inv in H. destruct H as (b & _ & _ & W).
  destruct W; simpl; repeat split; try (left; reflexivity); right; eexists; eauto.
Qed.

Lemma zrecv_frame z k nf z' v : zrecv z k nf = Some (z', v) ->
  z_todo z' = z_todo z /\ z_ghost z' = z_ghost z /\ z_core z' = z_core z /\ z_disk z' = z_disk z /\
  z_acks z' = z_acks z.
Proof. intros H. apply zrecv_inv in H. destruct H as [_ []]. repeat split. Qed.

Lemma alive_back z e z' v : zstep z e = Some (z', v) -> w_alive (z_w z') = true -> w_alive (z_w z) = true.
Proof.
  intros H. destruct e as [o| |k nf|ok|]; simpl in H.
  - apply zcall_inv in H. destruct H as (_ & _ & []); auto.
  - apply zeff_inv in H. destruct H; auto.
  - apply zrecv_inv in H. destruct H as [_ []]. auto.
  - apply zwork_inv in H. destruct H as (b & Ha & _). auto.
  - apply zdrop_inv in H. destruct H as (_ & _ & ->). auto.
Qed.

(* ------------------------------------------------------------------ the caller-side invariant *)
Definition creates (t : list xeff) : list N :=
  flat_map (fun x => match x with XCreate id => [id] | _ => [] end) t.
Definition ecreates (effs : list eff) : list N := creates (flat_map expand_eff effs).
Definition flushed_us (z : sys2) : list N := map (fun p => snd (fst p)) (g_flushed (z_ghost z)).
Definition cb_below (b : N) (p : option N * N * nat) : Prop :=
  match fst (fst p) with Some c => c < b | None => True end.

Record binv (z : sys2) : Prop := {
  b_sorted : disk_sorted (z_disk z);
  b_synced : Forall synced_le (z_disk z);
  b_creates : StronglySorted N.lt (creates (z_todo z));
  b_dlt : forall f c, In f (z_disk z) -> In c (creates (z_todo z)) -> f_id f < c;
  b_dle : Forall (fun f => f_id f <= ck_id (k_open (z_core z))) (z_disk z);
  b_cle : Forall (fun c => c <= ck_id (k_open (z_core z))) (creates (z_todo z));
  b_open : ck_id (k_open (z_core z)) < ck_end (k_open (z_core z));
  b_us : Forall (fun U => U <= ck_end (k_open (z_core z))) (flushed_us z);
  b_usc : forall U c, In U (flushed_us z) -> In c (creates (z_todo z)) -> U <= c;
  b_fcb : Forall (cb_below (k_next_cb (z_core z))) (g_flushed (z_ghost z)) }.

Lemma blen_pos (l : bytes) : l <> [] -> 0 < blen l.
Proof. destruct l; [congruence|]. simpl. lia. Qed.

Lemma ck_end_empty id : ck_end (mkChunk id []) = id.
Proof. reflexivity. Qed.

Lemma ecreates_app a b : ecreates (a ++ b) = ecreates a ++ ecreates b.
Proof. unfold ecreates, creates. now rewrite !flat_map_app. Qed.

Lemma aa_res_open k k' effs : aa_res k k' effs -> ck_id (k_open k) < ck_end (k_open k) ->
  ck_id (k_open k') < ck_end (k_open k') /\ ck_id (k_open k) <= ck_id (k_open k') /\
  ck_end (k_open k) <= ck_end (k_open k') /\
  StronglySorted N.lt (ecreates effs) /\
  Forall (fun c => ck_end (k_open k) <= c /\ c <= ck_id (k_open k')) (ecreates effs).
Proof.
  intros H Ho. destruct H as [|k' data Hd Hop _ _ _ _|k' data head prev st Hd Hh Hop _ _ _ _].
  - repeat split; try lia; constructor.
  - rewrite Hop, JournalChunk.ck_end_push, JournalChunk.ck_id_push. repeat split; try lia; constructor.
  - rewrite Hop, JournalChunk.ck_end_push, JournalChunk.ck_id_push, ck_end_empty. cbn [ck_id].
    pose proof (blen_pos _ Hd). pose proof (blen_pos _ Hh).
    repeat split; try lia.
    + unfold ecreates; simpl. repeat constructor.
    + unfold ecreates; simpl. repeat constructor; lia.
Qed.

Lemma aa_chain_open k k' effs : aa_chain k k' effs -> ck_id (k_open k) < ck_end (k_open k) ->
  ck_id (k_open k') < ck_end (k_open k') /\ ck_id (k_open k) <= ck_id (k_open k') /\
  ck_end (k_open k) <= ck_end (k_open k') /\
  StronglySorted N.lt (ecreates effs) /\
  Forall (fun c => ck_end (k_open k) <= c /\ c <= ck_id (k_open k')) (ecreates effs).
Proof.
  induction 1 as [k|k k1 k2 e1 e2 H1 H2 IH]; intros Ho.
  - repeat split; try lia; constructor.
  - destruct (aa_res_open _ _ _ H1 Ho) as (Ho1 & Hi1 & He1 & Hs1 & Hf1).
    destruct (IH Ho1) as (Ho2 & Hi2 & He2 & Hs2 & Hf2).
    rewrite ecreates_app. repeat split; try lia.
    + apply OrderFacts.SS_app_iff. split; [exact Hs1|]. split; [exact Hs2|].
      intros x y Hx Hy. rewrite Forall_forall in Hf1, Hf2.
      specialize (Hf1 x Hx). specialize (Hf2 y Hy). lia.
    + rewrite Forall_app. split.
      * eapply Forall_impl; [|exact Hf1]. simpl. intros; lia.
      * eapply Forall_impl; [|exact Hf2]. simpl. intros; lia.
Qed.

Lemma disk_wop_sorted d d' : disk_wop d d' -> disk_sorted d -> disk_sorted d'.
Proof.
  intros [->|(id & [[data ->]|[->| ->]])] H; auto using disk_append_sorted, disk_sync_sorted, disk_remove_sorted.
Qed.

Lemma disk_wop_is_op d d' : disk_wop d d' -> disk_op d d'.
Proof.
  intros [->|(id & [[data ->]|[->| ->]])];
    [exists DNone|exists (DAppend id data)|exists (DSync id)|exists (DRemove id)]; reflexivity.
Qed.

Lemma disk_put_In f g d : In f (disk_put g d) -> f = g \/ In f d.
Proof.
  induction d as [|h r IH]; simpl.
  - intros [<-|[]]. now left.
  - destruct (N.compare (f_id g) (f_id h)); simpl.
    + intros [<-|H]; [now left|right]. now right.
    + intros [<-|H]; [now left|right]. exact H.
    + intros [<-|H]; [right; now left|]. destruct (IH H) as [->|H']; [now left|right; now right].
Qed.

Lemma disk_wop_in d d' f' : disk_wop d d' -> In f' d' -> exists f, In f d /\ f_id f = f_id f'.
Proof.
  intros [->|(id & [[data ->]|[->| ->]])] Hin; eauto.
  - unfold disk_append in Hin. destruct (disk_get id d) as [f|] eqn:E; [|eauto].
    destruct (disk_get_In_id _ _ _ E) as [Hf Hid]. apply disk_put_In in Hin. destruct Hin as [->|Hin]; eauto.
  - unfold disk_sync in Hin. destruct (disk_get id d) as [f|] eqn:E; [|eauto].
    destruct (disk_get_In_id _ _ _ E) as [Hf Hid]. apply disk_put_In in Hin. destruct Hin as [->|Hin]; eauto.
  - apply filter_In in Hin. destruct Hin. eauto.
Qed.

Lemma disk_wop_ids' (P : N -> Prop) d d' : disk_wop d d' ->
  Forall (fun f => P (f_id f)) d -> Forall (fun f => P (f_id f)) d'.
Proof.
  intros Hop Hd. rewrite Forall_forall in *. intros f' Hf'.
  destruct (disk_wop_in _ _ _ Hop Hf') as (f & Hf & <-). auto.
Qed.


Lemma binv_frame z z' : binv z ->
  creates (z_todo z') = creates (z_todo z) -> z_ghost z' = z_ghost z ->
  core_same (z_core z) (z_core z') -> disk_wop (z_disk z) (z_disk z') -> binv z'.
Proof.
  intros [] Ht Hg (Ho & _ & _ & _ & Hn) Hd.
  constructor; unfold flushed_us in *; rewrite ?Ht, ?Hg, ?Ho, ?Hn; try assumption.
  - eapply disk_wop_sorted; eauto.
  - eapply synced_le_step; [apply disk_wop_is_op|]; eauto.
  - intros f c Hf Hcx. destruct (disk_wop_in _ _ f Hd Hf) as (g & Hgin & Hgi). rewrite <- Hgi. auto.
  - apply (disk_wop_ids' (fun i => i <= ck_id (k_open (z_core z))) _ _ Hd). assumption.
Qed.

Lemma binv_step z e z' v : binv z -> zstep z e = Some (z', v) -> binv z'.
Proof.
  intros B H. destruct e as [o| |k nf|ok|]; simpl in H.
  - apply zcall_inv in H. destruct H as (Et & _ & C).
    destruct C as [w k r effs E|cb k effs E|from to k items E| |o r _].
    + (* the chunks created by a write lie at or behind the journal end before it *)
      apply do_write_chain in E. destruct E as (k1 & Hc & Hpo & _ & Hpn & _).
      pose proof (aa_chain_nocb _ _ _ Hc) as [Hn _].
      destruct (aa_chain_open _ _ _ Hc (b_open _ B)) as (Ho1 & Hi1 & He1 & Hs1 & Hf1).
      rewrite Forall_forall in Hf1.
      destruct B. constructor; simpl; try assumption; rewrite ?Hpo; fold (ecreates effs); try assumption.
      * intros f c Hf Hcx. rewrite Forall_forall in b_dle0.
        specialize (Hf1 c Hcx). specialize (b_dle0 f Hf). lia.
      * eapply Forall_impl; [|exact b_dle0]. simpl. intros; lia.
      * rewrite Forall_forall. intros c Hcx. specialize (Hf1 c Hcx). lia.
      * eapply Forall_impl; [|exact b_us0]. simpl. intros; lia.
      * intros U c HU Hcx. rewrite Forall_forall in b_us0.
        specialize (Hf1 c Hcx). specialize (b_us0 U HU). lia.
      * rewrite Hpn, Hn. assumption.
    + rewrite do_flush_eq in E. injection E as <- <-.
      destruct B. constructor; simpl; try assumption.
      * destruct (k_removed (z_core z)); simpl; constructor.
      * intros f c _ Hcx. destruct (k_removed (z_core z)); simpl in Hcx; destruct Hcx.
      * destruct (k_removed (z_core z)); simpl; constructor.
      * unfold flushed_us; simpl. rewrite map_app, Forall_app. split; [exact b_us0|].
        repeat constructor. simpl. lia.
      * intros U c _ Hcx. destruct (k_removed (z_core z)); simpl in Hcx; destruct Hcx.
      * rewrite Forall_app. split.
        { eapply Forall_impl; [|exact b_fcb0]. intros [[[c|] U] n]; unfold cb_below; simpl; auto.
          destruct cb; lia. }
        { repeat constructor. unfold cb_below; simpl. destruct cb; [lia|exact I]. }
    + pose proof (do_read_fields (z_core z) (z_disk z) from to) as Hf. rewrite E in Hf.
      apply (binv_frame z); auto. now left.
    + apply (binv_frame z); auto; [repeat split|now left].
    + exact B.
  - apply zeff_inv in H. destruct H as [id t Et|id data t Et|r t Et].
    + (* the new file is the newest *)
      destruct B; rewrite Et in *; simpl in *.
      assert (Hlt : ids_lt (z_disk z) id).
      { unfold ids_lt. rewrite Forall_forall. intros f Hf. apply (b_dlt0 f id Hf). now left. }
      apply StronglySorted_inv in b_creates0. destruct b_creates0 as [Hcs Hcf].
      inversion b_cle0; subst.
      constructor; simpl; try assumption.
      * now apply disk_put_sorted.
      * apply disk_put_Forall; [unfold synced_le; simpl; lia|assumption].
      * intros f c Hf Hcx. rewrite disk_put_end in Hf by exact Hlt.
        apply in_app_or in Hf. destruct Hf as [Hf|[<-|[]]].
        { apply b_dlt0; auto. }
        { simpl. rewrite Forall_forall in Hcf. now apply Hcf. }
      * apply disk_put_Forall; [simpl; assumption|assumption].
      * intros U c HU Hcx. apply b_usc0; auto.
    + apply (binv_frame z); auto using core_same_refl; [simpl; now rewrite Et|].
      right; exists id; left; eexists; reflexivity.
    + apply (binv_frame z); auto using core_same_refl; [simpl; now rewrite Et|now left].
  - destruct (zrecv_frame _ _ _ _ _ H) as (Ht & Hg & Hc & Hd & _).
    apply (binv_frame z); auto; [now rewrite Ht|rewrite Hc; apply core_same_refl|now left].
  - destruct (zwork_frame _ _ _ _ H) as (Ht & Hg & _ & Hc & Hd & _).
    apply (binv_frame z); auto. now rewrite Ht.
  - apply zdrop_inv in H. destruct H as (Et & _ & ->).
    apply (binv_frame z); auto using core_same_refl; [simpl; now rewrite Et|now left].
Qed.


(* ------------------------------------------------------------------ the request stream *)
Definition rem_of_req (r : wreq) : list N := match r with WRemove ids => ids | _ => [] end.
Definition rem_of_xeff (x : xeff) : list N := match x with XSend r => rem_of_req r | _ => [] end.
Definition nf_list (b : batch) : list wreq := match b_nf b with Some r => [r] | None => [] end.

(* requests received by the worker and not yet carried out *)
Definition stream_batch (w : worker) : list wreq :=
  match w_batch w with
  | None => []
  | Some b =>
    match b_pos b with
    | BWrite i => map req_of_ww (skipn i (b_writes b)) ++ nf_list b
    | BSyncOld | BSetEvict | BSyncNew | BCallbacks _ | BPostponed | BNonFlush => nf_list b
    | BUnlink _ | BDone => []
    end
  end.

Definition unl (w : worker) : list N :=
  match w_batch w with
  | Some b => match b_pos b with BUnlink ids => ids | _ => [] end
  | None => []
  end.

Definition core_ids (k : core) : list N := k_removed k ++ cids (k_closed k) ++ [ck_id (k_open k)].

(* all chunk ids from the oldest removal still to be carried out up to the open chunk *)
Definition remW (z : sys2) : list N :=
  w_postponed (z_w z) ++ unl (z_w z) ++ flat_map rem_of_req (stream_batch (z_w z)) ++
  flat_map rem_of_req (z_queue z).
Definition remL (z : sys2) : list N :=
  remW z ++ flat_map rem_of_xeff (z_todo z) ++ core_ids (z_core z).

Definition in_cb_phase (w : worker) : Prop :=
  match w_batch w with
  | Some b => match b_pos b with BCallbacks _ | BPostponed => True | _ => False end
  | None => False
  end.

(* [stream_batch], [unl] (and [written], [claimed] below) look only at the batch of the
   worker; [stream_at] and [unl_at] give their value at a position, so that a state whose
   batch is known ([w_batch w = Some b], or built by [w_set_pos]) needs no unfolding. *)
Definition stream_at (p : wpos) (b : batch) : list wreq :=
  match p with
  | BWrite i => map req_of_ww (skipn i (b_writes b)) ++ nf_list b
  | BUnlink _ | BDone => []
  | _ => nf_list b
  end.
Definition unl_at (p : wpos) : list N := match p with BUnlink ids => ids | _ => [] end.

Lemma stream_batch_eq w b : w_batch w = Some b -> stream_batch w = stream_at (b_pos b) b.
Proof. unfold stream_batch. intros ->. now destruct (b_pos b). Qed.
Lemma stream_batch_set_pos w b p : stream_batch (w_set_pos w b p) = stream_at p b.
Proof. now destruct p. Qed.
Lemma unl_eq w b : w_batch w = Some b -> unl w = unl_at (b_pos b).
Proof. unfold unl. now intros ->. Qed.
Lemma unl_set_pos w b p : unl (w_set_pos w b p) = unl_at p.
Proof. reflexivity. Qed.

Lemma rem_of_ww ws : flat_map rem_of_req (map req_of_ww ws) = [].
Proof. induction ws as [|w ws IH]; simpl; [reflexivity|exact IH]. Qed.

Lemma rem_stream_at p b :
  flat_map rem_of_req (stream_at p b) =
  match p with BUnlink _ | BDone => [] | _ => flat_map rem_of_req (nf_list b) end.
Proof. destruct p; simpl; try reflexivity. now rewrite flat_map_app, rem_of_ww. Qed.

Lemma stream_at_move w b p : pos_move w b p ->
  stream_at (b_pos b) b = stream_at p b \/
  (exists i ww, b_pos b = BWrite i /\ p = BWrite (S i) /\ ww_data ww = [] /\
                stream_at (b_pos b) b = req_of_ww ww :: stream_at p b) \/
  (exists ids, b_pos b = BNonFlush /\ p = BUnlink ids /\
               stream_at (b_pos b) b = [WRemove ids] /\ stream_at p b = []).
Proof.
  destruct 1 as [i ww Ep En Ed|i Ep En|Ep _|i ww Ep En Ec|i Ep En|Ep _|Ep Enf|ids Ep Enf _|Ep];
    rewrite Ep; simpl; auto.
  - right; left. exists i, ww. rewrite (skipn_nth_cons _ _ _ En). auto.
  - left. now rewrite (skipn_nth_none _ _ En).
  - left. unfold nf_list. now rewrite Enf.
  - right; right. exists ids. unfold nf_list. rewrite Enf. auto.
Qed.

Lemma remW_eq z b : w_batch (z_w z) = Some b ->
  remW z = w_postponed (z_w z) ++ unl_at (b_pos b) ++
           flat_map rem_of_req (stream_at (b_pos b) b) ++ flat_map rem_of_req (z_queue z).
Proof. intros E. unfold remW. now rewrite (unl_eq _ _ E), (stream_batch_eq _ _ E). Qed.

Lemma remW_move z b p : w_batch (z_w z) = Some b -> pos_move (z_w z) b p ->
  remW (set_w z (w_set_pos (z_w z) b p)) = remW z.
Proof.
  intros E M. rewrite (remW_eq z b E). unfold remW. simpl z_w. simpl z_queue.
  rewrite unl_set_pos, stream_batch_set_pos. simpl w_postponed. f_equal.
  rewrite !rem_stream_at.
  destruct M as [i ww Ep En Ed|i Ep En|Ep _|i ww Ep En Ec|i Ep En|Ep _|Ep Enf|ids Ep Enf _|Ep];
    rewrite Ep; simpl; try reflexivity; unfold nf_list; rewrite Enf; simpl; now rewrite ?app_nil_r.
Qed.

Record linv (z : sys2) : Prop := {
  l_sorted : StronglySorted N.lt (remL z);
  l_disk : forall f, In f (z_disk z) -> In (f_id f) (remL z);
  l_cr : incl (creates (z_todo z)) (core_ids (z_core z));
  l_post : w_sync_failed (z_w z) = false -> w_postponed (z_w z) = [] \/ in_cb_phase (z_w z);
  l_unl : unl (z_w z) <> [] -> w_sync_failed (z_w z) = false }.


(* what a write call does to the caller's chunk list [k_closed ++ [k_open]]: new ids are added at the end *)
Lemma aa_res_ids k k' effs pre : aa_res k k' effs ->
  StronglySorted N.lt (pre ++ cids (k_closed k) ++ [ck_id (k_open k)]) ->
  cids (k_closed k') ++ [ck_id (k_open k')] = (cids (k_closed k) ++ [ck_id (k_open k)]) ++ ecreates effs /\
  k_removed k' = k_removed k.
Proof.
  intros H Hs. destruct H as [|k' data Hd Hop _ Hcl Hrm _|k' data head prev st Hd Hh Hop _ Hcl Hrm _].
  - now rewrite app_nil_r.
  - rewrite Hop, Hcl, JournalChunk.ck_id_push. unfold ecreates; simpl. now rewrite app_nil_r.
  - rewrite Hop, Hcl, JournalChunk.ck_id_push. cbn [ck_id]. unfold ecreates; simpl.
    rewrite JournalChunk.closed_insert_last.
    + unfold cids. rewrite map_app. simpl. rewrite <- !app_assoc. auto.
    + simpl. apply (Forall_map (fun c => ck_id (cl_chunk c)) (fun x => x < ck_id (k_open k))). fold (cids (k_closed k)).
      rewrite app_assoc in Hs. apply ss_snoc_max in Hs. rewrite Forall_app in Hs. tauto.
Qed.

Lemma aa_chain_ids k k' effs : aa_chain k k' effs -> forall pre,
  ck_id (k_open k) < ck_end (k_open k) ->
  StronglySorted N.lt (pre ++ cids (k_closed k) ++ [ck_id (k_open k)]) ->
  cids (k_closed k') ++ [ck_id (k_open k')] = (cids (k_closed k) ++ [ck_id (k_open k)]) ++ ecreates effs /\
  k_removed k' = k_removed k /\
  StronglySorted N.lt (pre ++ cids (k_closed k') ++ [ck_id (k_open k')]).
Proof.
  induction 1 as [k|k k1 k2 e1 e2 H1 H2 IH]; intros pre Ho Hs.
  - unfold ecreates; simpl. rewrite app_nil_r. auto.
  - destruct (aa_res_ids _ _ _ pre H1 Hs) as [E1 R1].
    destruct (aa_res_open _ _ _ H1 Ho) as (Ho1 & _ & _ & Hs1 & Hf1).
    assert (Hs' : StronglySorted N.lt (pre ++ cids (k_closed k1) ++ [ck_id (k_open k1)])).
    { rewrite E1, !app_assoc. apply ss_extend.
      - rewrite <- !app_assoc. exact Hs.
      - exact Hs1.
      - eapply Forall_impl; [|exact Hf1]. simpl. intros; lia. }
    destruct (IH pre Ho1 Hs') as (E2 & R2 & Hs2). split; [|split; [congruence|exact Hs2]].
    rewrite E2, E1, ecreates_app, app_assoc. reflexivity.
Qed.

Lemma post_purge_ids k1 k' : post_purge k1 k' -> core_ids k' = core_ids k1.
Proof.
  intros (Ho & _ & _ & ids & Hr & Hc). unfold core_ids. rewrite Ho, Hr, Hc, <- !app_assoc. reflexivity.
Qed.

Lemma remove_head_L id L' (d : disk) :
  (forall f, In f d -> In (f_id f) (id :: L')) ->
  forall f, In f (disk_remove id d) -> In (f_id f) L'.
Proof.
  intros H f Hf. unfold disk_remove in Hf. apply filter_In in Hf. destruct Hf as [Hin Hne].
  destruct (H f Hin) as [E|Hl]; [|exact Hl]. subst id. rewrite N.eqb_refl in Hne. discriminate.
Qed.


Lemma aa_chain_norem k k' effs : aa_chain k k' effs ->
  flat_map rem_of_xeff (flat_map expand_eff effs) = [].
Proof.
  induction 1 as [k|k k1 k2 e1 e2 H1 H2 IH]; [reflexivity|].
  rewrite !flat_map_app, IH, app_nil_r. destruct H1; reflexivity.
Qed.

Lemma core_same_ids k k' : core_same k k' -> core_ids k' = core_ids k.
Proof. intros (Ho & _ & Hc & Hr & _). unfold core_ids. now rewrite Ho, Hc, Hr. Qed.


(* the two clauses of [linv] that speak of the worker alone *)
Definition wflags (w : worker) : Prop :=
  (w_sync_failed w = false -> w_postponed w = [] \/ in_cb_phase w) /\
  (unl w <> [] -> w_sync_failed w = false).

Lemma recv_stream_at b :
  b_pos b = BWrite 0 /\ b_writes b <> [] \/ b_pos b = BNonFlush /\ b_writes b = [] /\ b_nf b <> None ->
  stream_at (b_pos b) b = batch_reqs b /\ unl_at (b_pos b) = [].
Proof. intros [[-> _]|(-> & E & _)]; unfold batch_reqs; [|rewrite E]; auto. Qed.

Lemma recv_remW z z' : recv_step z z' -> remW z' = remW z.
Proof.
  intros [b q' _ Eb Eq _ Hp _]. unfold remW. simpl.
  rewrite (stream_batch_eq (w_set_batch (z_w z) (Some b)) b eq_refl), (unl_eq (w_set_batch (z_w z) (Some b)) b eq_refl).
  destruct (recv_stream_at b Hp) as [-> ->].
  unfold stream_batch, unl. rewrite Eb, Eq. simpl. now rewrite flat_map_app, app_assoc.
Qed.

Lemma linv_frame z z' : linv z ->
  remL z' = remL z -> disk_wop (z_disk z) (z_disk z') ->
  creates (z_todo z') = creates (z_todo z) -> core_ids (z_core z') = core_ids (z_core z) ->
  wflags (z_w z') -> linv z'.
Proof.
  intros [Hs Hd Hcr _ _] El Hdk Ec Ek [F1 F2]. constructor; rewrite ?El, ?Ec, ?Ek; auto.
  intros f Hf. destruct (disk_wop_in _ _ _ Hdk Hf) as (g & Hg & <-). auto.
Qed.

Lemma head_of_L z id L' : linv z -> remL z = id :: L' -> Forall (fun f => id <= f_id f) (z_disk z).
Proof.
  intros L E. pose proof (l_sorted _ L) as Hs. pose proof (l_disk _ L) as Hd. rewrite E in Hs, Hd.
  apply StronglySorted_inv in Hs. destruct Hs as [_ Hf]. rewrite Forall_forall in *.
  intros f Hin. destruct (Hd f Hin) as [<-|Hl]; [lia|]. specialize (Hf _ Hl). lia.
Qed.

Lemma unlink_phase z b ids : linv z -> w_batch (z_w z) = Some b -> b_pos b = BUnlink ids -> ids <> [] ->
  w_sync_failed (z_w z) = false /\ w_postponed (z_w z) = [].
Proof.
  intros L Eb Ep Hne.
  assert (Hsf : w_sync_failed (z_w z) = false) by (apply (l_unl _ L); now rewrite (unl_eq _ _ Eb), Ep).
  split; [exact Hsf|]. destruct (l_post _ L Hsf) as [Hx|Hx]; [exact Hx|].
  unfold in_cb_phase in Hx. rewrite Eb, Ep in Hx. destruct Hx.
Qed.

Lemma remW_work z b ok z' v : work_step z b ok z' v -> w_batch (z_w z) = Some b -> linv z ->
  w_alive (z_w z') = true ->
  remW z' = remW z \/ exists id, remW z = id :: remW z' /\ z_disk z' = disk_remove id (z_disk z).
Proof.
  intros W Eb L Hal.
  work_cases W; try (destruct Ep as [[Ep _]|Ep]); try discriminate Hal; try (left; now apply remW_move);
    rewrite (remW_eq z b Eb), Ep; unfold remW, unl, stream_batch; simpl; rewrite ?Ep; simpl; unfold nf_list.
  - left. rewrite (skipn_nth_cons _ _ _ En). reflexivity.
  - now left.
  - now left.
  - now left.
  - now left.
  - now left.
  - now left.
  - right. exists id. now rewrite Epp.
  - right. exists id. destruct (unlink_phase _ _ _ L Eb Ep) as [_ ->]; [discriminate|]. auto.
  - left. now rewrite Enf.
  - left. rewrite Enf. simpl. now rewrite !app_nil_r, <- app_assoc.
  - now left.
Qed.

(* Every case but two is settled by the position reached: a failed sync leads to the callbacks (an early
   position), removals are postponed only under a failure ([WkPostpone]), the unlinks are entered only
   without one ([MNfRemove]).
   Left: [MPostEnd] leaves the postponed list behind only when it is empty or a failure is outstanding,
   and [WkUnlink] stays among the unlinks with the flag it entered them with. *)
Lemma wflags_work z b ok z' v : work_step z b ok z' v -> w_batch (z_w z) = Some b ->
  wflags (z_w z) -> w_alive (z_w z') = true -> wflags (z_w z').
Proof.
  unfold wflags, in_cb_phase, unl. intros W Eb [F1 F2] Hal. rewrite Eb in *.
  work_cases W; try (destruct Ep as [[Ep _]|Ep]); try discriminate Hal; [destruct M as [? ? Ep| ? Ep|Ep|? ? Ep|? Ep|Ep Hx|Ep|? Ep ? Esf|Ep]|..];
    simpl; rewrite ?Ep; rewrite Ep in F1, F2; simpl in *;
    (split; [intros Hsf|intros Hu]); try discriminate; try (now elim Hu); auto;
    try (destruct (F1 Hsf) as [?|[]]; now auto).
  - destruct Hx as [Hx|Hx]; [congruence|auto].
  - apply F2. discriminate.
Qed.

Lemma linv_step z e z' v :
  binv z -> linv z -> zstep z e = Some (z', v) -> w_alive (z_w z') = true -> linv z'.
Proof.
  intros B L H Hal. pose proof (conj (l_post _ L) (l_unl _ L) : wflags (z_w z)) as Fl.
  destruct e as [o| |k nf|ok|]; simpl in H.
  - apply zcall_inv in H. destruct H as (Et & _ & C).
    destruct C as [w k r effs E|cb k effs E|from to k items E| |o r _].
    + (* the ids of new chunks are added at the end *)
      apply do_write_chain in E. destruct E as (k1 & Hc & Hp).
      destruct L as [Hs Hd Hcr Hpo Hu]. unfold remL in Hs, Hd. rewrite Et in Hs, Hd. simpl in Hs, Hd.
      unfold core_ids in Hs. rewrite app_assoc in Hs.
      destruct (aa_chain_ids _ _ _ Hc _ (b_open _ B) Hs) as (E0 & R1 & Hs1).
      rewrite <- app_assoc, <- R1 in Hs1. fold (core_ids k1) in Hs1.
      assert (E1 : core_ids k1 = core_ids (z_core z) ++ ecreates effs)
        by (unfold core_ids; rewrite R1, E0, !app_assoc; reflexivity).
      pose proof (post_purge_ids _ _ Hp) as E2.
      constructor; try assumption; unfold remL, remW; simpl; fold (remW z);
        rewrite ?(aa_chain_norem _ _ _ Hc), E2; simpl; try assumption.
      * intros f Hf. rewrite E1, app_assoc. apply in_or_app. left. auto.
      * rewrite E1. fold (ecreates effs). intros x Hx. apply in_or_app. now right.
    + (* the removed chunks move from the caller's list into the effects *)
      rewrite do_flush_eq in E. injection E as <- <-.
      destruct L as [Hs Hd Hcr Hpo Hu]. unfold remL, core_ids in Hs, Hd. rewrite Et in Hs, Hd. simpl in Hs, Hd.
      constructor; try assumption; unfold remL, remW, core_ids; simpl; fold (remW z);
        destruct (k_removed (z_core z)); simpl; rewrite ?app_nil_r; try assumption; intros x [].
    + pose proof (do_read_fields (z_core z) (z_disk z) from to) as Hf. rewrite E in Hf. simpl in Hf.
      apply (linv_frame z); auto; [|now left|now apply core_same_ids].
      unfold remL. simpl. now rewrite (core_same_ids _ _ Hf).
    + apply (linv_frame z); auto. now left.
    + exact L.
  - apply zeff_inv in H. destruct H as [id t Et|id data t Et|r t Et].
    + (* the file created is one of the chunks of the caller *)
      destruct L as [Hs Hd Hcr Hpo Hu]. unfold remL in Hs, Hd. rewrite Et in *. simpl in Hs, Hd, Hcr.
      constructor; simpl; try assumption.
      * intros f Hf. apply disk_put_In in Hf. destruct Hf as [->|Hf]; [|now apply Hd].
        simpl. unfold remL; simpl. apply in_or_app. right. apply in_or_app. right.
        apply Hcr. now left.
      * intros x Hx. apply Hcr. now right.
    + apply (linv_frame z); auto; simpl; [unfold remL|right; exists id; left; eexists; reflexivity|]; now rewrite Et.
    + apply (linv_frame z); auto; simpl; [|now left|now rewrite Et].
      unfold remL, remW. simpl. rewrite Et, flat_map_app. simpl. now rewrite app_nil_r, <- !app_assoc.
  - apply zrecv_inv in H. destruct H as [_ R]. pose proof (recv_remW _ _ R) as Er.
    destruct R as [b q' _ Eb Eq _ Hp _]. apply (linv_frame z); auto; [unfold remL; now rewrite Er|now left|].
    destruct Fl as [F1 _]. unfold wflags, in_cb_phase in *. rewrite Eb in F1. simpl. split.
    + intros Hsf. destruct (F1 Hsf) as [?|[]]. now left.
    + rewrite (unl_eq (w_set_batch (z_w z) (Some b)) b eq_refl). destruct (recv_stream_at b Hp) as [_ ->]. intros Hx. now elim Hx.
  - pose proof (zwork_frame _ _ _ _ H) as (Ht & _ & _ & Hcs & Hdw & _).
    apply zwork_inv in H. destruct H as (b & _ & Eb & W).
    pose proof (wflags_work _ _ _ _ _ W Eb Fl Hal) as Fl'.
    destruct (remW_work _ _ _ _ _ W Eb L Hal) as [E|(id & E & Ed)].
    + apply (linv_frame z); auto; [|now rewrite Ht|now apply core_same_ids].
      unfold remL. now rewrite E, Ht, (core_same_ids _ _ Hcs).
    + (* an unlink takes the first id off *)
      destruct L as [Hs Hd Hcr _ _], Fl' as [F1 F2]. unfold remL in Hs, Hd. rewrite E in Hs, Hd. simpl in Hs, Hd.
      constructor; auto; unfold remL; rewrite ?Ht, ?(core_same_ids _ _ Hcs); auto.
      * eapply proj1, ss_inv; eauto.
      * rewrite Ed. eapply remove_head_L; eauto.
  - apply zdrop_inv in H. destruct H as (Et & _ & ->).
    apply (linv_frame z); auto; simpl; [|now left|now rewrite Et].
    unfold remL, remW. simpl. now rewrite Et.
Qed.

(* ------------------------------------------------------------------ callbacks in flight are recorded flushes *)
Definition cbu_of_req (r : wreq) : list (N * N) :=
  match r with WWrite u _ (Some c) => [(c, u)] | _ => [] end.
Definition cbu_of_ww (w : wwrite) : list (N * N) :=
  match ww_cb w with Some c => [(c, ww_upto w)] | None => [] end.
Definition cbu_of_xeff (x : xeff) : list (N * N) := match x with XSend r => cbu_of_req r | _ => [] end.
Definition batch_writes (w : worker) : list wwrite :=
  match w_batch w with Some b => b_writes b | None => [] end.
Definition inflight (z : sys2) : list (N * N) :=
  flat_map cbu_of_ww (batch_writes (z_w z)) ++ flat_map cbu_of_req (z_queue z) ++
  flat_map cbu_of_xeff (z_todo z).

Definition finv (z : sys2) : Prop :=
  forall c u, In (c, u) (inflight z) -> exists n, In (Some c, u, n) (g_flushed (z_ghost z)).

Lemma aa_chain_nocbu k k' effs : aa_chain k k' effs ->
  flat_map cbu_of_xeff (flat_map expand_eff effs) = [].
Proof.
  induction 1 as [k|k k1 k2 e1 e2 H1 H2 IH]; [reflexivity|].
  rewrite !flat_map_app, IH, app_nil_r. destruct H1; reflexivity.
Qed.

Lemma cbu_of_req_ww ws : flat_map cbu_of_req (map req_of_ww ws) = flat_map cbu_of_ww ws.
Proof. induction ws as [|w ws IH]; simpl; [reflexivity|]. now rewrite IH. Qed.

Lemma cbu_batch_reqs b : (forall u d c, b_nf b <> Some (WWrite u d c)) ->
  flat_map cbu_of_req (batch_reqs b) = flat_map cbu_of_ww (b_writes b).
Proof.
  intros Hn. unfold batch_reqs. rewrite flat_map_app, cbu_of_req_ww.
  destruct (b_nf b) as [[u d c| |]|]; simpl; rewrite ?app_nil_r; try reflexivity. now elim (Hn u d c).
Qed.

Lemma zwork_batch z ok z' v : zwork z ok = Some (z', v) ->
  batch_writes (z_w z') = [] \/ batch_writes (z_w z') = batch_writes (z_w z).
Proof.
  intros H. apply zwork_inv in H. destruct H as (b & _ & Eb & W).
  unfold batch_writes. rewrite Eb. destruct W; simpl; auto.
Qed.

(* no step but a flush call puts a callback in flight *)
Lemma finv_mono z z' : finv z -> incl (inflight z') (inflight z) ->
  g_flushed (z_ghost z') = g_flushed (z_ghost z) -> finv z'.
Proof. intros F Hi Hg c u Hin. rewrite Hg. apply F, Hi, Hin. Qed.

Lemma finv_step z e z' v : finv z -> zstep z e = Some (z', v) -> finv z'.
Proof.
  intros F H. destruct e as [o| |k nf|ok|]; simpl in H.
  - apply zcall_inv in H. destruct H as (Et & _ & C).
    destruct C as [w k r effs E|cb k effs E|from to k items E| |o r _];
      try (apply (finv_mono z); [exact F| |reflexivity]; unfold inflight; simpl; rewrite ?Et; apply incl_refl).
    + apply do_write_chain in E. destruct E as (k1 & Hc & _).
      apply (finv_mono z); [exact F| |reflexivity]. unfold inflight; simpl.
      rewrite Et, (aa_chain_nocbu _ _ _ Hc). apply incl_refl.
    + rewrite do_flush_eq in E. injection E as <- <-. intros c u Hin. unfold finv, inflight in Hin, F. simpl in *.
      assert (Ex : forall rm : list N, flat_map cbu_of_xeff (flat_map expand_eff
                     match rm with [] => [] | n :: l => [ESend (WRemove (n :: l))] end) = []) by (now intros []).
      rewrite Et in F. rewrite Ex in Hin. rewrite !in_app_iff in Hin.
      assert (Hold : In (c, u) (flat_map cbu_of_ww (batch_writes (z_w z)) ++
                                flat_map cbu_of_req (z_queue z) ++ []) ->
                     exists n, In (Some c, u, n) (g_flushed (flush_ghost z cb))).
      { intros Hx. destruct (F c u Hx) as (n & Hn). exists n. apply in_or_app. now left. }
      destruct Hin as [Hin|[Hin|[Hin|[]]]]; [| |destruct cb; [destruct Hin as [Hin|[]]|destruct Hin]].
      * apply Hold. apply in_or_app. now left.
      * apply Hold. rewrite app_nil_r. apply in_or_app. now right.
      * injection Hin as <- <-. eexists. apply in_or_app. right. left. reflexivity.
  - apply zeff_inv in H. apply (finv_mono z); [exact F| |now destruct H]. unfold inflight.
    destruct H as [id t Et|id data t Et|r t Et]; simpl; rewrite Et; simpl; try apply incl_refl.
    intros x. rewrite flat_map_app, !in_app_iff. simpl. rewrite app_nil_r. tauto.
  - apply zrecv_inv in H. destruct H as [_ [b q' _ Eb Eq _ _ Hn]].
    apply (finv_mono z); [exact F| |reflexivity]. unfold inflight, batch_writes. simpl.
    rewrite Eb, Eq, flat_map_app, (cbu_batch_reqs _ Hn), <- app_assoc. apply incl_refl.
  - destruct (zwork_frame _ _ _ _ H) as (Ht & Hg & Hq & _).
    apply (finv_mono z); [exact F| |now rewrite Hg]. unfold inflight. rewrite Ht, Hq.
    destruct (zwork_batch _ _ _ _ H) as [E|E]; rewrite E; [apply incl_appr|]; apply incl_refl.
  - apply zdrop_inv in H. destruct H as (Et & _ & ->).
    apply (finv_mono z); [exact F| |reflexivity]. unfold inflight; simpl. rewrite Et. apply incl_refl.
Qed.

(* ------------------------------------------------------------------ the walk over the request stream *)
(* worker-side view: the newest tracked file, the global offset of its end, the files
   created by the caller that the worker does not track yet (id, end), and whether the
   last request carried out was a write *)
Record wst := mkWst { s_cur : N; s_end : N; s_fut : list (N * N); s_aw : bool }.

Fixpoint upd_last (id n : N) (fv : list (N * N)) : option (list (N * N)) :=
  match fv with
  | [] => None
  | (i, x) :: r =>
    match r with
    | [] => if N.eqb i id then Some [(i, x + n)] else None
    | _ :: _ => match upd_last id n r with Some r' => Some ((i, x) :: r') | None => None end
    end
  end.

Definition wstep1 (s : wst) (x : xeff) : option wst :=
  match x with
  | XCreate id => Some (mkWst (s_cur s) (s_end s) (s_fut s ++ [(id, id)]) (s_aw s))
  | XWriteHead id h =>
    match upd_last id (blen h) (s_fut s) with
    | Some fv => Some (mkWst (s_cur s) (s_end s) fv (s_aw s))
    | None => None
    end
  | XSend (WWrite upto data cb) =>
    if N.eqb (s_end s + blen data) upto then Some (mkWst (s_cur s) upto (s_fut s) true) else None
  | XSend (WAppendFile off p) =>
    match s_fut s with
    | (i, x) :: fv =>
      if N.eqb i off && N.eqb (s_end s) off && N.ltb off x then Some (mkWst off x fv false) else None
    | [] => None
    end
  | XSend (WRemove ids) =>
    if s_aw s && forallb (fun i => N.ltb i (s_cur s)) ids then Some s else None
  end.

Fixpoint wrun (s : wst) (l : list xeff) : option wst :=
  match l with
  | [] => Some s
  | x :: r => match wstep1 s x with Some s1 => wrun s1 r | None => None end
  end.

Lemma wrun_app s a b : wrun s (a ++ b) = match wrun s a with Some s1 => wrun s1 b | None => None end.
Proof.
  revert s. induction a as [|x a IH]; intros s; simpl; [reflexivity|].
  destruct (wstep1 s x); [apply IH|reflexivity].
Qed.

Lemma upd_last_spec id n fv fv2 : upd_last id n fv = Some fv2 ->
  exists fv' x, fv = fv' ++ [(id, x)] /\ fv2 = fv' ++ [(id, x + n)].
Proof.
  revert fv2. induction fv as [|[i x] r IH]; intros fv2 H; simpl in H; [discriminate|].
  destruct r as [|p r'].
  - destruct (N.eqb_spec i id); [|discriminate]. subst. inversion H; subst. exists [], x. auto.
  - destruct (upd_last id n (p :: r')) as [r2|] eqn:E; [|discriminate]. inversion H; subst.
    destruct (IH r2 eq_refl) as (fv' & x0 & E1 & E2). rewrite E1, E2. exists ((i, x) :: fv'), x0. auto.
Qed.

Lemma upd_last_snoc id n fv' x : upd_last id n (fv' ++ [(id, x)]) = Some (fv' ++ [(id, x + n)]).
Proof.
  induction fv' as [|[i y] r IH]; simpl.
  - now rewrite N.eqb_refl.
  - rewrite IH. destruct (r ++ [(id, x)]) eqn:E; [|reflexivity]. now destruct r.
Qed.

Definition addfut (s : wst) (p : N * N) : wst := mkWst (s_cur s) (s_end s) (s_fut s ++ [p]) (s_aw s).
Definition setfut (s : wst) (fv : list (N * N)) : wst := mkWst (s_cur s) (s_end s) fv (s_aw s).

Definition is_send (x : xeff) : Prop := match x with XSend _ => True | _ => False end.

Lemma map_send_is_send l : Forall is_send (map XSend l).
Proof. induction l; constructor; simpl; auto. Qed.

Lemma forallb_ltb ids c : Forall (fun i => i < c) ids -> forallb (fun i => N.ltb i c) ids = true.
Proof.
  induction 1 as [|i r Hi Hr IH]; simpl; [reflexivity|]. rewrite IH.
  apply N.ltb_lt in Hi. now rewrite Hi.
Qed.

Inductive send_step (s : wst) : wreq -> wst -> Prop :=
| SWrite upto data cb :
    s_end s + blen data = upto -> send_step s (WWrite upto data cb) (mkWst (s_cur s) upto (s_fut s) true)
| SAppend off p x fv :
    s_fut s = (off, x) :: fv -> s_end s = off -> off < x ->
    send_step s (WAppendFile off p) (mkWst off x fv false)
| SRemove ids :
    s_aw s = true -> Forall (fun i => i < s_cur s) ids -> send_step s (WRemove ids) s.

Lemma forallb_ltb_inv ids c : forallb (fun i => N.ltb i c) ids = true -> Forall (fun i => i < c) ids.
Proof.
  induction ids as [|i r IH]; simpl; intros H; constructor.
  - apply andb_true_iff in H. destruct H as [H _]. now apply N.ltb_lt.
  - apply IH. apply andb_true_iff in H. tauto.
Qed.

Lemma wstep1_send s r s1 : wstep1 s (XSend r) = Some s1 <-> send_step s r s1.
Proof.
  split.
  - destruct r as [upto data cb|off p|ids]; simpl.
    + destruct (N.eqb_spec (s_end s + blen data) upto); [|discriminate]. intros [= <-]. now constructor.
    + destruct (s_fut s) as [|[i x] fv] eqn:Ef; [discriminate|].
      destruct (N.eqb_spec i off); simpl; [|discriminate]. destruct (N.eqb_spec (s_end s) off); simpl; [|discriminate].
      destruct (N.ltb_spec off x); simpl; [|discriminate]. intros [= <-]. subst. now constructor.
    + destruct (s_aw s) eqn:Ea; simpl; [|discriminate].
      destruct (forallb (fun i => N.ltb i (s_cur s)) ids) eqn:E; [|discriminate]. intros [= <-].
      constructor; auto using forallb_ltb_inv.
  - destruct 1 as [upto data cb E|off p x fv Ef Ee Hlt|ids Ea Hf]; simpl.
    + apply N.eqb_eq in E. now rewrite E.
    + apply N.ltb_lt in Hlt. now rewrite Ef, Ee, !N.eqb_refl, Hlt.
    + now rewrite Ea, (forallb_ltb _ _ Hf).
Qed.

(* A request either leaves the list [s_fut] of untracked files alone, and then goes through under any such
   list, or is the [WAppendFile] that takes its head, which starts at the current end. *)
Lemma send_step_fut s r s1 : send_step s r s1 ->
  (s_fut s1 = s_fut s /\ s_end s <= s_end s1 /\ forall fv, send_step (setfut s fv) r (setfut s1 fv)) \/
  (exists x, s_fut s = (s_end s, x) :: s_fut s1 /\
             forall fv, send_step (setfut s ((s_end s, x) :: fv)) r (setfut s1 fv)).
Proof.
  destruct 1 as [upto data cb E|off p x fv Ef Ee Hlt|ids Ea Hf].
  - left. split; [reflexivity|]. split; [simpl; lia|]. intros fv. now constructor.
  - right. exists x. subst off. split; [exact Ef|]. intros fv0. now constructor.
  - left. split; [reflexivity|]. split; [apply N.le_refl|]. intros fv. now constructor.
Qed.

Lemma wstep1_addfut s x s1 p : is_send x -> wstep1 s x = Some s1 -> wstep1 (addfut s p) x = Some (addfut s1 p).
Proof.
  destruct x as [| |r]; simpl is_send; try tauto. intros _ H. apply wstep1_send. apply wstep1_send in H.
  destruct (send_step_fut _ _ _ H) as [(E & _ & G)|(x & E & G)].
  - specialize (G (s_fut s ++ [p])). unfold addfut. now rewrite E.
  - specialize (G (s_fut s1 ++ [p])). unfold addfut. now rewrite E.
Qed.

Lemma wrun_create_commute W : Forall is_send W -> forall s id T st,
  wrun s (W ++ XCreate id :: T) = Some st -> wrun (addfut s (id, id)) (W ++ T) = Some st.
Proof.
  induction 1 as [|x W Hx HW IH]; intros s id T st H; simpl in *.
  - exact H.
  - destruct (wstep1 s x) as [s1|] eqn:E; [|discriminate].
    rewrite (wstep1_addfut _ _ _ (id, id) Hx E). now apply IH.
Qed.

Lemma wrun_no_head W : Forall is_send W -> forall s id h T,
  s_fut s = [] -> wrun s (W ++ XWriteHead id h :: T) = None.
Proof.
  induction 1 as [|x W Hx HW IH]; intros s id h T Hf; simpl.
  - now rewrite Hf.
  - destruct (wstep1 s x) as [s1|] eqn:E; [|reflexivity]. apply IH.
    destruct x as [| |r]; simpl in Hx; try tauto. apply wstep1_send in E.
    destruct (send_step_fut _ _ _ E) as [(E1 & _)|(x & E1 & _)]; congruence.
Qed.

Lemma wrun_head_commute W : Forall is_send W -> forall s id h T st,
  wrun s (W ++ XWriteHead id h :: T) = Some st ->
  exists fv' x, s_fut s = fv' ++ [(id, x)] /\
                wrun (setfut s (fv' ++ [(id, x + blen h)])) (W ++ T) = Some st.
Proof.
  induction 1 as [|x W Hx HW IH]; intros s id h T st H; simpl in H.
  - destruct (upd_last id (blen h) (s_fut s)) as [fv2|] eqn:E; [|discriminate].
    destruct (upd_last_spec _ _ _ _ E) as (fv' & x & E1 & E2). exists fv', x. split; [exact E1|].
    simpl. unfold setfut. now rewrite <- E2.
  - destruct (wstep1 s x) as [s1|] eqn:E; [|discriminate].
    destruct x as [| |r]; simpl in Hx; try tauto. apply wstep1_send in E.
    destruct (IH _ _ _ _ _ H) as (fv' & x & E1 & E2).
    destruct (send_step_fut _ _ _ E) as [(Ef & _ & G)|(x0 & Ef & G)].
    + exists fv', x. split; [congruence|]. cbn [app wrun]. now rewrite (proj2 (wstep1_send _ _ _) (G _)).
    + exists ((s_end s, x0) :: fv'), x. split; [now rewrite Ef, E1|].
      cbn [app wrun]. now rewrite (proj2 (wstep1_send _ _ _) (G _)).
Qed.

Lemma upd_last_head id n i x r fv2 : upd_last id n ((i, x) :: r) = Some fv2 ->
  exists x' r', fv2 = (i, x') :: r'.
Proof.
  simpl. destruct r as [|p r'].
  - destruct (N.eqb i id); [|discriminate]. intros H; inversion H; subst. eauto.
  - destruct (upd_last id n (p :: r')); [|discriminate]. intros H; inversion H; subst. eauto.
Qed.

(* If the walk ends with no untracked file left, the first untracked file starts at or after the current
   end: files are taken in order, each where the tracked one ends. *)
Lemma wrun_first_fut l : forall s s', wrun s l = Some s' -> s_fut s' = [] ->
  forall i x r, s_fut s = (i, x) :: r -> s_end s <= i.
Proof.
  induction l as [|y l IH]; intros s s' H Hf i x r Hs; simpl in H.
  - inversion H; subst. rewrite Hs in Hf. discriminate.
  - destruct (wstep1 s y) as [s1|] eqn:E; [|discriminate].
    destruct y as [id|id h|rq]; [simpl in E..|apply wstep1_send in E].
    + inversion E; subst; clear E. eapply (IH _ _ H Hf i x (r ++ [(id, id)])). simpl. now rewrite Hs.
    + destruct (upd_last id (blen h) (s_fut s)) as [fv2|] eqn:Eu; [|discriminate].
      inversion E; subst; clear E. rewrite Hs in Eu.
      destruct (upd_last_head _ _ _ _ _ _ Eu) as (x' & r' & ->).
      eapply (IH _ _ H Hf i x' r'). reflexivity.
    + destruct (send_step_fut _ _ _ E) as [(Ef & Hle & _)|(x0 & Ef & _)].
      * rewrite <- Ef in Hs. specialize (IH _ _ H Hf i x r Hs). lia.
      * rewrite Hs in Ef. injection Ef as <- _ _. apply N.le_refl.
Qed.

(* ------------------------------------------------------------------ the worker-side invariant *)
Definition fend (f : file) : N := f_id f + blen (f_data f).
Definition fview (f : file) : N * N := (f_id f, fend f).
Definition full_synced (f : file) : Prop := f_synced f = blen (f_data f).

Fixpoint contig (l : list file) : Prop :=
  match l with
  | f :: r => match r with g :: _ => fend f = f_id g | [] => True end /\ contig r
  | [] => True
  end.

Lemma contig_replace a f f' b : contig (a ++ f :: b) -> f_id f' = f_id f ->
  (b <> [] -> fend f' = fend f) -> contig (a ++ f' :: b).
Proof.
  intros H Hid Hend. induction a as [|g a IH]; simpl in *.
  - destruct H as [H1 H2]. split; [|exact H2]. destruct b as [|h b]; [exact I|].
    rewrite Hend by discriminate. exact H1.
  - destruct H as [H1 H2]. split; [|now apply IH].
    destruct a as [|h a]; simpl in *; [now rewrite Hid|exact H1].
Qed.

Lemma contig_snoc l f g : contig (l ++ [f]) -> fend f = f_id g -> contig ((l ++ [f]) ++ [g]).
Proof.
  intros H He. induction l as [|h l IH]; simpl in *.
  - auto.
  - destruct H as [H1 H2]. split; [|now apply IH].
    destruct l as [|h' l]; simpl in *; exact H1.
Qed.

Definition written (w : worker) : list wwrite :=
  match w_batch w with
  | Some b =>
    match b_pos b with
    | BWrite i => firstn i (b_writes b)
    | BSyncOld | BSetEvict | BSyncNew | BCallbacks _ => b_writes b
    | _ => []
    end
  | None => []
  end.

Definition claimed (w : worker) (fl : bool) : Prop :=
  match w_batch w with
  | None => fl = true
  | Some b =>
    match b_pos b with
    | BCallbacks _ | BPostponed | BUnlink _ => True
    | BNonFlush | BDone => fl = true
    | _ => False
    end
  end.

Definition single_phase (w : worker) : Prop :=
  match w_batch w with
  | Some b => match b_pos b with BSetEvict | BSyncNew => True | _ => False end
  | None => False
  end.

Definition stream (z : sys2) : list xeff :=
  map XSend (stream_batch (z_w z) ++ z_queue z) ++ z_todo z.

Definition written_at (p : wpos) (b : batch) : list wwrite :=
  match p with
  | BWrite i => firstn i (b_writes b)
  | BSyncOld | BSetEvict | BSyncNew | BCallbacks _ => b_writes b
  | _ => []
  end.
Definition claimed_at (p : wpos) (fl : bool) : Prop :=
  match p with
  | BCallbacks _ | BPostponed | BUnlink _ => True
  | BNonFlush | BDone => fl = true
  | _ => False
  end.

Lemma written_eq w b : w_batch w = Some b -> written w = written_at (b_pos b) b.
Proof. unfold written. intros ->. now destruct (b_pos b). Qed.
Lemma claimed_eq w b fl : w_batch w = Some b -> claimed w fl = claimed_at (b_pos b) fl.
Proof. unfold claimed. intros ->. now destruct (b_pos b). Qed.

Lemma stream_eq z b : w_batch (z_w z) = Some b ->
  stream z = map XSend (stream_at (b_pos b) b ++ z_queue z) ++ z_todo z.
Proof. intros E. unfold stream. now rewrite (stream_batch_eq _ _ E). Qed.

(* [fl]: the last request the worker carried out was a write; only then may a removal
   request come next, and no file has joined its list since the sync pass of that batch.
   [claimed w fl]: the worker stands behind a sync pass (at the callbacks, the postponed
   removals or the unlinks of a batch, or later with [fl] still true).  If no sync failure
   is outstanding there, the pass has dropped every tracked file but the newest
   ([c_single]: [tin = []]): that is why a reported success means durability
   ([callback_durable]) and why an unlink meets only files of [old].  [c_sp] says the same,
   whatever the failure flag, between the loop over the older files and the sync of the
   newest. *)
Record cwit (z : sys2) (old tin : list file) (fc : file) (fut : list file) (fl : bool) (st : wst) : Prop := {
  c_disk : z_disk z = old ++ tin ++ fc :: fut;
  c_files : map f_id (tin ++ [fc]) = map wf_id (w_files (z_w z));
  c_old : Forall full_synced old;
  c_contig : contig (old ++ tin ++ [fc]);
  c_run : wrun (mkWst (f_id fc) (fend fc) (map fview fut) fl) (stream z) = Some st;
  c_cur : s_cur st = ck_id (k_open (z_core z));
  c_end : s_end st + blen (k_pending (z_core z)) = ck_end (k_open (z_core z));
  c_fut : s_fut st = [];
  c_single : claimed (z_w z) fl -> w_sync_failed (z_w z) = false -> tin = [];
  c_written : Forall (fun ww => ww_upto ww <= fend fc) (written (z_w z));
  c_ok : forall b i, w_batch (z_w z) = Some b -> b_pos b = BCallbacks i -> b_ok b = true ->
         w_sync_failed (z_w z) = false /\ full_synced fc;
  c_rem : Forall (fun i => i < f_id fc) (w_postponed (z_w z) ++ unl (z_w z));
  c_sp : single_phase (z_w z) -> tin = [] }.

Definition cinv (z : sys2) : Prop := exists old tin fc fut fl st, cwit z old tin fc fut fl st.

Lemma idle_stream z : worker_idle2 z -> stream z = [].
Proof. intros (Hq & Hb & Ht). unfold stream, stream_batch. now rewrite Hb, Hq, Ht. Qed.

(* nothing is in flight: the worker's picture of the files is the directory, and the newest
   file ends where the caller's buffer begins *)
Lemma idle_shape z : cinv z -> worker_idle2 z ->
  exists old tin fc, z_disk z = old ++ tin ++ [fc] /\ Forall full_synced old /\
    map f_id (tin ++ [fc]) = map wf_id (w_files (z_w z)) /\ contig (z_disk z) /\
    fend fc + blen (k_pending (z_core z)) = ck_end (k_open (z_core z)).
Proof.
  intros (old & tin & fc & fut & fl & st & C) Hi.
  pose proof (c_run _ _ _ _ _ _ _ C) as Hr. rewrite (idle_stream _ Hi) in Hr. injection Hr as Est.
  pose proof (c_fut _ _ _ _ _ _ _ C) as Hf. pose proof (c_end _ _ _ _ _ _ _ C) as He.
  pose proof (c_disk _ _ _ _ _ _ _ C) as Ed.
  rewrite <- Est in Hf, He. cbn [s_fut s_end] in Hf, He. destruct fut; [|discriminate Hf].
  exists old, tin, fc. split; [exact Ed|].
  split; [exact (c_old _ _ _ _ _ _ _ C)|]. split; [exact (c_files _ _ _ _ _ _ _ C)|].
  split; [rewrite Ed; exact (c_contig _ _ _ _ _ _ _ C)|exact He].
Qed.

Lemma contig_mid pre f g post : contig (pre ++ f :: g :: post) -> fend f = f_id g.
Proof. induction pre as [|a pre IH]; cbn [app contig]; intros [H1 H2]; [exact H1|exact (IH H2)]. Qed.

(* ------------------------------------------------------------------ the initial states *)
(* What the invariants of the L2 files need of a freshly opened store [y]: the files [old ++ [fc]] abut, [fc]
   belongs to the open chunk and is the one file the worker tracks, nothing is queued or pending. It has
   the fields of RestartShape.opened, the record in which the fixed theorem [open_dir_shape] states what
   [open_dir] returns; that record stands in RestartShape.v, which needs [contig] and [fend] of this file,
   while the theorems below need the initial state here: hence the second record ([opened_fresh] converts). *)
Record fresh (S : file -> Prop) (y : sys) (old : list file) (fc : file) : Prop := {
  fr_disk : y_disk y = old ++ [fc];
  fr_sorted : disk_sorted (y_disk y);
  fr_le : Forall S (y_disk y);
  fr_contig : contig (old ++ [fc]);
  fr_closed : map f_id old = cids (k_closed (y_core y));
  fr_id : f_id fc = ck_id (k_open (y_core y));
  fr_end : fend fc = ck_end (k_open (y_core y));
  fr_pos : f_id fc < fend fc;
  fr_pending : k_pending (y_core y) = [];
  fr_removed : k_removed (y_core y) = [];
  fr_cb : k_next_cb (y_core y) = 0;
  fr_queue : y_queue y = [];
  fr_acks : y_acks y = [];
  fr_files : exists pl, y_files y = [mkWF (f_id fc) pl] }.

Definition opens_fresh (S Q : file -> Prop) (cfg : config) (d : disk) : Prop :=
  forall y, open_dir cfg d = OpenOk y -> exists old fc, fresh S y old fc /\ Forall Q old.

Lemma opens_fresh_nil (S Q : file -> Prop) cfg : (forall id data, S (mkFile id data 0)) -> opens_fresh S Q cfg [].
Proof.
  intros HS y [= <-]. exists [], (mkFile 0 (head0 cfg) 0). split; [|constructor].
  pose proof (enc_record_min_len (RState (m_rs (sm_new cfg)))) as Hpos.
  constructor; [reflexivity|repeat constructor|repeat constructor; apply HS|exact (conj I I)|reflexivity|
                reflexivity|apply eq_sym, JournalChunk.ck_end_push|unfold fend, head0; cbn [f_id f_data]; lia|
                reflexivity..|eexists; reflexivity].
Qed.

Lemma fresh_ids S y old fc : fresh S y old fc ->
  map f_id (y_disk y) = cids (k_closed (y_core y)) ++ [ck_id (k_open (y_core y))].
Proof. intros O. rewrite (fr_disk _ _ _ _ O), map_app, (fr_closed _ _ _ _ O), <- (fr_id _ _ _ _ O). reflexivity. Qed.

Lemma fresh_ids_le S y old fc : fresh S y old fc -> Forall (fun f => f_id f <= f_id fc) (y_disk y).
Proof.
  intros O. pose proof (fr_sorted _ _ _ _ O) as Hs. rewrite (fr_disk _ _ _ _ O) in *.
  apply fsorted_app_inv in Hs. destruct Hs as (_ & _ & Hlt).
  rewrite Forall_app. split.
  - rewrite Forall_forall. intros f Hf. specialize (Hlt f fc Hf (or_introl eq_refl)). lia.
  - constructor; [lia|constructor].
Qed.

Lemma binv_fresh y old fc : fresh synced_le y old fc -> binv (sys2_of y).
Proof.
  intros O. constructor; simpl.
  - apply (fr_sorted _ _ _ _ O).
  - apply (fr_le _ _ _ _ O).
  - constructor.
  - intros f c _ [].
  - rewrite <- (fr_id _ _ _ _ O). eapply fresh_ids_le; eauto.
  - constructor.
  - rewrite <- (fr_id _ _ _ _ O), <- (fr_end _ _ _ _ O). apply (fr_pos _ _ _ _ O).
  - constructor.
  - intros U c [].
  - constructor.
Qed.

Lemma remL_fresh S y old fc : fresh S y old fc -> remL (sys2_of y) = map f_id (y_disk y).
Proof.
  intros O. unfold remL, remW, unl, stream_batch, core_ids. simpl.
  rewrite (fr_queue _ _ _ _ O), (fr_removed _ _ _ _ O). simpl. symmetry. eapply fresh_ids; eauto.
Qed.

Lemma linv_fresh S y old fc : fresh S y old fc -> linv (sys2_of y).
Proof.
  intros O. constructor.
  - rewrite (remL_fresh _ _ _ _ O). apply dsorted_iff, (fr_sorted _ _ _ _ O).
  - rewrite (remL_fresh _ _ _ _ O). intros f Hf. now apply in_map.
  - intros x [].
  - intros _. left. reflexivity.
  - intros H. now elim H.
Qed.

Lemma cinv_fresh S y old fc : fresh S y old fc -> Forall full_synced old -> cinv (sys2_of y).
Proof.
  intros O Hold. destruct (fr_files _ _ _ _ O) as [pl Hfl].
  exists old, [], fc, [], true, (mkWst (f_id fc) (fend fc) [] true).
  constructor; unfold stream, stream_batch, claimed, written, single_phase, unl; simpl;
    rewrite ?(fr_queue _ _ _ _ O), ?Hfl; simpl; auto.
  - apply (fr_disk _ _ _ _ O).
  - apply (fr_contig _ _ _ _ O).
  - apply (fr_id _ _ _ _ O).
  - rewrite (fr_pending _ _ _ _ O), <- (fr_end _ _ _ _ O). simpl. lia.
  - intros b i Hb. discriminate.
Qed.

Definition final (st : wst) (k : core) : Prop :=
  s_cur st = ck_id (k_open k) /\ s_end st + blen (k_pending k) = ck_end (k_open k) /\ s_fut st = [].

Lemma aa_res_walk k k' effs st : aa_res k k' effs -> final st k ->
  exists st', wrun st (flat_map expand_eff effs) = Some st' /\ final st' k'.
Proof.
  intros H (Hc & He & Hf).
  destruct H as [|k' data Hd Hop Hpe _ _ _|k' data head prev stt Hd Hh Hop Hpe _ _ _].
  - exists st. split; [reflexivity|]. repeat split; assumption.
  - exists st. split; [reflexivity|]. unfold final. rewrite Hop, Hpe, JournalChunk.ck_end_push, JournalChunk.ck_id_push, app_length.
    repeat split; try assumption. lia.
  - destruct st as [cur e fut aw]. simpl in Hc, He, Hf. subst fut.
    remember (ck_end (k_open k) + blen data) as off eqn:Eoff.
    pose proof (blen_pos _ Hh) as Hhp.
    assert (E1 : N.eqb (e + blen (k_pending k ++ data)) off = true).
    { apply N.eqb_eq. rewrite app_length. lia. }
    assert (E2 : N.ltb off (off + blen head) = true) by (apply N.ltb_lt; lia).
    eexists. split.
    + simpl. rewrite N.eqb_refl. simpl. rewrite E1. simpl. rewrite !N.eqb_refl, E2. simpl. reflexivity.
    + unfold final; simpl. rewrite Hop, Hpe, JournalChunk.ck_end_push, JournalChunk.ck_id_push, ck_end_empty. simpl.
      repeat split. lia.
Qed.

Lemma aa_chain_walk k k' effs : aa_chain k k' effs -> forall st, final st k ->
  exists st', wrun st (flat_map expand_eff effs) = Some st' /\ final st' k'.
Proof.
  induction 1 as [k|k k1 k2 e1 e2 H1 H2 IH]; intros st Hf.
  - exists st. split; [reflexivity|exact Hf].
  - destruct (aa_res_walk _ _ _ _ H1 Hf) as (st1 & Hr1 & Hf1).
    destruct (IH _ Hf1) as (st2 & Hr2 & Hf2). exists st2. split; [|exact Hf2].
    rewrite flat_map_app, wrun_app, Hr1. exact Hr2.
Qed.

Lemma core_ids_removed_lt k pre : StronglySorted N.lt (pre ++ core_ids k) ->
  Forall (fun i => i < ck_id (k_open k)) (k_removed k).
Proof.
  unfold core_ids. intros H. rewrite !app_assoc in H. apply ss_snoc_max in H.
  rewrite !Forall_app in H. tauto.
Qed.


Lemma cwit_frame z z' old tin fc fut fl st : cwit z old tin fc fut fl st ->
  z_disk z' = z_disk z -> z_w z' = z_w z -> stream z' = stream z ->
  k_open (z_core z') = k_open (z_core z) -> k_pending (z_core z') = k_pending (z_core z) ->
  cwit z' old tin fc fut fl st.
Proof. intros [] Hd Hw Hs Ho Hp. constructor; rewrite ?Hd, ?Hw, ?Hs, ?Ho, ?Hp; assumption. Qed.

(* the clauses of [cwit] about the batch in progress, for a batch [b] at position [p] *)
Definition side_at (sf : bool) (pp : list N) (p : wpos) (b : batch)
                   (tin : list file) (fc : file) (fl : bool) : Prop :=
  (claimed_at p fl -> sf = false -> tin = []) /\
  Forall (fun ww => ww_upto ww <= fend fc) (written_at p b) /\
  (forall i, p = BCallbacks i -> b_ok b = true -> sf = false /\ full_synced fc) /\
  Forall (fun i => i < f_id fc) (pp ++ unl_at p) /\
  (p = BSetEvict \/ p = BSyncNew -> tin = []).

Lemma cwit_side z b old tin fc fut fl st : cwit z old tin fc fut fl st -> w_batch (z_w z) = Some b ->
  side_at (w_sync_failed (z_w z)) (w_postponed (z_w z)) (b_pos b) b tin fc fl.
Proof.
  intros [] Eb. unfold side_at.
  rewrite <- (claimed_eq _ _ fl Eb), <- (written_eq _ _ Eb), <- (unl_eq _ _ Eb).
  repeat split; auto; try (now apply (c_ok0 b i)).
  intros Hp. apply c_sp0. unfold single_phase. rewrite Eb. destruct Hp as [-> | ->]; exact I.
Qed.

Lemma cwit_intro z b old tin fc fut fl st :
  w_batch (z_w z) = Some b ->
  z_disk z = old ++ tin ++ fc :: fut -> map f_id (tin ++ [fc]) = map wf_id (w_files (z_w z)) ->
  Forall full_synced old -> contig (old ++ tin ++ [fc]) ->
  wrun (mkWst (f_id fc) (fend fc) (map fview fut) fl) (stream z) = Some st ->
  s_cur st = ck_id (k_open (z_core z)) ->
  s_end st + blen (k_pending (z_core z)) = ck_end (k_open (z_core z)) -> s_fut st = [] ->
  side_at (w_sync_failed (z_w z)) (w_postponed (z_w z)) (b_pos b) b tin fc fl ->
  cwit z old tin fc fut fl st.
Proof.
  intros Eb Hd Hf Ho Hc Hr F1 F2 F3 (S1 & S2 & S3 & S4 & S5).
  constructor; try assumption.
  - now rewrite (claimed_eq _ _ fl Eb).
  - now rewrite (written_eq _ _ Eb).
  - intros b' i Eb'. rewrite Eb in Eb'. injection Eb' as <-. apply S3.
  - now rewrite (unl_eq _ _ Eb).
  - unfold single_phase. rewrite Eb. intros Hp. apply S5. destruct (b_pos b); try destruct Hp; auto.
Qed.

Lemma cinv_quiet {z z' b b' old tin fc fut fl st} : cwit z old tin fc fut fl st ->
  w_batch (z_w z) = Some b -> w_batch (z_w z') = Some b' ->
  z_queue z' = z_queue z -> z_todo z' = z_todo z -> z_disk z' = z_disk z ->
  w_files (z_w z') = w_files (z_w z) ->
  k_open (z_core z') = k_open (z_core z) -> k_pending (z_core z') = k_pending (z_core z) ->
  stream_at (b_pos b') b' = stream_at (b_pos b) b ->
  side_at (w_sync_failed (z_w z')) (w_postponed (z_w z')) (b_pos b') b' tin fc fl ->
  cinv z'.
Proof.
  intros [] Eb Eb' Hq Ht Hd Hf Ho Hp Es S. exists old, tin, fc, fut, fl, st.
  apply (cwit_intro _ b'); rewrite ?Hd, ?Hf, ?Ho, ?Hp; try assumption.
  now rewrite (stream_eq _ _ Eb'), Es, Hq, Ht, <- (stream_eq _ _ Eb).
Qed.

Lemma cinv_call z o z' v : linv z -> cinv z -> zcall z o = Some (z', v) -> cinv z'.
Proof.
  intros L (old & tin & fc & fut & fl & st & C) H. apply zcall_inv in H. destruct H as (Et & _ & H).
  assert (Es : stream z = map XSend (stream_batch (z_w z) ++ z_queue z)).
  { unfold stream. now rewrite Et, app_nil_r. }
  destruct H as [w k r effs E|cb k effs E|from to k items E| |o r _].
  - (* the effects of a write walk on from the journal end *)
    apply do_write_chain in E. destruct E as (k1 & Hc & Hpo & Hpp & _). destruct C.
    destruct (aa_chain_walk _ _ _ Hc st) as (st' & Hr & Hf1 & Hf2 & Hf3); [repeat split; assumption|].
    exists old, tin, fc, fut, fl, st'. constructor; simpl; try assumption.
    + unfold stream; simpl. fold (stream_batch (z_w z)). rewrite <- Es, wrun_app, c_run0. exact Hr.
    + now rewrite Hpo.
    + now rewrite Hpo, Hpp.
  - (* the flush write ends at the journal end; the chunks to remove lie below the open one *)
    rewrite do_flush_eq in E. injection E as <- <-. destruct C.
    pose proof (l_sorted _ L) as Hs. unfold remL in Hs. rewrite Et in Hs. simpl in Hs.
    pose proof (core_ids_removed_lt _ _ Hs) as Hrm.
    assert (E1 : N.eqb (s_end st + blen (k_pending (z_core z))) (ck_end (k_open (z_core z))) = true)
      by (now apply N.eqb_eq).
    exists old, tin, fc, fut, fl, (mkWst (s_cur st) (ck_end (k_open (z_core z))) (s_fut st) true).
    constructor; simpl; try assumption.
    + unfold stream; simpl. fold (stream_batch (z_w z)). rewrite <- Es, wrun_app, c_run0.
      destruct (k_removed (z_core z)) as [|i ids] eqn:Er; simpl; rewrite E1; [reflexivity|].
      inversion Hrm as [|i0 ids0 Hi Hids]; subst. simpl. rewrite c_cur0.
      apply N.ltb_lt in Hi. rewrite Hi, (forallb_ltb _ _ Hids). reflexivity.
    + lia.
  - pose proof (do_read_fields (z_core z) (z_disk z) from to) as Hf. rewrite E in Hf.
    exists old, tin, fc, fut, fl, st. apply (cwit_frame z); auto; apply Hf.
  - exists old, tin, fc, fut, fl, st. apply (cwit_frame z); auto.
  - exists old, tin, fc, fut, fl, st. exact C.
Qed.

Lemma cinv_eff z z' v : binv z -> cinv z -> zeff z = Some (z', v) -> cinv z'.
Proof.
  intros B (old & tin & fc & fut & fl & st & C) H. apply zeff_inv in H.
  destruct H as [id t Et|id h t Et|r t Et].
  - (* a created file joins the files not yet tracked *)
    destruct C.
    assert (Hlt : ids_lt (z_disk z) id).
    { unfold ids_lt. rewrite Forall_forall. intros f Hf. apply (b_dlt _ B f id Hf). rewrite Et. now left. }
    exists old, tin, fc, (fut ++ [mkFile id [] 0]), fl, st. constructor; simpl; try assumption.
    + rewrite disk_put_end by exact Hlt. rewrite c_disk0, <- !app_assoc. reflexivity.
    + unfold stream in *; simpl. rewrite Et in c_run0.
      apply wrun_create_commute in c_run0; [|apply map_send_is_send].
      rewrite map_app. simpl. unfold fview at 2, fend. simpl. change (N.of_nat 0) with 0. rewrite N.add_0_r.
      exact c_run0.
  - (* the head record goes to the newest of them *)
    destruct C. unfold stream in c_run0. rewrite Et in c_run0.
    apply wrun_head_commute in c_run0; [|apply map_send_is_send].
    destruct c_run0 as (fv' & x & Efv & Hrun). simpl in Efv.
    apply map_eq_app in Efv. destruct Efv as (l1 & l2 & Efut & El1 & El2).
    apply map_eq_cons in El2. destruct El2 as (g & tl & -> & Hg & Htl).
    apply map_eq_nil in Htl. subst tl.
    unfold fview in Hg. injection Hg as Hgid Hgend.
    assert (Ed : z_disk z = (old ++ tin ++ fc :: l1) ++ g :: []).
    { rewrite c_disk0, Efut, <- !app_assoc. reflexivity. }
    pose proof (b_sorted _ B) as Hsd. rewrite Ed in Hsd.
    exists old, tin, fc, (l1 ++ [mkFile (f_id g) (f_data g ++ h) (f_synced g)]), fl, st.
    constructor; simpl; try assumption.
    + rewrite Ed, <- Hgid, disk_append_mid by exact Hsd. rewrite <- !app_assoc. reflexivity.
    + unfold stream; simpl. unfold setfut in Hrun. simpl in Hrun.
      assert (Ev : fview (mkFile (f_id g) (f_data g ++ h) (f_synced g)) = (id, x + blen h)).
      { unfold fview, fend in *; simpl. rewrite app_length. f_equal; lia. }
      rewrite map_app, El1. cbn [map]. rewrite Ev. exact Hrun.
  - exists old, tin, fc, fut, fl, st. apply (cwit_frame z); auto.
    unfold stream; simpl. now rewrite Et, app_assoc, map_app, <- app_assoc.
Qed.

Lemma recv_stream z z' : recv_step z z' -> stream z' = stream z.
Proof.
  intros [b q' _ Eb Eq _ Hp _]. unfold stream. simpl.
  rewrite (stream_batch_eq (w_set_batch (z_w z) (Some b)) b eq_refl). destruct (recv_stream_at b Hp) as [-> _].
  unfold stream_batch. now rewrite Eb, Eq.
Qed.

Lemma cinv_recv z z' : cinv z -> recv_step z z' -> cinv z'.
Proof.
  intros (old & tin & fc & fut & fl & st & C) R. pose proof (recv_stream _ _ R) as Es.
  destruct R as [b q' _ Eb Eq _ Hp _]. exists old, tin, fc, fut, fl, st.
  destruct C. unfold claimed, unl in *. rewrite Eb in *. rewrite app_nil_r in c_rem0.
  apply (cwit_intro _ b); [reflexivity|..]; rewrite ?Es; zproj; try assumption.
  unfold side_at. destruct (recv_stream_at b Hp) as [_ ->]. rewrite app_nil_r.
  destruct Hp as [[-> _]|(-> & _)]; simpl; repeat split; auto; try (intros; discriminate); intros [|]; discriminate.
Qed.


Lemma newest_id w tin fc f :
  map f_id (tin ++ [fc]) = map wf_id (w_files w) -> newest w = Some f -> wf_id f = f_id fc.
Proof.
  unfold newest. intros Hm Hn. apply (f_equal (@rev N)) in Hm.
  rewrite <- !map_rev, rev_unit in Hm. destruct (rev (w_files w)) as [|g r]; [discriminate|].
  inversion Hn; subst. simpl in Hm. now inversion Hm.
Qed.

Lemma firstn_S_nth {A} (l : list A) i x : nth_error l i = Some x -> firstn (S i) l = firstn i l ++ [x].
Proof.
  revert i. induction l as [|a l IH]; intros [|i] H; simpl in *; try discriminate.
  - now inversion H.
  - f_equal. now apply IH.
Qed.

Lemma firstn_nth_none {A} (l : list A) i : nth_error l i = None -> firstn i l = l.
Proof. intros H. apply firstn_all2. now apply nth_error_None. Qed.

Lemma files_short tin fc (l : list wfile) :
  map f_id (tin ++ [fc]) = map wf_id l -> (length l <= 1)%nat -> tin = [].
Proof.
  intros Hm Hl. apply (f_equal (@length N)) in Hm. rewrite !map_length, app_length in Hm. simpl in Hm.
  destruct tin; [reflexivity|]. simpl in Hm. lia.
Qed.

Lemma remove_old id old fc fut :
  disk_sorted (old ++ fc :: fut) -> id < f_id fc ->
  Forall (fun f => id <= f_id f) (old ++ fc :: fut) ->
  Forall full_synced old -> contig (old ++ [fc]) ->
  exists old', disk_remove id (old ++ fc :: fut) = old' ++ fc :: fut /\
               Forall full_synced old' /\ contig (old' ++ [fc]).
Proof.
  intros Hs Hlt Hle Ho Hc.
  destruct (disk_remove_first id _ Hs Hle) as [E|(f & r & E1 & E2 & E3)].
  - exists old. auto.
  - destruct old as [|g old'].
    + simpl in E1. injection E1 as Eg Er. subst f. lia.
    + simpl in E1. injection E1 as Eg Er. exists old'. split; [rewrite Er; exact E3|].
      inversion Ho; subst. split; [assumption|]. simpl in Hc. tauto.
Qed.



Lemma wrun_send s r l st : wrun s (XSend r :: l) = Some st ->
  exists s1, send_step s r s1 /\ wrun s1 l = Some st.
Proof.
  cbn [wrun]. destruct (wstep1 s (XSend r)) as [s1|] eqn:E; [|discriminate]. apply wstep1_send in E. eauto.
Qed.

Lemma wrun_write cur e fv fl ww s st :
  wrun (mkWst cur e fv fl) (XSend (req_of_ww ww) :: s) = Some st ->
  e + blen (ww_data ww) = ww_upto ww /\ wrun (mkWst cur (ww_upto ww) fv true) s = Some st.
Proof. intros H. apply wrun_send in H. destruct H as (s1 & H1 & H). inversion H1; subst. auto. Qed.

Lemma wrun_remove cur e fv fl ids s st :
  wrun (mkWst cur e fv fl) (XSend (WRemove ids) :: s) = Some st ->
  fl = true /\ Forall (fun i => i < cur) ids /\ wrun (mkWst cur e fv fl) s = Some st.
Proof. intros H. apply wrun_send in H. destruct H as (s1 & H1 & H). inversion H1; subst. auto. Qed.

Lemma wrun_append_file cur e fv fl off p s st :
  wrun (mkWst cur e fv fl) (XSend (WAppendFile off p) :: s) = Some st ->
  exists x fv', fv = (off, x) :: fv' /\ e = off /\ off < x /\ wrun (mkWst off x fv' false) s = Some st.
Proof. intros H. apply wrun_send in H. destruct H as (s1 & H1 & H). inversion H1; subst. simpl in *. eauto 7. Qed.

Lemma cwit_unlink z z' b b' id old fc fut fl st :
  binv z -> linv z -> cwit z old [] fc fut fl st -> w_batch (z_w z) = Some b ->
  w_postponed (z_w z) ++ unl_at (b_pos b) = id :: w_postponed (z_w z') ++ unl_at (b_pos b') ->
  w_batch (z_w z') = Some b' -> z_disk z' = disk_remove id (z_disk z) ->
  stream_at (b_pos b') b' = stream_at (b_pos b) b -> z_queue z' = z_queue z -> z_todo z' = z_todo z ->
  w_files (z_w z') = w_files (z_w z) -> z_core z' = z_core z ->
  w_sync_failed (z_w z') = false -> (forall i, b_pos b' <> BCallbacks i) -> written_at (b_pos b') b' = [] ->
  cinv z'.
Proof.
  intros B L C Eb Er Eb' Ed Es Hq Ht Ef Ec Esf Hcb Hw.
  pose proof (cwit_side _ _ _ _ _ _ _ _ C Eb) as (_ & _ & _ & S4 & _). destruct C. simpl in *.
  pose proof (b_sorted _ B) as Hsd. rewrite c_disk0 in Hsd.
  assert (Hle : Forall (fun f => id <= f_id f) (old ++ fc :: fut)).
  { rewrite <- c_disk0. eapply head_of_L; [exact L|]. unfold remL. rewrite (remW_eq _ _ Eb), (app_assoc (w_postponed (z_w z)) (unl_at (b_pos b))), Er. reflexivity. }
  rewrite Er in S4. inversion S4 as [|i0 r0 Hid Hrem]; subst.
  destruct (remove_old id old fc fut Hsd Hid Hle c_old0 c_contig0) as (old' & Er' & Ho' & Hc').
  exists old', [], fc, fut, fl, st. apply (cwit_intro _ b'); rewrite ?Ed, ?Ef, ?Ec, ?c_disk0; simpl; try assumption.
  - now rewrite (stream_eq _ _ Eb'), Es, Hq, Ht, <- (stream_eq _ _ Eb).
  - unfold side_at. rewrite Hw, Esf. repeat split; auto; try (now elim (Hcb i)).
Qed.

Ltac side_triv :=
  unfold side_at; cbn [claimed_at written_at unl_at]; zproj;
  repeat split; auto; try tauto; try discriminate; try congruence; try (intros [|]; discriminate);
  try solve [constructor].

Lemma cinv_work z ok z' v :
  binv z -> linv z -> cinv z -> zwork z ok = Some (z', v) -> w_alive (z_w z') = true -> cinv z'.
Proof.
  intros B L (old & tin & fc & fut & fl & st & C) H Hal.
  apply zwork_inv in H. destruct H as (b & _ & Eb & W).
  destruct (cwit_side _ _ _ _ _ _ _ _ C Eb) as (S1 & S2 & S3 & S4 & S5).
  pose proof C as []. rename c_run0 into Hr. rewrite (stream_eq _ _ Eb) in Hr.
  pose proof (b_sorted _ B) as Hsd. rewrite c_disk0 in Hsd.
  work_cases W; try (destruct Ep as [[Ep _]|Ep]); try discriminate Hal;
    [destruct M as [i ww Ep En Ed|i Ep En|Ep Hlen|i ww Ep En Ec|i Ep En|Ep Hx|Ep Enf|ids Ep Enf Esf|Ep]|..];
    rewrite Ep in S1, S2, S3, S4, S5, Hr; cbn [claimed_at written_at unl_at stream_at] in *.
  - (* a write without data: the file already ends where the request says *)
    rewrite (skipn_nth_cons _ _ _ En) in Hr. apply wrun_write in Hr. destruct Hr as [Hup Hr].
    rewrite Ed in Hup. simpl in Hup. change (N.of_nat 0) with 0 in Hup. rewrite N.add_0_r in Hup.
    exists old, tin, fc, fut, true, st. eapply cwit_intro; [reflexivity|..]; zproj; try assumption.
    + unfold stream. zproj. rewrite stream_batch_set_pos. cbn [stream_at]. now rewrite Hup.
    + side_triv. rewrite (firstn_S_nth _ _ _ En), Forall_app. split; [assumption|]. repeat constructor.
      rewrite Hup. apply N.le_refl.
  - eapply (cinv_quiet C Eb); [reflexivity..| |].
    + zproj. rewrite Ep. cbn [stream_at]. now rewrite (skipn_nth_none _ _ En).
    + rewrite (firstn_nth_none _ _ En) in S2. side_triv.
  - eapply (cinv_quiet C Eb); [reflexivity..|now rewrite Ep|]. side_triv. intros _. eapply files_short; eauto.
  - eapply (cinv_quiet C Eb); [reflexivity..|now rewrite Ep|]. side_triv; injection H as <-; eapply S3; eauto.
  - eapply (cinv_quiet C Eb); [reflexivity..|now rewrite Ep|side_triv].
  - eapply (cinv_quiet C Eb); [reflexivity..|now rewrite Ep|side_triv].
  - eapply (cinv_quiet C Eb); [reflexivity..| |side_triv].
    zproj. rewrite Ep. cbn [stream_at]. unfold nf_list. now rewrite Enf.
  - unfold nf_list in Hr. rewrite Enf in Hr. apply wrun_remove in Hr. destruct Hr as (-> & Hlt & Hr).
    exists old, tin, fc, fut, true, st. eapply cwit_intro; [reflexivity|..]; zproj; try assumption.
    + side_triv. rewrite app_nil_r in S4. rewrite Forall_app. now split.
  - eapply (cinv_quiet C Eb); [reflexivity..|now rewrite Ep|side_triv].
  - (* a write: the newest file grows to where the request says *)
    rewrite (skipn_nth_cons _ _ _ En) in Hr. apply wrun_write in Hr. destruct Hr as [Hup Hr].
    rewrite (newest_id _ _ _ _ c_files0 Enw). rewrite app_assoc in Hsd, c_contig0.
    set (fc' := mkFile (f_id fc) (f_data fc ++ ww_data ww) (f_synced fc)).
    assert (Hfe : fend fc' = ww_upto ww) by (clear - Hup; unfold fend, fc' in *; cbn [f_id f_data]; rewrite app_length; lia).
    exists old, tin, fc', fut, true, st. eapply cwit_intro; [reflexivity|..]; zproj; try assumption.
    + rewrite c_disk0, app_assoc, disk_append_mid by exact Hsd. now rewrite <- app_assoc.
    + rewrite !map_app in *. exact c_files0.
    + rewrite app_assoc. eapply contig_replace; [exact c_contig0|reflexivity|]. intros Hx. now elim Hx.
    + rewrite Hfe. exact Hr.
    + side_triv. rewrite (firstn_S_nth _ _ _ En), Forall_app. split.
      * eapply Forall_impl; [|exact S2]. cbn beta. intros a Ha. rewrite Hfe, <- Hup.
        eapply N.le_trans; [exact Ha|apply N.le_add_r].
      * repeat constructor. rewrite Hfe. apply N.le_refl.
  - (* the oldest tracked file is synced and no longer tracked *)
    destruct tin as [|tf tin']; rewrite Ef in c_files0; [discriminate|].
    simpl in c_files0. injection c_files0 as Hid Hrest. simpl in Hsd, c_contig0.
    set (tf' := mkFile (f_id tf) (f_data tf) (blen (f_data tf))).
    exists (old ++ [tf']), tin', fc, fut, fl, st. eapply cwit_intro; [reflexivity|..]; zproj; try assumption.
    + rewrite c_disk0, <- Hid. simpl. rewrite disk_sync_mid by exact Hsd. now rewrite <- app_assoc.
    + rewrite Forall_app. split; [assumption|]. repeat constructor.
    + rewrite <- app_assoc. simpl. eapply contig_replace; [exact c_contig0|reflexivity|reflexivity].
    + side_triv.
  - eapply (cinv_quiet C Eb); [reflexivity..|now rewrite Ep|side_triv].
  - eapply (cinv_quiet C Eb); [reflexivity..|now rewrite Ep|side_triv].
  - eapply (cinv_quiet C Eb); [reflexivity..|now rewrite Ep|side_triv].
  - (* the newest file is synced: the batch may report success *)
    assert (Ht : tin = []) by (apply S5; now right). subst tin. simpl in Hsd, c_contig0, c_files0, c_disk0.
    pose proof c_files0 as Hf0. rewrite Ef in Hf0. injection Hf0 as Hid Hrest.
    set (fc' := mkFile (f_id fc) (f_data fc) (blen (f_data fc))).
    exists old, [], fc', fut, fl, st. eapply cwit_intro; [reflexivity|..]; zproj; try assumption.
    + rewrite c_disk0, <- Hid. simpl. now rewrite disk_sync_mid by exact Hsd.
    + simpl. eapply contig_replace; [exact c_contig0|reflexivity|]. intros Hx. now elim Hx.
    + side_triv.
  - eapply (cinv_quiet C Eb); [reflexivity..|now rewrite Ep|]. side_triv; injection H as <-; eapply S3; eauto.
  - assert (Ht : tin = []) by (apply S1; [exact I|exact Esf]). subst tin.
    apply (cwit_unlink z _ b b id old fc fut fl st B L C Eb); try reflexivity; zproj;
      try (rewrite Ep; discriminate); [now rewrite Epp|now rewrite Ep].
  - destruct (unlink_phase _ _ _ L Eb Ep) as [Esf Epp]; [discriminate|].
    assert (Ht : tin = []) by (apply S1; [exact I|exact Esf]). subst tin.
    apply (cwit_unlink z _ b (mkBatch (b_writes b) (b_nf b) (BUnlink rest) (b_ok b)) id old fc fut fl st B L C Eb);
      try reflexivity; zproj; try discriminate; [now rewrite Epp, Ep|now rewrite Ep|exact Esf].
  - (* the worker starts to track the next file *)
    unfold nf_list in Hr. rewrite Enf in Hr.
    apply wrun_append_file in Hr. destruct Hr as (x & fv' & Efv & Hfo & Hlt & Hr).
    destruct fut as [|g fut']; [discriminate|]. injection Efv as Hgo Hgx Efv.
    exists old, (tin ++ [fc]), g, fut', false, st. eapply cwit_intro; [reflexivity|..]; zproj; try assumption.
    + rewrite c_disk0, <- app_assoc. reflexivity.
    + rewrite map_app, c_files0, map_app. simpl. now rewrite Hgo.
    + rewrite !app_assoc. apply contig_snoc; [rewrite <- app_assoc; exact c_contig0|]. congruence.
    + rewrite Hgo, Hgx, Efv. exact Hr.
    + side_triv. eapply Forall_impl; [|exact S4]. cbn beta. intros a Ha. clear - Ha Hfo Hgo. unfold fend in *. lia.
  - unfold nf_list in Hr. rewrite Enf in Hr. apply wrun_remove in Hr. destruct Hr as (-> & Hlt & Hr).
    exists old, tin, fc, fut, true, st. eapply cwit_intro; [reflexivity|..]; zproj; try assumption.
    + side_triv. rewrite !app_nil_r in *. rewrite Forall_app. now split.
  - exists old, tin, fc, fut, fl, st. constructor; zproj; try assumption; try discriminate.
    unfold single_phase. zproj. intros [].
Qed.

(* ------------------------------------------------------------------ durability at callback time *)
Lemma durable_above d U : Forall (fun g => U <= f_id g) d -> durable_upto d U.
Proof.
  induction 1 as [|g r Hg Hr IH]; simpl; [exact I|]. split; [lia|exact IH].
Qed.

Lemma durable_shape old fc fut U :
  Forall full_synced old -> contig (old ++ [fc]) -> full_synced fc -> U <= fend fc ->
  Forall (fun g => fend fc <= f_id g) fut -> durable_upto (old ++ fc :: fut) U.
Proof.
  intros Ho Hc Hfc HU Hfut. induction old as [|f old IH]; simpl.
  - split.
    + intros _. unfold full_synced, fend in *. rewrite Hfc. destruct fut; lia.
    + apply durable_above. eapply Forall_impl; [|exact Hfut]. simpl. intros; lia.
  - inversion Ho; subst. simpl in Hc. destruct Hc as [Hc1 Hc2]. split; [|now apply IH].
    intros _. unfold full_synced, fend in *.
    destruct old as [|g old']; simpl in *; lia.
Qed.

Lemma callback_durable z b i ww :
  binv z -> cinv z -> w_batch (z_w z) = Some b -> b_pos b = BCallbacks i -> b_ok b = true ->
  nth_error (b_writes b) i = Some ww -> durable_upto (z_disk z) (ww_upto ww).
Proof.
  intros B (old & tin & fc & fut & fl & st & C) Eb Ep Hok En. destruct C.
  destruct (c_ok0 b i Eb Ep Hok) as [Hsf Hfs].
  assert (Ht : tin = []).
  { apply c_single0; [|exact Hsf]. unfold claimed. now rewrite Eb, Ep. }
  subst tin. simpl in *.
  unfold written in c_written0. rewrite Eb, Ep in c_written0.
  rewrite Forall_forall in c_written0. pose proof (c_written0 _ (nth_error_In _ _ En)) as HU.
  rewrite c_disk0. apply durable_shape; try assumption.
  pose proof (b_sorted _ B) as Hsd. rewrite c_disk0 in Hsd.
  apply fsorted_app_inv in Hsd. destruct Hsd as (_ & Hsd & _).
  inversion Hsd as [|x l Hs2 Hf2]; subst.
  destruct fut as [|g fut']; [constructor|].
  assert (Hg : fend fc <= f_id g).
  { apply (wrun_first_fut _ _ _ c_run0 c_fut0 (f_id g) (fend g) (map fview fut')). reflexivity. }
  constructor; [exact Hg|].
  inversion Hs2 as [|x l Hs3 Hf3]; subst.
  eapply Forall_impl; [|exact Hf3]. unfold file_lt. simpl. intros; lia.
Qed.

(* ------------------------------------------------------------------ a callback id names one flush *)
Definition ufun (z : sys2) : Prop :=
  forall c U n U' n', In (Some c, U, n) (g_flushed (z_ghost z)) ->
                      In (Some c, U', n') (g_flushed (z_ghost z)) -> U = U'.

Lemma zstep_flushed z e z' v : zstep z e = Some (z', v) ->
  g_flushed (z_ghost z') = g_flushed (z_ghost z) \/
  exists cb n, g_flushed (z_ghost z') =
    g_flushed (z_ghost z) ++ [(if cb : bool then Some (k_next_cb (z_core z)) else None,
                               ck_end (k_open (z_core z)), n)].
Proof.
  intros H. destruct e as [o| |k nf|ok|]; simpl in H.
  - apply zcall_inv in H. destruct H as (_ & _ & []); auto. right. exists cb. eexists. reflexivity.
  - apply zeff_inv in H. destruct H; now left.
  - destruct (zrecv_frame _ _ _ _ _ H) as (_ & Hg & _). left. now rewrite Hg.
  - destruct (zwork_frame _ _ _ _ H) as (_ & Hg & _). left. now rewrite Hg.
  - apply zdrop_inv in H. destruct H as (_ & _ & ->). now left.
Qed.

Lemma ufun_step z e z' v : binv z -> ufun z -> zstep z e = Some (z', v) -> ufun z'.
Proof.
  intros B U H. unfold ufun in *. destruct (zstep_flushed _ _ _ _ H) as [E|(cb & n0 & E)]; rewrite E.
  - exact U.
  - pose proof (b_fcb _ B) as Hf. rewrite Forall_forall in Hf.
    intros c U1 n U2 n' H1 H2. apply in_app_or in H1. apply in_app_or in H2.
    destruct H1 as [H1|[H1|[]]]; destruct H2 as [H2|[H2|[]]].
    + eapply U; eauto.
    + destruct cb; [|discriminate]. injection H2 as Hc _ _. subst c.
      specialize (Hf _ H1). unfold cb_below in Hf. simpl in Hf. lia.
    + destruct cb; [|discriminate]. injection H1 as Hc _ _. subst c.
      specialize (Hf _ H2). unfold cb_below in Hf. simpl in Hf. lia.
    + congruence.
Qed.

Lemma zwork_disk z ok z' v : linv z -> zwork z ok = Some (z', v) ->
  z_disk z' = z_disk z \/
  (exists id data, z_disk z' = disk_append id data (z_disk z)) \/
  (exists id, z_disk z' = disk_sync id (z_disk z)) \/
  (exists id, z_disk z' = disk_remove id (z_disk z) /\ Forall (fun f => id <= f_id f) (z_disk z)).
Proof.
  intros L H. apply zwork_inv in H. destruct H as (b & _ & Eb & W).
  destruct W as [| | | | | | | |id rest Ep Esf Epp|id rest Ep| | |]; simpl; eauto 7;
    right; right; right; exists id; (split; [reflexivity|]); (eapply head_of_L; [exact L|]); unfold remL.
  - now rewrite (remW_eq _ _ Eb), Epp.
  - destruct (unlink_phase _ _ _ L Eb Ep) as [_ Hp0]; [discriminate|]. now rewrite (remW_eq _ _ Eb), Hp0, Ep.
Qed.

Lemma zwork_acks z ok z' v : zwork z ok = Some (z', v) ->
  z_acks z' = z_acks z \/
  exists b i ww c, w_batch (z_w z) = Some b /\ b_pos b = BCallbacks i /\
                   nth_error (b_writes b) i = Some ww /\ ww_cb ww = Some c /\
                   z_acks z' = z_acks z ++ [(c, b_ok b)] /\ z_disk z' = z_disk z.
Proof.
  intros H. apply zwork_inv in H. destruct H as (b & _ & Eb & W).
  destruct W; simpl; auto. right. exists b, i, ww, c. auto 10.
Qed.

(* ------------------------------------------------------------------ the combined invariant *)
Record full (z : sys2) : Prop := {
  f_b : binv z;
  f_p : pend_ok z;
  f_f : finv z;
  f_u : ufun z;
  f_k : acked_durable z;
  f_a : w_alive (z_w z) = true -> linv z /\ cinv z }.

Lemma zcall_frame z o z' v : zcall z o = Some (z', v) -> z_disk z' = z_disk z /\ z_acks z' = z_acks z.
Proof. intros H. apply zcall_inv in H. destruct H as (_ & _ & []); auto. Qed.

Lemma zwork_alive z ok z' v : zwork z ok = Some (z', v) -> w_alive (z_w z) = true.
Proof. intros H. apply zwork_inv in H. now destruct H as (b & Ha & _). Qed.

Lemma acks_below z c ok : pend_ok z -> In (c, ok) (z_acks z) -> c < k_next_cb (z_core z).
Proof.
  intros [_ Hf] Hin. rewrite Forall_forall in Hf. apply Hf. unfold pend.
  apply in_or_app. left. apply in_map_iff. exists (c, ok). auto.
Qed.

Lemma kstep z e z' v : full z -> zstep z e = Some (z', v) -> acked_durable z'.
Proof.
  intros [B P F U K A] H. unfold acked_durable in *.
  pose proof (zstep_flushed _ _ _ _ H) as Hfl.
  destruct e as [o| |k nf|ok|]; simpl in H.
  - destruct (zcall_frame _ _ _ _ H) as [Ed Ea]. rewrite Ed, Ea.
    intros c U0 n Hin Hack. destruct Hfl as [E|(cb & n0 & E)]; rewrite E in Hin.
    + eapply K; eauto.
    + apply in_app_or in Hin. destruct Hin as [Hin|[Hin|[]]]; [eapply K; eauto|].
      destruct cb; [|discriminate]. injection Hin as Hc _ _. subst c.
      pose proof (acks_below _ _ _ P Hack). lia.
  - apply zeff_inv in H. destruct H as [id t Et|id h t Et|r t Et]; simpl; intros c U0 n Hin Hack.
    + (* a file created lies behind every flushed offset *)
      assert (Hlt : ids_lt (z_disk z) id).
      { unfold ids_lt. rewrite Forall_forall. intros f Hf. apply (b_dlt _ B f id Hf). rewrite Et. now left. }
      rewrite disk_put_end by exact Hlt. apply durable_snoc; [|eapply K; eauto].
      simpl. apply (b_usc _ B U0 id).
      * unfold flushed_us. apply in_map_iff. exists (Some c, U0, n). auto.
      * rewrite Et. now left.
    + apply durable_append; [apply (b_sorted _ B)|eapply K; eauto].
    + eapply K; eauto.
  - destruct (zrecv_frame _ _ _ _ _ H) as (_ & Hg & _ & Hd & Ha). rewrite Hg, Hd, Ha. exact K.
  -     destruct (zwork_frame _ _ _ _ H) as (_ & Hg & _). rewrite Hg.
    destruct (A (zwork_alive _ _ _ _ H)) as [L C].
    destruct (zwork_acks _ _ _ _ H) as [Ea|(b & i & ww & c0 & Eb & Ep & En & Ec & Ea & Ed)].
    + rewrite Ea. intros c U0 n Hin Hack. specialize (K c U0 n Hin Hack).
      destruct (zwork_disk _ _ _ _ L H) as [E|[(id & data & E)|[(id & E)|(id & E & Hle)]]]; rewrite E.
      * exact K.
      * apply durable_append; [apply (b_sorted _ B)|exact K].
      * apply durable_sync; [apply (b_sorted _ B)|apply (b_synced _ B)|exact K].
      * apply durable_remove_first; [apply (b_sorted _ B)|exact Hle|exact K].
    + rewrite Ea, Ed. intros c U0 n Hin Hack. apply in_app_or in Hack.
      destruct Hack as [Hack|[Hack|[]]]; [eapply K; eauto|].
      injection Hack as Hc Hok. subst c0.
      assert (Hfl2 : In (c, ww_upto ww) (inflight z)).
      { unfold inflight, batch_writes. rewrite Eb. apply in_or_app. left.
        apply in_flat_map. exists ww. split; [eapply nth_error_In; eauto|].
        unfold cbu_of_ww. rewrite Ec. now left. }
      destruct (F _ _ Hfl2) as (n' & Hn').
      rewrite (U _ _ _ _ _ Hin Hn').
      eapply callback_durable; eauto.
  - apply zdrop_inv in H. destruct H as (_ & _ & ->). exact K.
Qed.

Lemma full_fresh y old fc : fresh synced_le y old fc -> Forall full_synced old -> full (sys2_of y).
Proof.
  intros O Hold. constructor.
  - eapply binv_fresh; eauto.
  - unfold pend_ok, pend, batch_cbs. simpl. rewrite (fr_queue _ _ _ _ O), (fr_acks _ _ _ _ O). split; constructor.
  - unfold finv, inflight, batch_writes. simpl. rewrite (fr_queue _ _ _ _ O). intros c u [].
  - intros c U n U' n' [].
  - intros c U n [].
  - intros _. split; [eapply linv_fresh; eauto|eapply cinv_fresh; eauto].
Qed.

Lemma full_init cfg : full (zstart cfg).
Proof.
  destruct (opens_fresh_nil synced_le full_synced cfg synced_le_zero _ eq_refl) as (old & fc & O & Hf).
  exact (full_fresh _ old fc O Hf).
Qed.

Lemma full_step z e z' v : full z -> zstep z e = Some (z', v) -> full z'.
Proof.
  intros Fz H. pose proof (kstep _ _ _ _ Fz H) as K'. destruct Fz as [B P F U K A].
  constructor.
  - eapply binv_step; eauto.
  - eapply pend_ok_step; eauto.
  - eapply finv_step; eauto.
  - eapply ufun_step; eauto.
  - exact K'.
  - intros Hal. destruct (A (alive_back _ _ _ _ H Hal)) as [L C].
    split; [eapply linv_step; eauto|].
    destruct e as [o| |k nf|ok|]; simpl in H.
    + eapply cinv_call; eauto.
    + eapply cinv_eff; eauto.
    + apply zrecv_inv in H. eapply cinv_recv; [exact C|apply H].
    + eapply cinv_work; eauto.
    + apply zdrop_inv in H. destruct H as (Et & _ & ->).
      destruct C as (old & tin & fc & fut & fl & st & C). exists old, tin, fc, fut, fl, st.
      apply (cwit_frame z); auto. unfold stream. simpl. now rewrite Et.
Qed.

Lemma creates_sends q : creates (map XSend q) = [].
Proof. induction q as [|r q IH]; [reflexivity|exact IH]. Qed.

Lemma wstep1_fut_ids s a s1 : wstep1 s a = Some s1 ->
  incl (map fst (s_fut s1)) (map fst (s_fut s) ++ creates [a]).
Proof.
  destruct a as [id|id h|r]; [simpl..|intros E; apply wstep1_send in E].
  - intros [= <-]. simpl. rewrite map_app. apply incl_refl.
  - destruct (upd_last id (blen h) (s_fut s)) as [fv|] eqn:Eu; [|discriminate]. intros [= <-].
    destruct (upd_last_spec _ _ _ _ Eu) as (fv' & x & -> & ->). simpl. rewrite !map_app, app_nil_r. apply incl_refl.
  - apply incl_appl. destruct (send_step_fut _ _ _ E) as [(-> & _)|(x & -> & _)]; [apply incl_refl|apply incl_tl, incl_refl].
Qed.

Lemma wrun_heads l : forall s s', wrun s l = Some s' ->
  forall id h, In (XWriteHead id h) l -> In id (map fst (s_fut s) ++ creates l).
Proof.
  induction l as [|a l IH]; intros s s' H id h Hin; [destruct Hin|].
  simpl in H. destruct (wstep1 s a) as [s1|] eqn:E; [|discriminate].
  replace (creates (a :: l)) with (creates [a] ++ creates l) by (unfold creates; simpl; now rewrite app_nil_r).
  rewrite app_assoc. destruct Hin as [->|Hin].
  - simpl in E. destruct (upd_last id (blen h) (s_fut s)) as [fv|] eqn:Eu; [|discriminate].
    destruct (upd_last_spec _ _ _ _ Eu) as (fv' & x & -> & _). rewrite map_app, !in_app_iff. simpl. tauto.
  - specialize (IH _ _ H _ _ Hin). apply in_app_or in IH. apply in_or_app. destruct IH as [IH|IH]; [left|now right].
    now apply (wstep1_fut_ids _ _ _ E).
Qed.

Lemma tracked_below_todo z : full z -> w_alive (z_w z) = true ->
  forall i, In i (map wf_id (w_files (z_w z))) \/ In i (w_postponed (z_w z)) \/ In i (unl (z_w z)) ->
  forall x, In x (z_todo z) ->
  match x with XCreate id | XWriteHead id _ => i < id | XSend _ => True end.
Proof.
  intros [B _ _ _ _ A] Hal i Hi x Hx. destruct (A Hal) as [_ (old & tin & fc & fut & fl & st & C)]. destruct C.
  pose proof (b_sorted _ B) as S. rewrite c_disk0, app_assoc in S.
  apply fsorted_app_inv in S. destruct S as (_ & S2 & S3). apply StronglySorted_inv in S2. destruct S2 as [_ S2].
  assert (Hfc : In fc (z_disk z)) by (rewrite c_disk0, app_assoc; apply in_elt).
  assert (Hle : i <= f_id fc).
  { destruct Hi as [Hi|Hi].
    - rewrite <- c_files0, map_app in Hi. apply in_app_or in Hi. destruct Hi as [Hi|[<-|[]]]; [|apply N.le_refl].
      apply in_map_iff in Hi. destruct Hi as (g & <- & Hg).
      apply N.lt_le_incl, S3; [apply in_or_app; now right|now left].
    - rewrite Forall_forall in c_rem0. apply N.lt_le_incl, c_rem0. rewrite in_app_iff. tauto. }
  assert (Hcr : forall c, In c (creates (z_todo z)) -> i < c).
  { intros c Hc. eapply N.le_lt_trans; [exact Hle|]. now apply (b_dlt _ B fc c). }
  destruct x as [id|id h|r]; [| |exact I].
  - apply Hcr. unfold creates. apply in_flat_map. exists (XCreate id). split; [exact Hx|now left].
  - pose proof (wrun_heads _ _ _ c_run0 id h) as Hh. cbn [s_fut] in Hh.
    apply in_app_or in Hh; [|unfold stream; apply in_or_app; now right]. destruct Hh as [Hh|Hh].
    + rewrite map_map in Hh. apply in_map_iff in Hh. destruct Hh as (g & <- & Hg).
      eapply N.le_lt_trans; [exact Hle|]. rewrite Forall_forall in S2. apply (S2 g Hg).
    + apply Hcr. unfold stream, creates in *. rewrite flat_map_app in Hh. apply in_app_or in Hh.
      destruct Hh as [Hh|Hh]; [|exact Hh]. fold (creates (map XSend (stream_batch (z_w z) ++ z_queue z))) in Hh.
      rewrite creates_sends in Hh. destruct Hh.
Qed.

Lemma full_reach cfg d z : opens_fresh synced_le full_synced cfg d -> reach cfg d z -> full z.
Proof.
  intros Hd. revert z. apply (reach_ind full).
  - intros y Ho. destruct (Hd y Ho) as (old & fc & O & Hf). exact (full_fresh y old fc O Hf).
  - apply full_step.
Qed.

Lemma zreach_full cfg z : zreach cfg z -> full z.
Proof. exact (full_reach cfg [] z (opens_fresh_nil _ _ cfg synced_le_zero)). Qed.

Theorem C04_ack_after_sync : forall cfg z, zreach cfg z -> acked_durable z.
Proof. intros cfg z H. exact (f_k z (zreach_full cfg z H)). Qed.

(* the written part: a present file holds every byte that its synced prefix covers *)
Corollary C04_ack_written : forall cfg z, zreach cfg z ->
  acked_durable z /\ Forall (fun f => (f_synced f <= N.of_nat (length (f_data f)))%N) (z_disk z).
Proof. intros cfg z H. split; [eapply C04_ack_after_sync|eapply C04_synced_le_written]; eauto. Qed.

Print Assumptions C04_ack_after_sync.

(* the theorem is not vacuous: a successful acknowledgement is reachable *)
Definition demo_cfg : config := mkConfig 10 1000 10 1000 false.
Definition demo_events : list zev :=
  [ZCall (OW (OVote (1, 2))); ZCall (OFlush true); ZEff; ZRecv 0 false;
   ZWork true; ZWork true; ZWork true; ZWork true; ZWork true; ZWork true].

Example ack_reachable :
  exists z, zreach demo_cfg z /\ In (0, true) (z_acks z) /\
            exists U n, In (Some 0, U, n) (g_flushed (z_ghost z)) /\ 0 < U.
Proof.
  destruct (zrun (zstart demo_cfg) demo_events) as [[z vis]|] eqn:E; [|vm_compute in E; discriminate].
  exists z. split.
  - exists (zstart demo_cfg), demo_events, vis. split; [apply zinit_eq|exact E].
  - vm_compute in E. inversion E; subst; clear E. split; [now left|].
    eexists _, _. split; [now left|]. reflexivity.
Qed.
