(* What the Dump API (Model/Dump.v: [dump_file], [dump_ref] = RaftLog::dump(), [dump_dir] = the standalone
   Dump) returns. Part A, any file: records, then at most one error item (none for complete records, one
   UnexpectedEof for a torn tail, UnexpectedEof / InvalidData for a zero tail). Part B, the journal (C11): in a
   flushed and idle state reachable from an empty directory both dumpers list exactly the records of the
   journal; without the flush the standalone Dump also lists the chunk files that a purge has retired and the
   next flush has not yet handed to the worker ([k_removed]). Item offsets are FILE-LOCAL (see Model/Dump.v). *)
From Coq Require Import List NArith Lia Arith Sorting.Sorted.
From Coq.Strings Require Import Byte.
From RaftLog Require Import Base.Bytes Model.Types Model.Codec Model.Core Model.Recover Model.Run Model.Dump.
From RaftLog Require Proofs.ScanFacts.
From RaftLog Require Import Proofs.CodecFacts Proofs.JournalDisk Proofs.JournalChunk Proofs.JournalFacts.
Import ListNotations.
Local Open Scope N_scope.

(* [encs rs] below is JournalChunk.encs rs = concat (map enc_record rs); ScanFacts.encs
   has the same body *)
Lemma encs_scan rs : ScanFacts.encs rs = encs rs.
Proof. reflexivity. Qed.

(* ================================================================== Part A: one file *)
Fixpoint recs_items (id : N) (i : nat) (pos : N) (rs : list record) : list ditem :=
  match rs with
  | [] => []
  | r :: tl => DRec id i pos (rec_size r) r :: recs_items id (S i) (pos + rec_size r) tl
  end.

Lemma dump_items_sized id rs : forall i pos,
  dump_items id i pos (ScanFacts.sized rs) = recs_items id i pos rs.
Proof.
  induction rs as [|r rs IH]; intros i pos; [reflexivity|].
  cbn [ScanFacts.sized map dump_items recs_items]. f_equal. apply IH.
Qed.

Lemma recs_items_length id rs : forall i pos, length (recs_items id i pos rs) = length rs.
Proof.
  induction rs as [|r rs IH]; intros i pos; [reflexivity|].
  cbn [recs_items length]. f_equal. apply IH.
Qed.

Lemma recs_items_app id a : forall b i pos,
  recs_items id i pos (a ++ b) =
  recs_items id i pos a ++ recs_items id (i + length a) (pos + blen (encs a)) b.
Proof.
  induction a as [|r a IH]; intros b i pos.
  - cbn [app recs_items length]. rewrite Nat.add_0_r.
    change (encs []) with (@nil byte). rewrite blen_nil, N.add_0_r. reflexivity.
  - cbn [app recs_items length]. f_equal. rewrite IH. f_equal.
    rewrite encs_cons, blen_app, <- rec_size_blen.
    replace (S i + length a)%nat with (i + S (length a))%nat by lia.
    f_equal. lia.
Qed.

Lemma recs_items_nth id rs : forall j i pos r, nth_error rs j = Some r ->
  nth_error (recs_items id i pos rs) j =
  Some (DRec id (i + j) (pos + blen (encs (firstn j rs))) (rec_size r) r).
Proof.
  induction rs as [|r0 rs IH]; intros j i pos r H.
  - destruct j; discriminate.
  - destruct j as [|j].
    + cbn [nth_error] in H. inversion H; subst r0. cbn [recs_items nth_error firstn].
      change (encs []) with (@nil byte). rewrite blen_nil, N.add_0_r, Nat.add_0_r. reflexivity.
    + cbn [nth_error] in H. cbn [recs_items nth_error firstn]. rewrite (IH j _ _ r H).
      rewrite encs_cons, blen_app, <- rec_size_blen.
      replace (S i + j)%nat with (i + S j)%nat by lia.
      do 2 f_equal. lia.
Qed.

Lemma dump_records_app a b : dump_records (a ++ b) = dump_records a ++ dump_records b.
Proof.
  induction a as [|x a IH]; [reflexivity|].
  destruct x; cbn [app dump_records]; rewrite IH; reflexivity.
Qed.

Lemma recs_items_records id rs : forall i pos, dump_records (recs_items id i pos rs) = rs.
Proof.
  induction rs as [|r rs IH]; intros i pos; [reflexivity|].
  cbn [recs_items dump_records]. f_equal. apply IH.
Qed.

Lemma recs_items_no_err id rs : forall i pos,
  Forall (fun it => ditem_is_err it = false) (recs_items id i pos rs).
Proof.
  induction rs as [|r rs IH]; intros i pos; constructor; [reflexivity|apply IH].
Qed.

Lemma recs_items_ids id rs : forall i pos,
  Forall (fun it => ditem_id it = id) (recs_items id i pos rs).
Proof.
  induction rs as [|r rs IH]; intros i pos; constructor; [reflexivity|apply IH].
Qed.

Lemma recs_items_indices id rs : forall i pos,
  map ditem_index (recs_items id i pos rs) = seq i (length rs).
Proof.
  induction rs as [|r rs IH]; intros i pos; [reflexivity|].
  cbn [recs_items map length seq ditem_index]. f_equal. apply IH.
Qed.

Lemma recs_items_ends id rs : forall i pos,
  map ditem_end (recs_items id i pos rs) = map Some (ends_from (id + pos) (map rec_size rs)).
Proof.
  induction rs as [|r rs IH]; intros i pos; [reflexivity|].
  cbn [recs_items map ends_from ditem_end]. f_equal.
  rewrite IH. do 2 f_equal. lia.
Qed.

Lemma dump_file_stops id rs tl e : Forall wf_record rs -> ScanFacts.stops tl e ->
  dump_file id (encs rs ++ tl) = recs_items id 0 0 rs ++ dump_end id (length rs) e.
Proof.
  intros W S. unfold dump_file. rewrite <- encs_scan, (ScanFacts.scan_file_stops rs tl e W S).
  rewrite ScanFacts.sized_length, dump_items_sized. reflexivity.
Qed.

Theorem dump_file_encs : forall id rs, Forall wf_record rs ->
  dump_file id (encs rs) = recs_items id 0 0 rs.
Proof.
  intros id rs H. rewrite <- (app_nil_r (encs rs)), (dump_file_stops id rs [] SEnd H eq_refl).
  apply app_nil_r.
Qed.

Corollary dump_file_encs_nth : forall id rs j r, Forall wf_record rs ->
  nth_error rs j = Some r ->
  nth_error (dump_file id (encs rs)) j =
  Some (DRec id j (blen (encs (firstn j rs))) (rec_size r) r).
Proof.
  intros id rs j r H Hj. rewrite (dump_file_encs id rs H), (recs_items_nth id rs j 0 0 r Hj).
  rewrite N.add_0_l. reflexivity.
Qed.

Corollary dump_file_encs_length : forall id rs, Forall wf_record rs ->
  length (dump_file id (encs rs)) = length rs.
Proof. intros id rs H. rewrite (dump_file_encs id rs H). apply recs_items_length. Qed.

Theorem dump_file_torn : forall id rs r tl,
  Forall wf_record rs -> wf_record r -> pprefix tl (enc_record r) -> tl <> [] ->
  dump_file id (encs rs ++ tl) = recs_items id 0 0 rs ++ [DErr id (length rs) SEof].
Proof.
  intros id rs r tl H Hr Hp Hne.
  exact (dump_file_stops id rs tl SEof H (conj Hne (dec_record_prefix_eof r tl Hr Hp))).
Qed.

(* a zero tail (preallocated or zero-filled blocks after a crash) *)
Theorem dump_file_zero_tail_short : forall id rs z,
  Forall wf_record rs -> (1 <= z)%nat -> (z < 28)%nat ->
  dump_file id (encs rs ++ zeros z) = recs_items id 0 0 rs ++ [DErr id (length rs) SEof].
Proof.
  intros id rs z H H1 H2. apply (dump_file_stops id rs _ SEof H).
  exact (conj (ScanFacts.zeros_nonempty z H1) (ScanFacts.dec_record_zeros_short z H2)).
Qed.

Theorem dump_file_zero_tail_long : forall id rs z,
  Forall wf_record rs -> (28 <= z)%nat ->
  dump_file id (encs rs ++ zeros z) = recs_items id 0 0 rs ++ [DErr id (length rs) SInvalid].
Proof.
  intros id rs z H H1. apply (dump_file_stops id rs _ SInvalid H).
  exact (conj (ScanFacts.zeros_nonempty z ltac:(lia)) (ScanFacts.dec_record_zeros_long z H1)).
Qed.

(* the last conjunct is [ScanFacts.stops rest e], written out *)
Theorem dump_file_shape : forall id data, exists rs rest e,
  data = encs rs ++ rest /\ Forall wf_record rs /\
  dump_file id data = recs_items id 0 0 rs ++ dump_end id (length rs) e /\
  match e with
  | SEnd => rest = []
  | SEof => rest <> [] /\ dec_record rest = DEof
  | SInvalid => rest <> [] /\ dec_record rest = DInvalid
  | SFuel => False
  end.
Proof.
  intros id data. destruct (scan_file data) as [[recs rest] e] eqn:E.
  destruct (ScanFacts.scan_file_inv _ _ _ _ E) as (rs & _ & -> & W & S).
  exists rs, rest, e. split; [reflexivity|]. split; [exact W|]. split; [|exact S].
  now apply dump_file_stops.
Qed.

Corollary dump_file_err_last : forall id data pre it post,
  dump_file id data = pre ++ it :: post -> ditem_is_err it = true -> post = [].
Proof.
  intros id data pre it post H He.
  destruct (dump_file_shape id data) as (rs & rest & e & _ & _ & E & _).
  rewrite E in H. clear E.
  assert (A : forall l1 l2 : list ditem, Forall (fun x => ditem_is_err x = false) l1 ->
            (length l2 <= 1)%nat -> l1 ++ l2 = pre ++ it :: post -> post = []).
  { clear - He. intros l1. revert pre. induction l1 as [|x l1 IH]; intros pre l2 F L H.
    - cbn [app] in H. subst l2. rewrite app_length in L. cbn [length] in L.
      destruct post; [reflexivity|cbn [length] in L; lia].
    - inversion F as [|? ? Fx Fl]; subst. destruct pre as [|p pre].
      + cbn [app] in H. inversion H; subst. congruence.
      + cbn [app] in H. inversion H; subst. apply (IH pre l2 Fl L H2). }
  assert (L : (length (dump_end id (length rs) e) <= 1)%nat) by (destruct e; cbn; lia).
  apply (A _ _ (recs_items_no_err id rs 0%nat 0) L H).
Qed.

(* ================================================================== Part B: the directory *)
(* what both dumpers list for the file [id] of [d]; a missing file reads as empty ([file_bytes] is
   [Model/Dump.dump_data]) *)
Definition gdump (d : disk) (id : N) : list ditem := dump_file id (file_bytes d id).

Lemma dump_ref_ids_eq k : dump_ref_ids k = closed_ids k ++ [ck_id (k_open k)].
Proof. reflexivity. Qed.

Lemma dump_ref_ids_live k : dump_ref_ids k = map ck_id (live_chunks k).
Proof.
  unfold dump_ref_ids, live_chunks. rewrite map_app, map_map. reflexivity.
Qed.

Lemma dump_ref_eq k d : dump_ref k d = flat_map (gdump d) (dump_ref_ids k).
Proof. reflexivity. Qed.

Lemma dump_dir_ids d : dsorted d -> dump_dir d = flat_map (gdump d) (ids d).
Proof.
  intros S. unfold dump_dir, ids. rewrite flat_map_concat_map, flat_map_concat_map, map_map.
  f_equal. apply map_ext_in. intros f I. unfold gdump, file_bytes.
  rewrite (In_disk_get d f S I). reflexivity.
Qed.

Lemma dump_ref_openable_iff k d :
  dump_ref_openable k d = true <-> incl (dump_ref_ids k) (ids d).
Proof.
  unfold dump_ref_openable. rewrite forallb_forall. split.
  - intros H j I. specialize (H j I).
    destruct (disk_get j d) as [f|] eqn:E; [|discriminate].
    pose proof (disk_get_In _ _ _ E) as If. apply disk_get_id in E. subst j.
    apply in_map. exact If.
  - intros H j I. destruct (disk_get_Some_In j d (H j I)) as [f E]. rewrite E. reflexivity.
Qed.

Lemma mem_cons_ne j a l : j <> a -> mem j (a :: l) = mem j l.
Proof.
  intros H. unfold mem. cbn [existsb]. destruct (N.eqb_spec j a); [contradiction|reflexivity].
Qed.

Lemma filter_mem_sorted : forall D l, StronglySorted N.lt D -> StronglySorted N.lt l ->
  incl l D -> filter (fun j => mem j l) D = l.
Proof.
  induction D as [|a D IH]; intros l SD Sl I.
  - destruct l as [|b l]; [reflexivity|]. destruct (I b (or_introl eq_refl)).
  - apply ss_inv in SD as [SD FD]. rewrite Forall_forall in FD.
    destruct l as [|b l].
    + cbn [filter]. change (mem a []) with false. apply (IH [] SD Sl). intros x [].
    + pose proof (ss_inv _ _ Sl) as [Sl' Fb]. rewrite Forall_forall in Fb.
      destruct (N.eq_dec a b) as [E|E].
      * subst b. cbn [filter].
        assert (Ha : mem a (a :: l) = true) by (apply mem_In; left; reflexivity).
        rewrite Ha. f_equal.
        assert (Il : incl l D).
        { intros x Ix. destruct (I x (or_intror Ix)) as [Ex|Ex]; [|exact Ex].
          subst x. specialize (Fb a Ix). lia. }
        transitivity (filter (fun j => mem j l) D); [|apply (IH l SD Sl' Il)].
        apply filter_ext_in.
        intros j Ij. apply mem_cons_ne. specialize (FD j Ij). lia.
      * assert (Ib : In b D).
        { destruct (I b (or_introl eq_refl)) as [Ex|Ex]; [congruence|exact Ex]. }
        assert (Hab : a < b) by (apply FD, Ib).
        assert (Ha : mem a (b :: l) = false).
        { apply mem_false. intros [Ex|Ex]; [congruence|]. specialize (Fb a Ex). lia. }
        cbn [filter]. rewrite Ha. apply (IH (b :: l) SD Sl).
        intros x Ix. destruct (I x Ix) as [Ex|Ex]; [|exact Ex].
        subst x. destruct Ix as [Ex|Ex]; [congruence|]. specialize (Fb a Ex). lia.
Qed.

Lemma ids_filter (p : N -> bool) d : ids (filter (fun f => p (f_id f)) d) = filter p (ids d).
Proof.
  unfold ids. induction d as [|f d IH]; [reflexivity|].
  cbn [filter map]. destruct (p (f_id f)); cbn [map]; rewrite IH; reflexivity.
Qed.

Lemma dump_dir_restrict d l : dsorted d -> StronglySorted N.lt l -> incl l (ids d) ->
  flat_map (gdump d) l = dump_dir (filter (fun f => mem (f_id f) l) d).
Proof.
  intros S Sl I.
  rewrite <- (filter_mem_sorted (ids d) l S Sl I) at 1.
  rewrite <- (ids_filter (fun j => mem j l) d).
  unfold dump_dir, ids. rewrite flat_map_concat_map, flat_map_concat_map, map_map.
  f_equal. apply map_ext_in. intros f If. apply filter_In in If as [If _].
  unfold gdump, file_bytes. rewrite (In_disk_get d f S If). reflexivity.
Qed.

(* [rs] are the records of chunk [c] in the directory whose file contents are [fb]
   (JournalChunk.chunk_ok with the record list exposed) *)
Definition chunk_records (fb : N -> bytes) (c : chunk) (rs : list record) : Prop :=
  Forall wf_record rs /\ fb (ck_id c) = encs rs /\
  ck_ends c = ends_from (ck_id c) (map rec_size rs) /\ exists st tl, rs = RState st :: tl.

Definition journal_items (cs : list chunk) (rss : list (list record)) : list ditem :=
  flat_map (fun p => recs_items (ck_id (fst p)) 0 0 (snd p)) (combine cs rss).

Lemma chunk_ok_records fb cs : Forall (chunk_ok fb) cs ->
  exists rss, Forall2 (chunk_records fb) cs rss.
Proof.
  intros H. induction H as [|c cs Hc Hcs [rss IH]].
  - exists []. constructor.
  - destruct Hc as (rs & H1 & H2 & H3 & H4). exists (rs :: rss).
    constructor; [|exact IH]. repeat split; assumption.
Qed.

Lemma chunk_records_unique fb c rs rs' :
  chunk_records fb c rs -> chunk_records fb c rs' -> rs = rs'.
Proof.
  intros (W & E & _) (W' & E' & _). rewrite E in E'.
  pose proof (ScanFacts.scan_encs rs W) as S. pose proof (ScanFacts.scan_encs rs' W') as S'.
  rewrite encs_scan in S, S'. rewrite E' in S. rewrite S in S'. inversion S' as [H].
  rewrite <- (ScanFacts.sized_fst rs), <- (ScanFacts.sized_fst rs'), H. reflexivity.
Qed.

Lemma dump_chunks fb cs rss : Forall2 (chunk_records fb) cs rss ->
  flat_map (fun id => dump_file id (fb id)) (map ck_id cs) = journal_items cs rss.
Proof.
  intros H. unfold journal_items. induction H as [|c rs cs rss (W & E & _) H IH]; [reflexivity|].
  cbn [map flat_map combine fst snd]. rewrite IH, E, (dump_file_encs _ rs W). reflexivity.
Qed.

Lemma journal_items_records cs : forall rss, length cs = length rss ->
  dump_records (journal_items cs rss) = concat rss.
Proof.
  unfold journal_items. induction cs as [|c cs IH]; intros rss L.
  - destruct rss; [reflexivity|discriminate].
  - destruct rss as [|rs rss]; [discriminate|]. cbn [combine flat_map concat fst snd].
    rewrite dump_records_app, recs_items_records, IH; [reflexivity|].
    cbn [length] in L. lia.
Qed.

Lemma journal_items_no_err cs : forall rss,
  Forall (fun it => ditem_is_err it = false) (journal_items cs rss).
Proof.
  unfold journal_items. induction cs as [|c cs IH]; intros rss; [constructor|].
  destruct rss as [|rs rss]; [constructor|]. cbn [combine flat_map fst snd].
  apply Forall_app. split; [apply recs_items_no_err|apply IH].
Qed.

Lemma chunk_records_ends fb c rs : chunk_records fb c rs ->
  map ditem_end (recs_items (ck_id c) 0 0 rs) = map Some (ck_ends c).
Proof.
  intros (_ & _ & E & _). rewrite recs_items_ends, E, N.add_0_r. reflexivity.
Qed.

Theorem dump_ref_subset_dir : forall y, journal_wf y ->
  let k := y_core y in
  let d := y_disk y in
  dump_ref_openable k d = true /\
  incl (dump_ref_ids k) (ids d) /\
  StronglySorted N.lt (dump_ref_ids k) /\
  dump_ref k d = dump_dir (filter (fun f => mem (f_id f) (dump_ref_ids k)) d) /\
  (ids d = dump_ref_ids k -> dump_ref k d = dump_dir d).
Proof.
  intros y JW k d. pose proof (jw_sorted _ JW) as S. pose proof (jw_inv _ JW) as J.
  assert (I : incl (dump_ref_ids k) (ids d)).
  { intros j Ij. apply (wrun_back (y_queue y) (wproj y) j S). fold (wfinal y).
    rewrite <- (jw_ids_FD y JW), (ji_ids _ _ _ J). unfold chunk_ids.
    apply in_or_app. right. exact Ij. }
  assert (Sl : StronglySorted N.lt (dump_ref_ids k)).
  { pose proof (ji_sorted _ _ _ J) as SS. rewrite (ji_ids _ _ _ J) in SS. unfold chunk_ids in SS.
    apply ss_app_inv in SS. apply SS. }
  split; [apply dump_ref_openable_iff, I|]. split; [exact I|]. split; [exact Sl|].
  split.
  - rewrite dump_ref_eq. apply dump_dir_restrict; assumption.
  - intros E. rewrite dump_ref_eq, <- E. symmetry. apply dump_dir_ids, S.
Qed.

Corollary dump_ref_subset_dir_run : forall cfg ops res y,
  ops_c11 ops = true -> Forall op_wf ops -> run_case cfg ops = (res, Some y) ->
  let k := y_core y in
  let d := y_disk y in
  dump_ref_openable k d = true /\
  incl (dump_ref_ids k) (ids d) /\
  StronglySorted N.lt (dump_ref_ids k) /\
  dump_ref k d = dump_dir (filter (fun f => mem (f_id f) (dump_ref_ids k)) d) /\
  (ids d = dump_ref_ids k -> dump_ref k d = dump_dir d).
Proof.
  intros cfg ops res y Hc Hw H. apply dump_ref_subset_dir.
  apply (C11_invariant cfg ops res y Hc Hw H).
Qed.

(* FALSE for the model (and for the crate, see [C11_dump_is_journal_refuted] below):
     journal_wf y -> y_queue y = [] -> k_pending (y_core y) = [] ->
     dump_ref (y_core y) (y_disk y) = dump_dir (y_disk y) /\ ...
   A purge that also fills the open chunk leaves nothing pending (the rotation hands the
   buffered bytes to the worker) but the retired chunk files stay in the directory until the
   next flush sends RemoveChunks: [k_removed] is not empty, RefDump skips these files and
   the standalone Dump lists them.  The exact statement: the standalone dump is the dump
   of the retired files followed by RefDump; they agree when [k_removed k = []]. *)
Theorem C11_dump_is_journal : forall y, journal_wf y ->
  y_queue y = [] -> k_pending (y_core y) = [] ->
  let k := y_core y in
  let d := y_disk y in
  exists rss : list (list record),
    Forall2 (chunk_records (file_bytes d)) (live_chunks k) rss /\
    dump_ref k d = journal_items (live_chunks k) rss /\
    dump_records (dump_ref k d) = concat rss /\
    Forall (fun it => ditem_is_err it = false) (dump_ref k d) /\
    dump_ref_openable k d = true /\
    (* each file starts with the snapshot of the state its predecessor was closed in *)
    heads_ok (file_bytes d) (k_closed k) (ck_id (k_open k)) /\
    ids d = k_removed k ++ dump_ref_ids k /\
    dump_dir d = flat_map (gdump d) (k_removed k) ++ dump_ref k d /\
    (k_removed k = [] -> dump_dir d = dump_ref k d).
Proof.
  intros y JW Hq Hp k d.
  pose proof (C11_idle_disk_is_journal y JW Hq Hp) as EL.
  pose proof (jw_inv _ JW) as J. rewrite EL in J. fold k d in J.
  pose proof (jw_sorted _ JW) as S. fold d in S.
  destruct (chunk_ok_records _ _ (ji_chunks _ _ _ J)) as [rss F2].
  assert (ER : dump_ref k d = journal_items (live_chunks k) rss).
  { rewrite dump_ref_eq, dump_ref_ids_live. apply (dump_chunks (file_bytes d) _ _ F2). }
  assert (EI : ids d = k_removed k ++ dump_ref_ids k) by apply (ji_ids _ _ _ J).
  assert (ED : dump_dir d = flat_map (gdump d) (k_removed k) ++ dump_ref k d).
  { rewrite (dump_dir_ids d S), EI, flat_map_app. reflexivity. }
  exists rss. split; [exact F2|]. split; [exact ER|].
  split; [rewrite ER; apply journal_items_records, (Forall2_length _ _ _ F2)|].
  split; [rewrite ER; apply journal_items_no_err|].
  split; [apply (dump_ref_subset_dir y JW)|].
  split; [apply (ji_heads _ _ _ J)|].
  split; [exact EI|]. split; [exact ED|].
  intros Hr. rewrite ED, Hr. reflexivity.
Qed.

Lemma run_ops_app a : forall y b res fin, run_ops y (a ++ b) = (res, Some fin) ->
  exists r1 y1 r2, run_ops y a = (r1, Some y1) /\ run_ops y1 b = (r2, Some fin).
Proof.
  induction a as [|o a IH]; intros y b res fin H.
  - exists [], y, res. split; [reflexivity|exact H].
  - cbn [app run_ops] in H. cbn [run_ops].
    destruct (run_op y o) as [[y'|] r] eqn:E.
    + destruct (run_ops y' (a ++ b)) as [rs f] eqn:E2. inversion H; subst.
      destruct (IH y' b rs fin E2) as (r1 & y1 & r2 & A & B).
      exists (r :: r1), y1, r2. rewrite A. split; [reflexivity|exact B].
    + inversion H.
Qed.

(* a history that ends with flush; wait_worker_idle needs no side condition: both dumpers
   return the same items, the records of the journal, without error item *)
Theorem C11_dump_after_flush_idle : forall cfg ops cb res y,
  ops_c11 ops = true -> Forall op_wf ops ->
  run_case cfg (ops ++ [OFlush cb; OIdle]) = (res, Some y) ->
  let k := y_core y in
  let d := y_disk y in
  dump_ref k d = dump_dir d /\
  Forall (fun it => ditem_is_err it = false) (dump_ref k d) /\
  ids d = dump_ref_ids k /\
  exists rss : list (list record),
    Forall2 (chunk_records (file_bytes d)) (live_chunks k) rss /\
    dump_ref k d = journal_items (live_chunks k) rss /\
    dump_records (dump_ref k d) = concat rss.
Proof.
  intros cfg ops cb res y Hc Hw H.
  assert (Hc' : ops_c11 (ops ++ [OFlush cb; OIdle]) = true).
  { unfold ops_c11 in *. rewrite forallb_app, Hc. reflexivity. }
  assert (Hw' : Forall op_wf (ops ++ [OFlush cb; OIdle])).
  { apply Forall_app. split; [exact Hw|]. repeat constructor. }
  assert (Hs : y_queue y = [] /\ k_pending (y_core y) = [] /\ k_removed (y_core y) = []).
  { unfold run_case in H. rewrite open_dir_nil in H.
    destruct (run_ops_app ops _ _ _ _ H) as (r1 & y1 & r2 & _ & B).
    cbn [run_ops run_op] in B.
    destruct (do_flush (y_core y1) cb) as [k1 effs] eqn:EF.
    inversion B; subst y. clear B.
    set (y2 := apply_effs (with_core y1 k1) effs).
    destruct (worker_idle_core y2) as (_ & _ & P & _ & R & _).
    split; [apply worker_idle_queue|]. rewrite P, R. unfold y2. rewrite SmFacts.apply_effs_core.
    unfold do_flush in EF. inversion EF; subst k1. split; reflexivity. }
  destruct Hs as (Hq & Hp & Hr).
  destruct (C11_dump_is_journal y (C11_invariant cfg _ res y Hc' Hw' H) Hq Hp)
    as (rss & F2 & ER & ERR & NE & _ & _ & EI & _ & ED).
  split; [symmetry; apply ED, Hr|]. split; [exact NE|].
  split; [rewrite EI, Hr; reflexivity|]. exists rss. auto.
Qed.

(* chunk_max_records = 2: every write fills the open chunk.  append (1,0); purge (1,0);
   wait idle.  The purge record fills and closes the second chunk, so nothing is pending
   and the queue is processed, but the two retired chunk files wait for the next flush:
   the standalone Dump lists 5 records, RefDump only the snapshot heading the open chunk. *)
Definition dump_cex_cfg : config := mkConfig 10 1000 2 1000000 true.
Definition dump_cex_ops : list op :=
  [OW (OAppend [((1, 0), [])]); OW (OPurge (1, 0)); OIdle].

Lemma dump_cex_run : exists res y,
  run_case dump_cex_cfg dump_cex_ops = (res, Some y) /\
  y_queue y = [] /\ k_pending (y_core y) = [] /\
  length (k_removed (y_core y)) = 2%nat /\
  length (dump_ref (y_core y) (y_disk y)) = 1%nat /\
  length (dump_dir (y_disk y)) = 5%nat.
Proof.
  (* one evaluation of the run, observed through the five projections *)
  assert (H : match snd (run_case dump_cex_cfg dump_cex_ops) with
              | Some y => Some (y_queue y, k_pending (y_core y), length (k_removed (y_core y)),
                                length (dump_ref (y_core y) (y_disk y)), length (dump_dir (y_disk y)))
              | None => None
              end = Some ([], [], 2, 1, 5)%nat) by (vm_compute; reflexivity).
  destruct (run_case dump_cex_cfg dump_cex_ops) as [res [y|]]; cbn [snd] in H; [|discriminate H].
  inversion H as [[H1 H2 H3 H4 H5]]. exists res, y. repeat split; assumption.
Qed.

Theorem C11_dump_is_journal_refuted : exists cfg ops res y,
  ops_c11 ops = true /\ Forall op_wf ops /\ run_case cfg ops = (res, Some y) /\
  y_queue y = [] /\ k_pending (y_core y) = [] /\
  dump_ref (y_core y) (y_disk y) <> dump_dir (y_disk y).
Proof.
  destruct dump_cex_run as (res & y & H & Hq & Hp & _ & L1 & L2).
  exists dump_cex_cfg, dump_cex_ops, res, y.
  split; [reflexivity|]. split.
  { unfold dump_cex_ops. repeat constructor; cbn; unfold wf_u64; lia. }
  split; [exact H|]. split; [exact Hq|]. split; [exact Hp|].
  intros E. rewrite E in L1. rewrite L1 in L2. discriminate.
Qed.

Print Assumptions dump_file_encs.
Print Assumptions dump_file_encs_nth.
Print Assumptions dump_file_torn.
Print Assumptions dump_file_zero_tail_short.
Print Assumptions dump_file_zero_tail_long.
Print Assumptions dump_file_shape.
Print Assumptions dump_file_err_last.
Print Assumptions dump_ref_subset_dir.
Print Assumptions dump_ref_subset_dir_run.
Print Assumptions C11_dump_is_journal.
Print Assumptions C11_dump_after_flush_idle.
Print Assumptions C11_dump_is_journal_refuted.
