(* The L2 contracts (C04, C08, C14) for a store instance started by opening ANY directory that
   opens, not only the empty one: [zreach_from cfg d z]. Hypotheses on [d] (each theorem lists what
   it uses): [disk_sorted d] (what a directory listing sorted by chunk id is); [Forall synced_le d]
   (no file claims more synced bytes than it has); [older_synced d]: every file except the newest is
   completely synced. The new flush worker tracks and syncs the newest file only, so without this a
   successful callback would not imply durability ([older_synced_needed]). Every theorem here is the
   instance at [d] of a theorem over [AckFacts.reach] proved beside its invariant; [open_dir_shape]
   discharges the hypothesis on the opened state ([sorted_opens], [synced_opens]). *)
From Coq Require Import List NArith.
From RaftLog Require Import Model.Codec Model.Core Model.Recover Model.Run Model.Sys Spec.Durable.
From RaftLog Require Import Proofs.NoPanic Proofs.AckFacts Proofs.RestartShape.
From RaftLog Require Proofs.PurgeFacts Proofs.PurgeDurable
  Proofs.RestartDrain.
Import ListNotations.
Local Open Scope N_scope.
Local Arguments enc_record : simpl never.

Module PF := PurgeFacts.
Module PD := PurgeDurable.

Definition zreach_from (cfg : config) (d : disk) (z : sys2) : Prop :=
  exists z0 es vis, zinit cfg d = Some z0 /\ zrun z0 es = Some (z, vis).
Definition zreach_from_ff (cfg : config) (d : disk) (z : sys2) : Prop :=
  exists z0 es vis, zinit cfg d = Some z0 /\ forallb ev_fault_free es = true /\ zrun z0 es = Some (z, vis).

Definition older_synced (d : disk) : Prop :=
  Forall (fun f => f_synced f = N.of_nat (length (f_data f))) (removelast d).

Lemma zreach_from_nil cfg z : zreach_from cfg [] z <-> zreach cfg z.
Proof. reflexivity. Qed.

Lemma zreach_from_ff_reach cfg d z : zreach_from_ff cfg d z -> zreach_from cfg d z.
Proof. exact (reach_ff_reach cfg d z). Qed.

Definition dir_wf (d : disk) : Prop := disk_sorted d /\ Forall synced_le d.


Lemma opened_of cfg d y : open_dir cfg d = OpenOk y -> disk_sorted d ->
  exists old fc, opened (fun _ => True) y old fc.
Proof.
  intros Ho Hs.
  destruct (open_dir_shape (fun _ => True) (fun _ => True) (fun _ _ => I) (fun _ _ => I) (fun _ _ => I)
              cfg d y Ho Hs (OrderFacts.Forall_True _) (OrderFacts.Forall_True _)) as (old & fc & O & _).
  eauto.
Qed.

Lemma opened_of_synced cfg d y : open_dir cfg d = OpenOk y -> dir_wf d -> older_synced d ->
  exists old fc, opened synced_le y old fc /\ Forall full_synced old.
Proof.
  intros Ho [Hs Hle] Hold.
  apply (open_dir_shape full_synced synced_le (fun _ _ => eq_refl) synced_le_full synced_le_zero
           cfg d y Ho Hs Hle). exact Hold.
Qed.

Lemma sorted_opens cfg d : disk_sorted d -> AD.opens_fresh (fun _ => True) (fun _ => True) cfg d.
Proof.
  intros Hs y Ho. destruct (opened_of cfg d y Ho Hs) as (old & fc & O).
  exists old, fc. split; [exact (opened_fresh _ _ _ _ O)|apply OrderFacts.Forall_True].
Qed.

Lemma synced_opens cfg d : dir_wf d -> older_synced d -> AD.opens_fresh synced_le full_synced cfg d.
Proof.
  intros Hwf Hold y Ho. destruct (opened_of_synced cfg d y Ho Hwf Hold) as (old & fc & O & Hf).
  exists old, fc. split; [exact (opened_fresh _ _ _ _ O)|exact Hf].
Qed.

Lemma pend_from cfg d y : open_dir cfg d = OpenOk y -> pend (sys2_of y) = [].
Proof. exact (pend_opened cfg d y). Qed.

Lemma pend_ok_from cfg d y : open_dir cfg d = OpenOk y -> pend_ok (sys2_of y).
Proof. exact (pend_ok_opened cfg d y). Qed.

Theorem C04_once_in_order_from : forall cfg d z, zreach_from cfg d z -> acks_in_order z.
Proof. intros cfg d z H. exact (pend_ok_in_order z (pend_ok_reach cfg d z H)). Qed.

Theorem C04_exactly_once_from : forall cfg d z,
  zreach_from_ff cfg d z -> worker_idle2 z -> acks_complete z.
Proof. intros cfg d z H. exact (pend_full_complete z (pend_full_reach cfg d z H)). Qed.

Theorem C14_quiescent_from : forall cfg d z,
  zreach_from cfg d z -> z_dropped z = true -> worker_idle2 z -> quiesced z.
Proof. intros cfg d z _. apply PF.idle_quiesced. Qed.

Theorem C04_synced_le_written_from : forall cfg d z,
  Forall (fun f => (f_synced f <= N.of_nat (length (f_data f)))%N) d ->
  zreach_from cfg d z ->
  Forall (fun f => (f_synced f <= N.of_nat (length (f_data f)))%N) (z_disk z).
Proof. exact synced_le_reach. Qed.

(* the initial-state lemmas for a store described by [opened]; the theorems of this file do not go
   through them but through [sorted_opens] and [synced_opens] *)
Lemma binv_from y old fc : opened synced_le y old fc -> AD.binv (sys2_of y).
Proof. intros O. exact (AD.binv_fresh y old fc (opened_fresh _ _ _ _ O)). Qed.

Lemma remL_from y old fc : opened synced_le y old fc -> AD.remL (sys2_of y) = map f_id (y_disk y).
Proof. intros O. exact (AD.remL_fresh _ y old fc (opened_fresh _ _ _ _ O)). Qed.

Lemma linv_from y old fc : opened synced_le y old fc -> AD.linv (sys2_of y).
Proof. intros O. exact (AD.linv_fresh _ y old fc (opened_fresh _ _ _ _ O)). Qed.

Lemma cinv_from y old fc : opened synced_le y old fc -> Forall full_synced old -> AD.cinv (sys2_of y).
Proof. intros O. exact (AD.cinv_fresh _ y old fc (opened_fresh _ _ _ _ O)). Qed.

Lemma full_from cfg d y old fc :
  open_dir cfg d = OpenOk y -> opened synced_le y old fc -> Forall full_synced old -> AD.full (sys2_of y).
Proof. intros _ O. exact (AD.full_fresh y old fc (opened_fresh _ _ _ _ O)). Qed.

Lemma full_from_reach cfg d z : dir_wf d -> older_synced d -> zreach_from cfg d z -> AD.full z.
Proof. intros Hwf Hold. exact (AD.full_reach cfg d z (synced_opens cfg d Hwf Hold)). Qed.

Theorem C04_ack_after_sync_from : forall cfg d z,
  dir_wf d -> older_synced d -> zreach_from cfg d z -> acked_durable z.
Proof. intros cfg d z Hwf Hold H. exact (AD.f_k _ (full_from_reach cfg d z Hwf Hold H)). Qed.

Lemma inv_from S y old fc : opened S y old fc -> PF.Inv (sys2_of y).
Proof. intros O. exact (PF.inv_fresh S y old fc (opened_fresh _ _ _ _ O)). Qed.

Lemma Inv_from cfg d z : disk_sorted d -> zreach_from cfg d z -> PF.Inv z.
Proof. intros Hs. exact (PF.Inv_reach _ _ cfg d z (sorted_opens cfg d Hs)). Qed.

Lemma ff_alive_from cfg d z : zreach_from_ff cfg d z -> w_alive (z_w z) = true.
Proof. intros H. apply (PF.ffinv_reach cfg d z H). Qed.

Theorem C08_oldest_first_from : forall cfg d z, disk_sorted d -> zreach_from cfg d z -> files_contiguous z.
Proof. intros cfg d z Hs H. exact (PF.Inv_contiguous _ (Inv_from cfg d z Hs H)). Qed.

Theorem C08_liveness_from : forall cfg d z,
  disk_sorted d -> zreach_from_ff cfg d z -> worker_idle2 z -> removals_done z.
Proof. intros cfg d z Hs. exact (PF.removals_done_reach _ _ cfg d z (sorted_opens cfg d Hs)). Qed.

Lemma sinv_from y old fc : opened synced_le y old fc -> Forall full_synced old -> PD.sinv (sys2_of y) 0.
Proof. intros O. exact (PD.sinv_fresh y old fc (opened_fresh _ _ _ _ O)). Qed.

Lemma dinv_from y old fc : opened synced_le y old fc -> Forall full_synced old -> PD.DInv (sys2_of y).
Proof. intros O. exact (PD.dinv_fresh y old fc (opened_fresh _ _ _ _ O)). Qed.

Theorem C08_removed_after_durable_from : forall cfg d z,
  dir_wf d -> older_synced d -> zreach_from cfg d z -> removed_after_durable z.
Proof.
  intros cfg d z Hwf Hold Hr.
  exact (PD.DInv_removed_after_durable z (PD.DInv_reach cfg d z (synced_opens cfg d Hwf Hold) Hr)).
Qed.

Lemma good0_from cfg d z : zreach_from cfg d z -> RestartDrain.Good0 z.
Proof. exact (PurgeDrain.live_reach cfg d z). Qed.

Theorem C14_drain_terminates_from : forall cfg d z,
  zreach_from cfg d z -> z_dropped z = true -> z_todo z = [] -> w_alive (z_w z) = true ->
  exists es z' vis, forallb ev_fault_free es = true /\ zrun z es = Some (z', vis) /\ worker_idle2 z'.
Proof. intros cfg d z Hr _ Ht Ha. exact (PurgeDrain.drain_reach cfg d z Hr Ha Ht). Qed.

Print Assumptions C04_synced_le_written_from.
Print Assumptions C04_once_in_order_from.
Print Assumptions C08_oldest_first_from.
Print Assumptions C08_removed_after_durable_from.
Print Assumptions C04_ack_after_sync_from.
Print Assumptions C14_quiescent_from.
Print Assumptions C08_liveness_from.
Print Assumptions C04_exactly_once_from.
Print Assumptions C14_drain_terminates_from.

(* the directory left by a short run of a store with two records per chunk: two files,
   the older one completely synced, the newest (created by the rotation) not synced at all *)
Definition demo_cfg : config := mkConfig 10 1000 2 1000 true.
Definition demo_prefix : list zev :=
  [ZCall (OW (OVote (1, 2))); ZEff; ZEff; ZEff; ZEff; ZRecv 0 true;
   ZWork true; ZWork true; ZWork true; ZWork true; ZWork true; ZWork true; ZWork true; ZWork true;
   ZWork true; ZWork true].
Definition demo_dir : disk :=
  match zrun (zstart demo_cfg) demo_prefix with Some (z, _) => z_disk z | None => [] end.
Definition demo_events : list zev :=
  [ZCall (OFlush true); ZEff; ZRecv 0 false;
   ZWork true; ZWork true; ZWork true; ZWork true; ZWork true; ZWork true].

(* coqchk re-evaluates a [vm_compute] step with the kernel's lazy machine, several times slower than the VM:
   each run is evaluated in one lemma, against a constant holding its normal form, and every fact is read off the
   constant; otherwise every [vm_compute; reflexivity] about the state would run the whole run again. *)
Definition demo_dir_nf : disk := Eval vm_compute in demo_dir.
Lemma demo_dir_eq : demo_dir = demo_dir_nf.
Proof. vm_compute. reflexivity. Qed.
Definition demo_z0_nf : sys2 :=
  Eval vm_compute in match zinit demo_cfg demo_dir_nf with Some z => z | None => zstart demo_cfg end.
Lemma demo_init_eq : zinit demo_cfg demo_dir_nf = Some demo_z0_nf.
Proof. vm_compute. reflexivity. Qed.
Definition demo_z_nf : sys2 :=
  Eval vm_compute in match zrun demo_z0_nf demo_events with Some (z, _) => z | None => demo_z0_nf end.
Definition demo_vis_nf : list vis :=
  Eval vm_compute in match zrun demo_z0_nf demo_events with Some (_, v) => v | None => [] end.
Lemma demo_run_eq : zrun demo_z0_nf demo_events = Some (demo_z_nf, demo_vis_nf).
Proof. vm_compute. reflexivity. Qed.

Example demo_dir_ok :
  length demo_dir = 2%nat /\ dir_wf demo_dir /\ older_synced demo_dir /\
  (exists z0, zinit demo_cfg demo_dir = Some z0) /\
  ~ Forall (fun f => f_synced f = N.of_nat (length (f_data f))) demo_dir.
Proof.
  rewrite demo_dir_eq.
  split; [reflexivity|]. split; [|split; [|split]].
  - split.
    + vm_compute. repeat constructor.
    + vm_compute. repeat constructor; discriminate.
  - vm_compute. repeat constructor.
  - exists demo_z0_nf. exact demo_init_eq.
  - intros H. vm_compute in H. inversion H as [|? ? _ H2]; subst. inversion H2 as [|? ? H3 _]; subst. discriminate.
Qed.

Example demo_ack_reachable :
  exists z, zreach_from demo_cfg demo_dir z /\ In (0, true) (z_acks z).
Proof.
  rewrite demo_dir_eq. exists demo_z_nf. split; [exists demo_z0_nf, demo_events, demo_vis_nf; split|].
  - exact demo_init_eq.
  - exact demo_run_eq.
  - now left.
Qed.

(* the same directory with the older file not synced: the callback reports success although
   the bytes of the older file are not durable *)
Definition bad_dir : disk :=
  match demo_dir with f :: r => mkFile (f_id f) (f_data f) 0 :: r | [] => [] end.

Definition bad_dir_nf : disk := Eval vm_compute in bad_dir.
Lemma bad_dir_eq : bad_dir = bad_dir_nf.
Proof. unfold bad_dir. rewrite demo_dir_eq. reflexivity. Qed.
Definition bad_z0_nf : sys2 :=
  Eval vm_compute in match zinit demo_cfg bad_dir_nf with Some z => z | None => zstart demo_cfg end.
Lemma bad_init_eq : zinit demo_cfg bad_dir_nf = Some bad_z0_nf.
Proof. vm_compute. reflexivity. Qed.
Definition bad_z_nf : sys2 :=
  Eval vm_compute in match zrun bad_z0_nf demo_events with Some (z, _) => z | None => bad_z0_nf end.
Definition bad_vis_nf : list vis :=
  Eval vm_compute in match zrun bad_z0_nf demo_events with Some (_, v) => v | None => [] end.
Lemma bad_run_eq : zrun bad_z0_nf demo_events = Some (bad_z_nf, bad_vis_nf).
Proof. vm_compute. reflexivity. Qed.

Theorem older_synced_needed :
  exists z, dir_wf bad_dir /\ zreach_from demo_cfg bad_dir z /\ ~ acked_durable z.
Proof.
  rewrite bad_dir_eq. exists bad_z_nf. split; [|split].
  - split; [vm_compute; repeat constructor|vm_compute; repeat constructor; discriminate].
  - exists bad_z0_nf, demo_events, bad_vis_nf. split; [exact bad_init_eq|exact bad_run_eq].
  - (* the one flush call is recorded with callback 0 at journal end 80: file 0 holds 46 bytes, none
       synced, file 46 the other 34 *)
    intros H. specialize (H 0 80 0%nat (or_introl eq_refl) (or_introl eq_refl)).
    vm_compute in H. destruct H as [H _]. apply H; reflexivity.
Qed.
Print Assumptions demo_dir_ok.
Print Assumptions demo_ack_reachable.
Print Assumptions older_synced_needed.

(* the same for C08: three files, the middle one not synced. After the reopen a purge makes
   the oldest file obsolete; it is unlinked although the bytes of the middle file, which lie
   below the journal end of the flush that requested the removal, are not durable *)
Definition demo3_prefix : list zev :=
  [ZCall (OW (OAppend [((1, 0), [])])); ZEff; ZEff; ZEff; ZEff;
   ZRecv 0 false; ZWork true; ZWork true; ZWork true; ZWork true; ZWork true; ZWork true; ZWork true;
   ZWork true; ZWork true; ZWork true; ZRecv 0 false; ZWork true; ZWork true;
   ZCall (OW (OAppend [((1, 1), [])])); ZEff; ZEff; ZEff; ZEff;
   ZRecv 0 false; ZWork true; ZWork true; ZWork true; ZWork true; ZWork true; ZWork true; ZWork true;
   ZWork true; ZWork true; ZWork true; ZWork true; ZRecv 0 false; ZWork true; ZWork true].
Definition demo3_dir : disk :=
  match zrun (zstart demo_cfg) demo3_prefix with Some (z, _) => z_disk z | None => [] end.
Definition bad_dir3 : disk :=
  match demo3_dir with a :: b :: r => a :: mkFile (f_id b) (f_data b) 0 :: r | _ => [] end.
Definition purge_events : list zev :=
  [ZCall (OW (OPurge (1, 0))); ZEff; ZEff; ZEff; ZEff;
   ZRecv 0 false; ZWork true; ZWork true; ZWork true; ZWork true; ZWork true; ZWork true; ZWork true;
   ZWork true; ZWork true; ZWork true; ZRecv 0 false; ZWork true; ZWork true;
   ZCall (OFlush false); ZEff; ZEff;
   ZRecv 0 false; ZWork true; ZWork true; ZWork true; ZWork true; ZWork true; ZWork true; ZWork true;
   ZWork true; ZWork true; ZWork true; ZWork true; ZRecv 0 false; ZWork true; ZWork true; ZWork true; ZWork true].

Definition demo3_dir_nf : disk := Eval vm_compute in demo3_dir.
Lemma demo3_dir_eq : demo3_dir = demo3_dir_nf.
Proof. vm_compute. reflexivity. Qed.
Definition demo3_z0_nf : sys2 :=
  Eval vm_compute in match zinit demo_cfg demo3_dir_nf with Some z => z | None => zstart demo_cfg end.
Lemma demo3_init_eq : zinit demo_cfg demo3_dir_nf = Some demo3_z0_nf.
Proof. vm_compute. reflexivity. Qed.

Example demo3_dir_ok :
  length demo3_dir = 3%nat /\ dir_wf demo3_dir /\ older_synced demo3_dir /\
  exists z0, zinit demo_cfg demo3_dir = Some z0.
Proof.
  rewrite demo3_dir_eq.
  split; [reflexivity|]. split; [|split].
  - split.
    + vm_compute. repeat constructor.
    + vm_compute. repeat constructor; discriminate.
  - vm_compute. repeat constructor.
  - exists demo3_z0_nf. exact demo3_init_eq.
Qed.

Definition bad_dir3_nf : disk := Eval vm_compute in bad_dir3.
Lemma bad_dir3_eq : bad_dir3 = bad_dir3_nf.
Proof. unfold bad_dir3. rewrite demo3_dir_eq. reflexivity. Qed.
Definition bad3_z0_nf : sys2 :=
  Eval vm_compute in match zinit demo_cfg bad_dir3_nf with Some z => z | None => zstart demo_cfg end.
Lemma bad3_init_eq : zinit demo_cfg bad_dir3_nf = Some bad3_z0_nf.
Proof. vm_compute. reflexivity. Qed.
Definition bad3_z_nf : sys2 :=
  Eval vm_compute in match zrun bad3_z0_nf purge_events with Some (z, _) => z | None => bad3_z0_nf end.
Definition bad3_vis_nf : list vis :=
  Eval vm_compute in match zrun bad3_z0_nf purge_events with Some (_, v) => v | None => [] end.
Lemma bad3_run_eq : zrun bad3_z0_nf purge_events = Some (bad3_z_nf, bad3_vis_nf).
Proof. vm_compute. reflexivity. Qed.

Theorem older_synced_needed_C08 :
  exists z, dir_wf bad_dir3 /\ zreach_from demo_cfg bad_dir3 z /\ ~ removed_after_durable z.
Proof.
  rewrite bad_dir3_eq. exists bad3_z_nf. split; [|split].
  - split; [vm_compute; repeat constructor|vm_compute; repeat constructor; discriminate].
  - exists bad3_z0_nf, purge_events, bad3_vis_nf. split; [exact bad3_init_eq|exact bad3_run_eq].
  - (* the flush that requests the removal of file 0 is recorded at journal end 228 (the newest file,
       178, holds 50 bytes); file 50, below it, has nothing synced *)
    intros H. specialize (H [0] 228 0 (or_introl eq_refl) (or_introl eq_refl) eq_refl).
    vm_compute in H. destruct H as [H _]. apply H; reflexivity.
Qed.

Print Assumptions demo3_dir_ok.
Print Assumptions older_synced_needed_C08.
