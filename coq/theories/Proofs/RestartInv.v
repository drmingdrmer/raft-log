(* C02, part 2 (system level): the invariant [FI] carried along a run. The files of the logical
   directory are described by a ghost list [G] of (chunk id, records). [FI] says that every suffix of [G]
   replays under the next configuration [cfg'] to a state related to the live state machine by [Sim]
   ([Fam]), that head snapshots chain ([Chain]), that every index-map entry is stored in a live chunk
   ([live_ok]) and that entries of a closed chunk are bounded by its closing last id ([closed_bound]);
   it carries [GB], [HK], the refinement [R] and a cache budget that fits both configurations.
   [GC] is the part that speaks of the ghost journal only (reused by CacheRestart.v). Preservation is
   proved for [FJ]: [FI] without the live cache and with any statement about the replayed caches in
   the place of [Sim]'s (section [Gen]); [FI] is the instance [P2] of [FJ] and the cache part of
   Refine.v ([FI_split], [fi_run_op]). *)
From Coq Require Import List NArith Lia.
From RaftLog Require Import Base.Bytes Model.Types Model.Codec Model.Cache Model.Core Model.Recover Model.Run Spec.Spec Spec.Hist.
From RaftLog Require Import Proofs.OrderFacts Proofs.SmFacts Proofs.Refine.
From RaftLog Require Import Proofs.CodecFacts Proofs.JournalDisk Proofs.JournalChunk Proofs.JournalFacts.
From RaftLog Require Import Proofs.RestartSim.
Import ListNotations.
Local Open Scope N_scope.

Lemma map_snoc_inv {A B} (f : A -> B) l l1 a : map f l = l1 ++ [a] ->
  exists l0 x, l = l0 ++ [x] /\ map f l0 = l1 /\ f x = a.
Proof.
  intros H. apply map_eq_app in H. destruct H as (l0 & l2 & E & H1 & H2).
  destruct l2 as [|x [|x' l2']]; cbn [map] in H2; try discriminate H2.
  inversion H2. exists l0, x. auto.
Qed.

Definition file_ok (fb : N -> bytes) (g : jfile) : Prop :=
  fb (fst g) = encs (snd g) /\ Forall wf_record (snd g) /\ exists st tl, snd g = RState st :: tl.

Record GJ (y : sys) (G : list jfile) : Prop := mkGJ {
  gj_ids : map fst G = ids (logical y);
  gj_files : Forall (file_ok (file_bytes (logical y))) G }.

Definition live_ok (k : core) : Prop :=
  forall e, In e (m_log (k_sm k)) -> In (ld_chunk (snd e)) (closed_ids k ++ [ck_id (k_open k)]).

Definition closed_bound (k : core) : Prop :=
  forall c e, In c (k_closed k) -> In e (m_log (k_sm k)) ->
    ld_chunk (snd e) = ck_id (cl_chunk c) ->
    opair_cmp (Some (ld_id (snd e))) (r_last (cl_state c)) <> Gt.

Lemma file_ok_ext fb fb' g : fb' (fst g) = fb (fst g) -> file_ok fb g -> file_ok fb' g.
Proof. intros E (H1 & H2 & H3). unfold file_ok. rewrite E. auto. Qed.

Lemma files_ok_ext fb fb' G : (forall g, In g G -> fb' (fst g) = fb (fst g)) ->
  Forall (file_ok fb) G -> Forall (file_ok fb') G.
Proof.
  intros He H. rewrite Forall_forall in *. intros g Hg. apply (file_ok_ext fb); auto.
Qed.

Lemma GJ_open y G : journal_wf y -> GJ y G ->
  exists G0 rs, G = G0 ++ [(ck_id (k_open (y_core y)), rs)] /\
    map fst G0 = k_removed (y_core y) ++ closed_ids (y_core y) /\
    file_ok (file_bytes (logical y)) (ck_id (k_open (y_core y)), rs).
Proof.
  intros JW [Gids Gfiles]. rewrite (ji_idl_split _ _ _ (jw_inv _ JW)) in Gids.
  apply map_snoc_inv in Gids. destruct Gids as (G0 & [o rs] & -> & EG0 & Eo). cbn [fst] in Eo. subst o.
  apply Forall_app in Gfiles. destruct Gfiles as [_ Gfl]. inversion Gfl; subst. eauto.
Qed.

Record GC (y : sys) (G : list jfile) : Prop := mkGC {
  gc_gj : GJ y G;
  gc_chain : Chain (m_rs (k_sm (y_core y))) G;
  gc_hk : HK G }.

Lemma GC_frame y y' G : GC y G -> logical y' = logical y ->
  m_rs (k_sm (y_core y')) = m_rs (k_sm (y_core y)) -> GC y' G.
Proof.
  intros [[Ga Gb] Gc Gh] El Ers. constructor; [constructor; rewrite El; assumption| |exact Gh].
  rewrite Ers. exact Gc.
Qed.

Lemma GC_appended y G0 rs r sm1 :
  let o := ck_id (k_open (y_core y)) in
  journal_wf y -> GC y (G0 ++ [(o, rs)]) -> wf_record r ->
  rs_validate (m_rs (k_sm (y_core y))) r = None ->
  keep_rec (m_rs (k_sm (y_core y))) r ->
  sm_apply (k_sm (y_core y)) r o (ck_end (k_open (y_core y)), rec_size r) = (sm1, None) ->
  GC (with_core y (JournalChunk.appended (y_core y) r sm1)) (G0 ++ [(o, rs ++ [r])]).
Proof.
  intros o JW [[Gids Gfiles] GCh GH] Hr Hv Hkeep Hs. pose proof (jw_inv _ JW) as J.
  destruct (jw_appended y r sm1 JW Hr Hv Hs) as (_ & Hids1 & Hfo1 & Hfother1). fold o in Hfo1, Hfother1.
  apply Forall_app in Gfiles. destruct Gfiles as [Gf0 Gfl].
  inversion Gfl as [|? ? (Fo1 & Fo2 & st & tl & Fo3) _]; subst. cbn [fst snd] in Fo1, Fo2, Fo3.
  constructor.
  - constructor.
    + rewrite Hids1, <- Gids, !map_app. reflexivity.
    + apply Forall_app. split.
      * apply (files_ok_ext (file_bytes (logical y))); [|exact Gf0]. intros g Hg. apply Hfother1.
        assert (Hlt : fst g < o); [|lia]. apply (ji_pre_lt _ _ _ J).
        rewrite (ji_idl_split _ _ _ J), map_app in Gids. apply app_inj_tail in Gids.
        rewrite <- (proj1 Gids). apply in_map, Hg.
      * constructor; [|constructor]. unfold file_ok. cbn [fst snd]. split; [|split].
        -- rewrite Hfo1, Fo1, encs_app, encs_one. reflexivity.
        -- apply Forall_app. split; [exact Fo2|]. constructor; [exact Hr|constructor].
        -- exists st, (tl ++ [r]). rewrite Fo3. reflexivity.
  - destruct (sm_apply_ok _ _ _ _ _ _ Hv Hs) as [_ Ea]. apply (Chain_record G0 o rs r _ _ GCh Ea).
  - apply (HK_record G0 o rs r _ GH GCh Hkeep).
Qed.

Lemma GC_rotated y1 G :
  journal_wf y1 -> GC y1 G ->
  GC (apply_effs (with_core y1 (rotated (y_core y1))) (rotate_effs (y_core y1)))
     (G ++ [(ck_end (k_open (y_core y1)), [RState (m_rs (k_sm (y_core y1)))])]).
Proof.
  intros JW [[Gids Gfiles] GCh GH]. pose proof (jw_inv _ JW) as J.
  destruct (jw_rotated y1 JW) as (_ & Hids2 & Hfoff2 & Hfother2).
  pose proof (ji_open_lt_end _ _ _ J) as Hlt.
  constructor.
  - constructor.
    + rewrite Hids2, map_app. f_equal. exact Gids.
    + apply Forall_app. split.
      * apply (files_ok_ext (file_bytes (logical y1))); [|exact Gfiles]. intros g Hg. apply Hfother2.
        assert (Hi : In (fst g) (ids (logical y1))) by (rewrite <- Gids; apply in_map; exact Hg).
        pose proof (ji_ids_le _ _ _ J _ Hi). lia.
      * constructor; [|constructor]. unfold file_ok. cbn [fst snd]. split; [|split].
        -- rewrite Hfoff2, encs_one. reflexivity.
        -- constructor; [apply (ji_rs _ _ _ J)|constructor].
        -- eexists. eexists. reflexivity.
  - rewrite apply_effs_core. cbn [with_core y_core rotated k_sm].
    apply Chain_rotate. exact GCh.
  - apply HK_rotate. exact GH.
Qed.

Lemma GC_purged y G rm rest : GC y G -> GC (with_core y (purged_core (y_core y) rm rest)) G.
Proof. intros H. apply (GC_frame y); [exact H|rewrite !logical_eq; reflexivity|reflexivity]. Qed.

Lemma GC_flush y cb G :
  journal_wf y -> GC y G ->
  exists G1 G2, G = G1 ++ G2 /\
    GC (apply_effs (with_core y (fst (do_flush (y_core y) cb))) (snd (do_flush (y_core y) cb))) G2.
Proof.
  intros JW [[Ga Gb] Gc Gh]. pose proof (jw_inv _ JW) as J.
  destruct (jw_flush_ex y cb JW) as (_ & Hids & Hfb & _).
  rewrite (ji_ids _ _ _ J) in Ga. unfold chunk_ids in Ga.
  apply map_eq_app in Ga. destruct Ga as (G1 & G2 & -> & _ & Ea2).
  exists G1, G2. split; [reflexivity|]. constructor.
  - constructor; [rewrite Hids; exact Ea2|].
    apply Forall_app in Gb. destruct Gb as [_ Gb].
    apply (files_ok_ext (file_bytes (logical y))); [|exact Gb].
    intros g Hg. apply Hfb. rewrite <- Ea2. apply in_map. exact Hg.
  - rewrite apply_effs_core. eapply Chain_app_r. exact Gc.
  - eapply HK_app_r. exact Gh.
Qed.

Lemma issues_keep k sp w r : wop_legal sp w = true -> issues k w r -> keep_rec (m_rs (k_sm k)) r.
Proof.
  intros Hl Hi. destruct Hi; try exact I; [|discriminate Hl].
  cbn [keep_rec rs_set_user r_last]. apply opair_leb_le, opair_eq_le.
Qed.

Lemma GC_init cfg : GC (sys0 cfg) [(0, [RState rstate0])].
Proof.
  pose proof (jw_init cfg) as JW. constructor.
  - assert (El : logical (sys0 cfg) = [mkFile 0 (enc_record (RState rstate0)) 0]).
    { rewrite (C11_idle_disk_is_journal _ JW eq_refl eq_refl). reflexivity. }
    constructor; rewrite El.
    + reflexivity.
    + constructor; [|constructor]. unfold file_ok. cbn [fst snd]. split; [|split].
      * rewrite encs_one. reflexivity.
      * constructor; [|constructor]. cbn. unfold wf_rstate. cbn. tauto.
      * eexists. eexists. reflexivity.
  - cbn. split; [|exact I]. exists rstate0, []. split; reflexivity.
  - constructor; [|constructor]. exists rstate0, []. split; [reflexivity|exact I].
Qed.

Lemma Jc_iff k : Jc k <-> live_ok k /\ closed_bound k.
Proof.
  split; [intros [H1 H2]; split; [exact H1|]; intros c e Hc He; exact (H2 e c He Hc)|].
  intros [H1 H2]. constructor; [exact H1|]. intros e c He Hc. exact (H2 c e Hc He).
Qed.

(* The invariant for ANY statement [P n b G sp t] about the caches of the replays under [cfg'] ([n], [b]: a
   budget that appends use up; [ok n b]: what a fresh replay needs of it). It does not mention the live
   cache, so it holds along a run under any cache limits. What is asked of [P] is that one journalled
   record and a rotation keep it. Two instances: [Pc] (the whole log resident, C02: [FI] below) and the
   eviction-tolerant ReadRestart.P7 (C07). *)
Section Gen.
Variable cfg' : config.
Variable P : N -> N -> list jfile -> spec -> sm -> Prop.
Variable ok : N -> N -> Prop.

Record FJ (y : sys) (sp : spec) (n b : N) : Prop := mkFJ {
  fj_jw : journal_wf y;
  fj_L : Rlog (k_sm (y_core y)) sp;
  fj_ok : ok n b;
  fj_g : exists G, GC y G /\ FamP cfg' (P n b) sp (k_sm (y_core y)) G /\ GB (m_log (k_sm (y_core y))) G;
  fj_Jc : Jc (y_core y) }.

(* what one journalled record [r] (reference log [sp] to [sp']) asks of [P]: on the replay [t] of every suffix
   of the files, [P] with budget [n0], [b0] before the record gives [P] with budget [n], [b] after it (an
   appended entry uses up one item and its size, the other records nothing); and an appended index is
   above the index map of the live machine [s] *)
Definition pstep (s : sm) (sp sp' : spec) (r : record) (n0 b0 n b : N) : Prop :=
  (forall id p, r = RAppend id p -> forall e, In e (m_log s) -> fst e < lid_index id) /\
  forall G1 o rs lo t seg, rel lo s t -> lo <= o -> P n0 b0 (G1 ++ [(o, rs)]) sp t ->
    P n b (G1 ++ [(o, rs ++ [r])]) sp' (fst (sm_apply t r o seg)).

Hypothesis P_mono : forall n b n' b' G sp t, P n b G sp t -> n' <= n -> b' <= b -> P n' b' G sp t.
Hypothesis ok_mono : forall n b n' b', ok n b -> n' <= n -> b' <= b -> ok n' b'.
Hypothesis P_entry : forall s sp sp' id p n b, Rlog s sp -> spec_step sp (SEntry id p) = Some sp' ->
  pstep s sp sp' (RAppend id p) (n + 1) (b + psize p) n b.
Hypothesis P_rec : forall s sp sp' r sw n b, Rlog s sp -> rec_sw sp r sw ->
  match r with RAppend _ _ => False | _ => True end -> spec_step sp sw = Some sp' ->
  pstep s sp sp' r n b n b.
Hypothesis P_new : forall n b sp st off, ok n b ->
  P n b [(off, [RState st])] sp (fst (chunk_replay (sm_new cfg') (off, [RState st]))).
Hypothesis P_old : forall s n b sp g G1 t off, rel (fst g) s t ->
  (forall e, In e (m_log s) -> ld_chunk (snd e) < off) -> P n b (g :: G1) sp t ->
  P n b ((g :: G1) ++ [(off, [RState (m_rs s)])]) sp (fst (chunk_replay t (off, [RState (m_rs s)]))).

Lemma FJ_mono y sp n b n' b' : FJ y sp n b -> n' <= n -> b' <= b -> FJ y sp n' b'.
Proof.
  intros [A B D E F] Hn Hb. constructor; try assumption.
  - eapply ok_mono; eassumption.
  - destruct E as (G0 & E1 & E2 & E3). exists G0. split; [exact E1|]. split; [|exact E3].
    eapply FamP_map; [reflexivity|reflexivity| |exact E2]. intros G1 t H. eapply P_mono; eassumption.
Qed.

Lemma FJ_frame y y' sp n b : FJ y sp n b -> journal_wf y' -> logical y' = logical y ->
  core_eqj (y_core y) (y_core y') -> FJ y' sp n b.
Proof.
  intros [A [B1 B2 B3] D E [F G]] JW El Ec. pose proof Ec as (E1 & E2 & E3 & E4 & E5 & E6 & E7).
  constructor; try assumption.
  - constructor; rewrite ?E6, ?E7; assumption.
  - destruct E as (G0 & Ea & Eb & Ed). exists G0. split; [apply (GC_frame y); assumption|]. split.
    + eapply FamP_map; [exact E6|exact E7| |exact Eb]. auto.
    + rewrite E7. exact Ed.
  - constructor; unfold closed_ids; rewrite E7, E4, ?E2; assumption.
Qed.

Lemma FJ_appended y sp sp' n0 b0 n b r sm1 :
  FJ y sp n0 b0 -> wf_record r ->
  rs_validate (m_rs (k_sm (y_core y))) r = None ->
  keep_rec (m_rs (k_sm (y_core y))) r ->
  sm_apply (k_sm (y_core y)) r (ck_id (k_open (y_core y)))
           (ck_end (k_open (y_core y)), rec_size r) = (sm1, None) ->
  Rlog sm1 sp' ->
  ok n b -> pstep (k_sm (y_core y)) sp sp' r n0 b0 n b ->
  FJ (with_core y (JournalChunk.appended (y_core y) r sm1)) sp' n b.
Proof.
  intros F Hr Hv Hkeep Hs Hsim Hok Hstep.
  pose proof (fj_jw _ _ _ _ F) as JW. pose proof (jw_inv _ JW) as J.
  destruct (fj_g _ _ _ _ F) as (G & HG & GF & GBd).
  destruct (GJ_open y G JW (gc_gj _ _ HG)) as (G0 & rs & -> & EG0 & Fo1 & _ & st & tl & Fo3). cbn [fst snd] in Fo1, Fo3.
  set (k := y_core y) in *. set (o := ck_id (k_open k)) in *.
  pose proof (GC_appended y G0 rs r sm1 JW HG Hr Hv Hkeep Hs) as HG1.
  assert (Hpre : Forall (fun g => fst g < o) G0).
  { rewrite Forall_forall. intros g Hg. apply (ji_pre_lt _ _ _ J). fold k. rewrite <- EG0. apply in_map, Hg. }
  assert (Esm : sm1 = fst (sm_apply (k_sm k) r o (o + rsum rs, rec_size r))).
  { pose proof (ji_open_end _ _ _ J) as He. fold k o in He. rewrite rsum_blen, <- Fo1, <- He, Hs. reflexivity. }
  assert (Hlog : forall e, In e (m_log sm1) -> In e (m_log (k_sm k)) \/ ld_chunk (snd e) = o).
  { intros e He. rewrite Esm in He. apply sm_apply_log in He.
    destruct He as [He|(id & p & _ & ->)]; [left; exact He|right; reflexivity]. }
  assert (HJ1 : Jc (JournalChunk.appended k r sm1)).
  { apply (Jc_record k r sm1 (o + rsum rs, rec_size r) (fj_Jc _ _ _ _ F)); [|symmetry; exact Esm].
    intros c Hc. pose proof (ji_closed_lt _ _ _ J c Hc) as Hlt. fold k o in Hlt. lia. }
  constructor; cbn [with_core y_core JournalChunk.appended k_sm k_closed k_open].
  - apply (jw_appended y r sm1 JW Hr Hv Hs).
  - exact Hsim.
  - exact Hok.
  - exists (G0 ++ [(o, rs ++ [r])]). split; [exact HG1|]. split.
    + rewrite Esm. apply (FamP_record cfg' _ _ G0 o rs r sp sp' (k_sm k) GF).
      * eapply Forall_impl; [|exact Hpre]. cbv beta. intros; lia.
      * exact Hv.
      * apply Hstep.
      * intros G1 lo t. apply Hstep.
    + apply (GB_record G0 o rs r (m_log (k_sm k)) _ GBd); [rewrite Fo3; discriminate|exact Hlog|].
      eapply Forall_impl; [|exact Hpre]. cbv beta. intros; lia.
  - exact HJ1.
Qed.

Lemma FJ_rotated y1 sp n b :
  FJ y1 sp n b ->
  FJ (apply_effs (with_core y1 (rotated (y_core y1))) (rotate_effs (y_core y1))) sp n b.
Proof.
  intros F.
  pose proof (fj_jw _ _ _ _ F) as JW. pose proof (jw_inv _ JW) as J.
  destruct (fj_g _ _ _ _ F) as (G & HG & GF & GBd).
  pose proof (GC_rotated y1 G JW HG) as HG2.
  set (k1 := y_core y1) in *. set (o := ck_id (k_open k1)) in *. set (off := ck_end (k_open k1)) in *.
  pose proof (ji_open_lt_end _ _ _ J) as Hlt. fold k1 o off in Hlt.
  pose proof (fj_L _ _ _ _ F) as HL. fold k1 in HL.
  constructor; rewrite ?apply_effs_core; cbn [with_core y_core].
  - apply (jw_rotated y1 JW).
  - apply (fj_L _ _ _ _ F).
  - apply (fj_ok _ _ _ _ F).
  - exists (G ++ [(off, [RState (m_rs (k_sm k1))])]). cbn [rotated k_sm].
    split; [exact HG2|]. split.
    + assert (Hch : forall e, In e (m_log (k_sm k1)) -> ld_chunk (snd e) < off).
      { intros e He. destruct (ji_log_In _ _ _ J e He) as (_ & Hle & _). fold k1 o in Hle. lia. }
      apply FamP_rotate; [exact GF|exact Hch|apply P_new, (fj_ok _ _ _ _ F)|].
      intros g G1 t Hrel. apply (P_old _ _ _ _ _ _ _ _ Hrel Hch).
    + destruct (GJ_open y1 G JW (gc_gj _ _ HG)) as (G0 & rs & -> & _). apply GB_rotate; [exact GBd|].
      intros e He _. exact (Rlog_entry_le_last _ _ e HL He).
  - exact (Jc_rotate k1 sp (fj_Jc _ _ _ _ F) HL (rotated_closed _ _ _ J)).
Qed.

Lemma FJ_purged y sp n b upto rm rest :
  FJ y sp n b -> pop_obsolete upto (k_closed (y_core y)) = (rm, rest) ->
  opair_cmp (Some upto) (sp_purged sp) <> Gt ->
  FJ (with_core y (purged_core (y_core y) rm rest)) sp n b.
Proof.
  intros F Hp Hup.
  destruct (fj_g _ _ _ _ F) as (G & HG & GF & GBd).
  constructor; cbn [with_core y_core].
  - apply (jw_purged y upto rm rest (fj_jw _ _ _ _ F) Hp).
  - apply (fj_L _ _ _ _ F).
  - apply (fj_ok _ _ _ _ F).
  - exists G. split; [apply GC_purged, HG|split; assumption].
  - exact (Jc_pop _ sp upto rm rest (fj_Jc _ _ _ _ F) (fj_L _ _ _ _ F) Hup Hp).
Qed.

Lemma FJ_flush y sp n b cb :
  FJ y sp n b ->
  FJ (apply_effs (with_core y (fst (do_flush (y_core y) cb))) (snd (do_flush (y_core y) cb))) sp n b.
Proof.
  intros F. pose proof (fj_jw _ _ _ _ F) as JW.
  destruct (fj_g _ _ _ _ F) as (G & HG & GF & GBd).
  destruct (GC_flush y cb G JW HG) as (G1 & G2 & -> & HG').
  constructor; rewrite ?apply_effs_core.
  - apply (jw_flush y cb JW).
  - apply (fj_L _ _ _ _ F).
  - apply (fj_ok _ _ _ _ F).
  - exists G2. split; [exact HG'|]. split; [eapply FamP_app_r; exact GF|eapply GB_app_r; exact GBd].
  - destruct (fj_Jc _ _ _ _ F) as [A B]. constructor; [exact A|exact B].
Qed.

Lemma FJ_rec y sp n b r sw k' res ef :
  match r with RAppend _ p => FJ y sp (n + 1) (b + psize p) | _ => FJ y sp n b end ->
  wf_record r -> keep_rec (m_rs (k_sm (y_core y))) r -> rec_sw sp r sw ->
  append_and_apply (y_core y) r = Ret (k', res, ef) ->
  FJ (commit y k' ef) (fst (spec_one sp sw)) n b /\ res_agrees res (snd (spec_one sp sw)).
Proof.
  intros HF Hr Hk Hs Ha.
  assert (G : exists n0 b0, FJ y sp n0 b0 /\ n <= n0 /\ b <= b0 /\
            forall sp', spec_step sp sw = Some sp' -> pstep (k_sm (y_core y)) sp sp' r n0 b0 n b).
  { assert (Other : match r with RAppend _ _ => False | _ => True end -> FJ y sp n b ->
              exists n0 b0, FJ y sp n0 b0 /\ n <= n0 /\ b <= b0 /\
                forall sp', spec_step sp sw = Some sp' -> pstep (k_sm (y_core y)) sp sp' r n0 b0 n b).
    { intros Hna F. exists n, b. split; [exact F|]. split; [lia|]. split; [lia|]. intros sp' Es.
      apply (P_rec _ _ _ _ sw); [apply (fj_L _ _ _ _ F)|exact Hs|exact Hna|exact Es]. }
    destruct r as [v|id p|id|o|id|st]; try (apply Other; [exact I|exact HF]).
    (* an append: the budget before it is larger by one item and the size of the payload *)
    inversion Hs; subst. exists (n + 1), (b + psize p). split; [exact HF|]. split; [lia|]. split; [lia|].
    intros sp' Es. apply P_entry; [apply (fj_L _ _ _ _ HF)|exact Es]. }
  destruct G as (n0 & b0 & HF0 & Hn & Hb & HP).
  destruct (aaa_sim _ sp r sw k' res ef (fj_L _ _ _ _ HF0) Hs Ha) as [Hag HA]. split; [|exact Hag].
  unfold spec_one. destruct (spec_step sp sw) as [sp'|]; cbn [fst].
  - destruct HA as (sm1 & Hv & Hsm & HL1 & Ht).
    assert (Hok : ok n b) by (eapply ok_mono; [apply (fj_ok _ _ _ _ HF0)|exact Hn|exact Hb]).
    pose proof (FJ_appended y sp sp' n0 b0 n b r sm1 HF0 Hr Hv Hk Hsm HL1 Hok (HP sp' eq_refl)) as F1.
    destruct Ht as [[-> ->]|[-> ->]]; [exact F1|apply (FJ_rotated _ _ _ _ F1)].
  - destruct HA as [-> ->]. rewrite commit_nil. eapply FJ_mono; eassumption.
Qed.

Lemma fj_do_write : forall y sp w n b,
  FJ y sp (n + N.of_nat (length (op_entries (OW w)))) (b + bytes_of (op_entries (OW w))) ->
  wop_legal sp w = true -> wop_wf w ->
  exists k' r effs, do_write (y_core y) w = Ret (k', r, effs) /\
    FJ (commit y k' effs) (fst (spec_wop sp w)) n b.
Proof.
  intros y sp w n b F Hleg Hwf. pose proof (fj_jw _ _ _ _ F) as JW.
  destruct (do_write (y_core y) w) as [[[k' r] effs]|] eqn:H;
    [|destruct (do_write_no_panic _ _ (jw_open_nonempty _ JW) H)].
  exists k', r, effs. split; [reflexivity|].
  refine (proj1 (do_write_sim_gen (fun k effs sp n b => FJ (commit y k effs) sp n b)
                   (fun k effs => FJ_mono (commit y k effs)) w _ _ _
                   (y_core y) sp n b k' r effs _ Hleg H)).
  - intros k ef sp0 n0 b0 F0. pose proof (fj_L _ _ _ _ F0) as HR. rewrite commit_core in HR. exact HR.
  - intros k ef0 sp0 n0 b0 r0 sw k1 res ef Hi Hs F0 Ha. rewrite <- (commit_commit y k).
    rewrite <- (commit_core y k ef0) in Hi, Ha.
    assert (JW0 : journal_wf (commit y k ef0)) by (destruct r0; exact (fj_jw _ _ _ _ F0)).
    exact (FJ_rec _ sp0 n0 b0 r0 sw k1 res ef F0 (issues_wf _ _ r0 JW0 Hwf Hi) (issues_keep _ _ _ _ Hleg Hi) Hs Ha).
  - intros k ef sp0 n0 b0 u0 ids rest F0 Hu Hp. rewrite <- (commit_core y k ef) in Hp.
    pose proof (FJ_purged _ _ n0 b0 u0 ids rest F0 Hp Hu) as Fp. rewrite commit_core in Fp.
    unfold commit in *. rewrite apply_effs_with_core in Fp |- *. exact Fp.
  - rewrite commit_nil. exact F.
Qed.

Lemma FJ_core y k' sp n b : FJ y sp n b -> core_eqj (y_core y) k' -> FJ (with_core y k') sp n b.
Proof.
  intros F Ec. apply (FJ_frame y _ sp n b F (jw_with_core y k' (fj_jw _ _ _ _ F) Ec)); [|exact Ec].
  apply logical_core_eqj; [reflexivity|exact Ec].
Qed.

(* every operation but a restart, under any cache limits (a drain included) *)
Lemma fj_run_op : forall y sp o n b,
  FJ y sp (n + N.of_nat (length (op_entries o))) (b + bytes_of (op_entries o)) ->
  op_legal sp o = true -> match o with ORestart _ => False | _ => True end -> op_wf o ->
  exists y' r, run_op y o = (Some y', r) /\ FJ y' (spec_op sp o) n b.
Proof.
  intros y sp o n b F Hp Hnr Hwf.
  assert (F0 : FJ y sp n b) by (eapply FJ_mono; [exact F|lia|lia]).
  pose proof (fj_jw _ _ _ _ F0) as JW.
  destruct o as [w|cb|from to| | | | | |cfg]; try destruct Hnr; cbn [run_op spec_op];
    try (eexists; eexists; split; [reflexivity|exact F0]).
  - destruct (fj_do_write y sp w n b F Hp Hwf) as (k' & r & effs & Hd & F').
    rewrite Hd. eexists. eexists. split; [reflexivity|exact F'].
  - pose proof (FJ_flush y sp n b cb F0) as F'.
    destruct (do_flush (y_core y) cb) as [k effs]. eexists. eexists. split; [reflexivity|exact F'].
  - pose proof (JournalFacts.do_read_core (y_core y) (y_disk y) from to) as Ec.
    destruct (do_read (y_core y) (y_disk y) from to) as [k items].
    eexists. eexists. split; [reflexivity|]. apply (FJ_core y k sp n b F0 Ec).
  - eexists. eexists. split; [reflexivity|].
    apply (FJ_frame y _ sp n b F0 (jw_idle y JW)); [|apply JournalDisk.worker_idle_core].
    apply logical_core_eqj; [apply wfinal_idle|apply JournalDisk.worker_idle_core].
  - eexists. eexists. split; [reflexivity|]. apply (FJ_core y _ sp n b F0), core_eqj_cache.
Qed.

Lemma FJ_init : forall cfg n b,
  ok n b -> FJ (sys0 cfg) spec0 n b.
Proof.
  intros cfg n b H3.
  constructor.
  - apply jw_init.
  - apply R_split, R_init.
  - exact H3.
  - exists [(0, [RState rstate0])]. split; [apply GC_init|]. split.
    + apply (FamP_rotate cfg' _ [] spec0 (sm_new cfg) 0 I); [intros e []|apply P_new, H3|].
      intros g G1 t Hrel. apply (P_old _ _ _ _ _ _ _ _ Hrel). intros e [].
    + cbn. split; exact I.
  - constructor; [intros e []|intros e c []].
Qed.

End Gen.

Section Inv.
Variable cfg' : config.

Record FI (y : sys) (sp : spec) (n b : N) : Prop := mkFI {
  fi_jw : journal_wf y;
  fi_R : R (k_sm (y_core y)) sp;
  fi_B : Budget (m_cache (k_sm (y_core y))) n b;
  fi_room : n <= c_max_items cfg' /\ b <= c_capacity cfg';
  fi_g : exists G, GJ y G /\ Fam cfg' sp (k_sm (y_core y)) n b G /\
                   Chain (m_rs (k_sm (y_core y))) G /\ GB (m_log (k_sm (y_core y))) G /\ HK G;
  fi_live : live_ok (y_core y);
  fi_cb : closed_bound (y_core y) }.

(* the instance of C02: every entry the replay knows is resident, within a budget *)
Definition P2 (n b : N) (_ : list jfile) (sp : spec) (t : sm) : Prop := Pc sp t n b.
Definition room (n b : N) : Prop := n <= c_max_items cfg' /\ b <= c_capacity cfg'.
Definition FJ2 := FJ cfg' P2 room.

Lemma FI_split y sp n b : FI y sp n b <->
  FJ2 y sp n b /\ Rcache (fun _ => True) (m_cache (k_sm (y_core y))) sp /\
  Budget (m_cache (k_sm (y_core y))) n b.
Proof.
  split.
  - intros [A B C D (G0 & E1 & E2 & E3 & E4 & E5) F G]. apply R_split in B. destruct B as [BL BC].
    split; [|split; assumption]. constructor; try assumption; [|apply Jc_iff; split; assumption].
    exists G0. split; [constructor; assumption|]. split; [exact (proj1 (Fam_P cfg' G0 sp _ n b) E2)|exact E4].
  - intros ([A B D (G0 & [E1 E3 E5] & E2 & E4) F] & BC & C). apply Jc_iff in F. destruct F as [F G].
    constructor; try assumption.
    + apply R_split. split; assumption.
    + exists G0. split; [exact E1|]. split; [exact (proj2 (Fam_P cfg' G0 sp _ n b) E2)|]. auto.
Qed.

Lemma P2_mono : forall n b n' b' G sp t, P2 n b G sp t -> n' <= n -> b' <= b -> P2 n' b' G sp t.
Proof. intros n b n' b' G sp t [HC HB] Hn Hb. split; [exact HC|eapply Budget_mono; eassumption]. Qed.

Lemma room_mono : forall n b n' b', room n b -> n' <= n -> b' <= b -> room n' b'.
Proof. unfold room. intros. lia. Qed.

Lemma P2_entry : forall s sp sp' id p n b, Rlog s sp -> spec_step sp (SEntry id p) = Some sp' ->
  pstep P2 s sp sp' (RAppend id p) (n + 1) (b + psize p) n b.
Proof.
  intros s sp sp' id p n b HR Es. split.
  - destruct (spec_entry_inv sp id p sp' Es) as (_ & E1 & Hidx & _).
    intros id0 p0 E. inversion E; subst id0 p0. apply (entry_above s sp id p HR E1 Hidx).
  - intros G1 o rs lo t seg Hrel _ HP. exact (Pc_step lo s t sp sp' _ _ n b o seg HR Hrel (WsEntry sp id p) Es HP).
Qed.

Lemma P2_rec : forall s sp sp' r sw n b, Rlog s sp -> rec_sw sp r sw ->
  match r with RAppend _ _ => False | _ => True end -> spec_step sp sw = Some sp' ->
  pstep P2 s sp sp' r n b n b.
Proof.
  intros s sp sp' r sw n b HR Hw Hr Es. split; [intros id p E; subst r; destruct Hr|].
  intros G1 o rs lo t seg Hrel _ HP. apply (Pc_step lo s t sp sp' r sw n b o seg HR Hrel Hw Es).
  destruct r; try exact HP. destruct Hr.
Qed.

Lemma P2_new : forall n b sp st off, room n b ->
  P2 n b [(off, [RState st])] sp (fst (chunk_replay (sm_new cfg') (off, [RState st]))).
Proof.
  intros n b sp st off [Hn Hb]. rewrite chunk_replay_head. split; [|unfold Budget; cbn; split; lia].
  constructor; cbn; [intros e _ []|constructor|intros e []].
Qed.

Lemma P2_old : forall s n b sp g G1 t off, rel (fst g) s t ->
  (forall e, In e (m_log s) -> ld_chunk (snd e) < off) -> P2 n b (g :: G1) sp t ->
  P2 n b ((g :: G1) ++ [(off, [RState (m_rs s)])]) sp (fst (chunk_replay t (off, [RState (m_rs s)]))).
Proof.
  intros s n b sp g G1 t off _ _ [[C1 C2 C3] [B1 B2]]. rewrite chunk_replay_head.
  split; [constructor; assumption|unfold Budget; cbn; split; assumption].
Qed.

Lemma FI_Inv y sp n b : FI y sp n b -> Inv (y_core y) sp n b.
Proof.
  intros F. split; [apply (fi_R _ _ _ _ F)|]. split; [apply (fi_B _ _ _ _ F)|].
  apply jw_open_nonempty, (fi_jw _ _ _ _ F).
Qed.

Lemma FJ_Inv y sp n b : FJ2 y sp n b -> Inv (y_core y) sp n b -> FI y sp n b.
Proof.
  intros F (HR & HB & _). apply FI_split. split; [exact F|]. split; [apply R_split, HR|exact HB].
Qed.

Lemma FI_mono y sp n b n' b' : FI y sp n b -> n' <= n -> b' <= b -> FI y sp n' b'.
Proof.
  intros F Hn Hb. apply FI_split in F. destruct F as (F & C & B). apply FI_split.
  split; [eapply (FJ_mono _ _ _ P2_mono room_mono); eassumption|]. split; [exact C|eapply Budget_mono; eassumption].
Qed.

Lemma fi_run_op : forall y sp o n b,
  FI y sp (n + N.of_nat (length (op_entries o))) (b + bytes_of (op_entries o)) ->
  op_plain sp o = true -> op_wf o ->
  exists y' r, run_op y o = (Some y', r) /\ FI y' (spec_op sp o) n b.
Proof.
  intros y sp o n b F Hp Hwf.
  destruct (run_op_sim y sp o n b (FI_Inv _ _ _ _ F) Hp) as (y' & r & Hop & HI' & _).
  exists y', r. split; [exact Hop|].
  destruct (fj_run_op _ _ _ P2_mono room_mono P2_entry P2_rec P2_new P2_old y sp o n b
              (proj1 (proj1 (FI_split _ _ _ _) F))) as (y1 & r1 & Hop1 & F1);
    [destruct o; try discriminate Hp; try reflexivity; exact Hp
    |destruct o; try discriminate Hp; exact I|exact Hwf|].
  rewrite Hop in Hop1. inversion Hop1; subst y1 r1. apply FJ_Inv; assumption.
Qed.


Lemma fi_run_ops : forall ops y sp res fin n b,
  FI y sp (n + N.of_nat (length (Hist.appended ops))) (b + appended_bytes ops) ->
  ops_plain sp ops = true -> Forall op_wf ops -> run_ops y ops = (res, fin) ->
  exists y', fin = Some y' /\ FI y' (spec_ops sp ops) n b.
Proof. intros ops. exact (run_ops_sim_gen FI op_wf FI_mono fi_run_op ops). Qed.

Lemma FI_init : forall cfg n b,
  n <= c_max_items cfg -> b <= c_capacity cfg ->
  n <= c_max_items cfg' -> b <= c_capacity cfg' ->
  FI (sys0 cfg) spec0 n b.
Proof.
  intros cfg n b H1 H2 H3 H4. apply FI_split. split; [apply (FJ_init _ _ _ P2_new P2_old), (conj H3 H4)|].
  split; [apply R_split, R_init|]. unfold Budget. cbn. split; lia.
Qed.

End Inv.
