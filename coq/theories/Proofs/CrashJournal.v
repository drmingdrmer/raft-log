(* C03/C05, stage A, caller side: the L2 journal invariant ([GI] the journal itself, [HW] what holds of
   the files whatever the worker does, [EI] the exact accounting while it lives) and what one write call,
   one flush call do to it ([write_step], [flush_step], stated with [wres_step]).  The ghost journal [G] lists every chunk file ever created
   (or about to be created by the call in progress) with its records. *)
From Coq Require Import List NArith Lia Sorting.Sorted.
From Coq.Strings Require Import Byte.
From RaftLog Require Import Model.Types Model.Codec Model.Core
  Model.Sys.
From RaftLog Require Import Proofs.SmFacts.
From RaftLog Require Import Proofs.CodecFacts Proofs.JournalDisk Proofs.JournalChunk
  Proofs.JournalFacts.
From RaftLog Require Import Proofs.CrashBase.
From RaftLog Require Proofs.PurgeFacts.
Import ListNotations.
Local Open Scope N_scope.
Local Arguments enc_record : simpl never.

Definition gfile_ok (g : jfile) : Prop :=
  Forall wf_record (snd g) /\ exists st tl, snd g = RState st :: tl.

(* the journal against the core: [cr] the files created so far, [t] the caller's micro-effects still to
   come. Its bytes satisfy the L1 journal invariant [jinv] for the chunks of [k]; its files are those
   created or about to be, in order, abutting, each headed by a snapshot that the previous file's
   records lead to ([gi_chain]); the last one is the open chunk *)
Record GI (k : core) (cr : list N) (t : list xeff) (G : list jfile) : Prop := mkGI {
  gi_jinv : jinv k (chunk_ids k) (gbytes G);
  gi_ids : map fst G = cr ++ creates t;
  gi_sorted : StronglySorted N.lt (map fst G);
  gi_ok : Forall gfile_ok G;
  gi_abut : RF.Abut G;
  gi_chain : RS.Chain (m_rs (k_sm k)) G;
  gi_last : exists G0 rs, G = G0 ++ [(ck_id (k_open k), rs)];
  gi_hd : incl (hd_ids t) (map fst G) }.

(* what survives the worker's death: a file and the head the caller still owes it are a prefix of
   its journal file *)
Definition HW (d : disk) (t : list xeff) (G : list jfile) : Prop :=
  forall id, In id (map f_id d ++ creates t) ->
             bprefix (data_of d id ++ theads t id) (gbytes G id).

(* no file beyond the open chunk: the name a rotation picks is not on the disk *)
Definition dle (k : core) (d : disk) : Prop := Forall (fun f => f_id f <= ck_id (k_open k)) d.

(* exact byte accounting while the worker is alive: [c0] is the worker's newest file,
   [S] everything still to be carried out, in order *)
Record EI (k : core) (d : disk) (c0 : N) (S : list xeff) (G : list jfile) : Prop := mkEI {
  ei_fcur : fcur c0 S = ck_id (k_open k);
  ei_E : forall id, In id (map f_id d ++ creates S) ->
         data_of d id ++ pw c0 S id ++ (if N.eqb (ck_id (k_open k)) id then k_pending k else [])
         = gbytes G id;
  ei_hf : hf [c0] S;
  ei_bnd : Forall (fun c => c <= ck_id (k_open k)) (seen_of [c0] S) }.

Lemma Abut_last_indep G0 o x y : RF.Abut (G0 ++ [(o, x)]) -> RF.Abut (G0 ++ [(o, y)]).
Proof.
  induction G0 as [|g G0 IH]; intros H; simpl in *; [auto|].
  destruct H as [H1 H2]. split; [|now apply IH].
  destruct G0 as [|g' G0']; simpl in *; exact H1.
Qed.

Lemma Abut_snoc G0 g h : RF.Abut (G0 ++ [g]) -> fst h = fst g + RF.glen g -> RF.Abut ((G0 ++ [g]) ++ [h]).
Proof.
  induction G0 as [|a G0 IH]; intros H E; simpl in *; [auto|].
  destruct H as [H1 H2]. split; [|now apply IH].
  destruct G0 as [|g' G0']; simpl in *; exact H1.
Qed.

Lemma gbytes_last G0 o rs : StronglySorted N.lt (map fst (G0 ++ [(o, rs)])) ->
  gbytes (G0 ++ [(o, rs)]) o = encs rs.
Proof. intros H. unfold gbytes. now rewrite glook_last. Qed.

Lemma gbytes_snoc_new (G : list jfile) off rs : ~ In off (map fst G) ->
  gbytes (G ++ [(off, rs)]) off = encs rs.
Proof. intros H. unfold gbytes. pose proof (glook_snoc_new G (off, rs) H) as E. simpl in E. now rewrite E. Qed.

Lemma gbytes_snoc_other (G : list jfile) off rs id : id <> off ->
  gbytes (G ++ [(off, rs)]) id = gbytes G id.
Proof. intros H. unfold gbytes. pose proof (glook_snoc_other G (off, rs) id H) as E. now rewrite E. Qed.

Lemma gbytes_last_other G0 o rs rs' id : id <> o ->
  gbytes (G0 ++ [(o, rs')]) id = gbytes (G0 ++ [(o, rs)]) id.
Proof. intros H. now rewrite !gbytes_snoc_other by exact H. Qed.

Lemma map_fst_last (G0 : list jfile) o x y : map fst (G0 ++ [(o, x)]) = map fst (G0 ++ [(o, y)]).
Proof. rewrite !map_app. reflexivity. Qed.

Lemma GI_record k cr t G0 rs r sm1 :
  let o := ck_id (k_open k) in
  GI k cr t (G0 ++ [(o, rs)]) -> wf_record r ->
  rs_validate (m_rs (k_sm k)) r = None ->
  sm_apply (k_sm k) r o (ck_end (k_open k), rec_size r) = (sm1, None) ->
  GI (appended k r sm1) cr t (G0 ++ [(o, rs ++ [r])]).
Proof.
  intros o [J Hi Hs Hok Hab Hch _ Hhd] Hr Hv Hsm.
  assert (Hs' : StronglySorted N.lt (map fst (G0 ++ [(o, rs ++ [r])]))).
  { now rewrite (map_fst_last G0 o _ rs). }
  constructor.
  - change (chunk_ids (appended k r sm1)) with (chunk_ids k).
    apply (jinv_append k (chunk_ids k) (gbytes (G0 ++ [(o, rs)]))); try assumption.
    + fold o. rewrite !gbytes_last by assumption. rewrite encs_app, encs_one. reflexivity.
    + intros j Hj. now apply gbytes_last_other.
  - now rewrite (map_fst_last G0 o _ rs).
  - exact Hs'.
  - apply Forall_app in Hok. destruct Hok as [Ho1 Ho2]. apply Forall_app. split; [exact Ho1|].
    inversion Ho2 as [|g l [Hw (st & tl & E)] _]; subst. simpl in *. constructor; [|constructor].
    split; simpl.
    + apply Forall_app. split; [exact Hw|]. now repeat constructor.
    + exists st, (tl ++ [r]). now rewrite E.
  - eapply Abut_last_indep; eauto.
  - simpl. apply (RS.Chain_record G0 o rs r (m_rs (k_sm k))); [exact Hch|].
    apply (sm_apply_ok _ _ _ _ _ _ Hv Hsm).
  - exists G0, (rs ++ [r]). reflexivity.
  - now rewrite (map_fst_last G0 o _ rs).
Qed.

Lemma HW_record d t G0 o rs r : StronglySorted N.lt (map fst (G0 ++ [(o, rs)])) ->
  HW d t (G0 ++ [(o, rs)]) -> HW d t (G0 ++ [(o, rs ++ [r])]).
Proof.
  intros Hs H id Hin. specialize (H id Hin). destruct (N.eq_dec id o) as [->|Hne].
  - rewrite gbytes_last in * by (try assumption; now rewrite (map_fst_last G0 o _ rs)).
    rewrite encs_app. now apply bprefix_app_l.
  - now rewrite (gbytes_last_other G0 o rs).
Qed.

Lemma EI_record k d c0 S G0 rs r sm1 :
  let o := ck_id (k_open k) in
  StronglySorted N.lt (map fst (G0 ++ [(o, rs)])) ->
  EI k d c0 S (G0 ++ [(o, rs)]) -> EI (appended k r sm1) d c0 S (G0 ++ [(o, rs ++ [r])]).
Proof.
  intros o Hs [Hf HE Hh Hb]. constructor.
  - exact Hf.
  - intros id Hin. specialize (HE id Hin).
    change (ck_id (k_open (appended k r sm1))) with o.
    change (k_pending (appended k r sm1)) with (k_pending k ++ enc_record r).
    fold o in HE.
    destruct (N.eqb_spec o id) as [E|Hne].
    + subst id. rewrite gbytes_last in * by (try assumption; now rewrite (map_fst_last G0 o _ rs)).
      rewrite encs_app, encs_one, <- HE, <- !app_assoc. reflexivity.
    + rewrite (gbytes_last_other G0 o rs) by congruence. exact HE.
  - exact Hh.
  - exact Hb.
Qed.

Definition rot_x (k1 : core) : list xeff := flat_map expand_eff (rotate_effs k1).

Lemma rot_x_eq k1 :
  let off := ck_end (k_open k1) in
  rot_x k1 = [XCreate off; XWriteHead off (enc_record (RState (m_rs (k_sm k1))))] ++
             map XSend (match k_pending k1 with [] => [] | _ => [WWrite off (k_pending k1) None] end) ++
             [XSend (WAppendFile off (r_last (m_rs (k_sm k1))))].
Proof. unfold rot_x, rotate_effs. simpl. destruct (k_pending k1); reflexivity. Qed.

Lemma creates_rot_x k1 : creates (rot_x k1) = [ck_end (k_open k1)].
Proof. exact (PurgeFacts.rotate_effs_cr k1). Qed.

Lemma GI_rotate k1 cr t G :
  let off := ck_end (k_open k1) in
  GI k1 cr t G ->
  GI (rotated k1) cr (t ++ rot_x k1) (G ++ [(off, [RState (m_rs (k_sm k1))])]) /\
  ck_id (k_open k1) < off /\ ~ In off (map fst G).
Proof.
  intros off [J Hi Hs Hok Hab Hch (G0 & rs & EG) Hhd].
  set (o := ck_id (k_open k1)) in *. set (st := m_rs (k_sm k1)).
  assert (Hoff : off = o + blen (gbytes G o)) by apply (ji_open_end _ _ _ J).
  assert (Hlt : o < off).
  { pose proof (chunk_ok_nonempty _ _ (ji_open_ok _ _ _ J)). fold o in H. lia. }
  assert (Hmax : forall x, In x (map fst G) -> x <= o).
  { intros x Hx. rewrite EG, map_app in Hx, Hs. simpl in Hx, Hs. eapply ss_last_max; eauto. }
  assert (Hnin : ~ In off (map fst G)).
  { intros Hx. apply Hmax in Hx. lia. }
  pose proof (creates_rot_x k1) as Hcr. fold off in Hcr.
  assert (Hhi : hd_ids (rot_x k1) = [off]).
  { rewrite rot_x_eq. fold off. rewrite !hd_ids_app, hd_ids_sends. reflexivity. }
  split; [|split; assumption].
  constructor.
  - pose proof (jinv_rotate k1 (chunk_ids k1) (gbytes G)
                  (gbytes (G ++ [(off, [RState st])])) J) as JR.
    fold off in JR.
    assert (JR' : jinv (rotated k1) (chunk_ids k1 ++ [off]) (gbytes (G ++ [(off, [RState st])]))).
    { apply JR.
      - rewrite gbytes_snoc_new by exact Hnin. apply encs_one.
      - intros j Hj. now apply gbytes_snoc_other. }
    rewrite <- (ji_ids _ _ _ JR'). exact JR'.
  - rewrite map_app, Hi, creates_app, Hcr, <- app_assoc. reflexivity.
  - rewrite map_app. simpl. apply ss_app; [exact Hs|repeat constructor|].
    intros a b Ha [<-|[]]. apply Hmax in Ha. lia.
  - apply Forall_app. split; [exact Hok|]. constructor; [|constructor]. split; simpl.
    + constructor; [apply (ji_rs _ _ _ J)|constructor].
    + exists st, []. reflexivity.
  - rewrite EG in Hab |- *. apply Abut_snoc; [exact Hab|]. simpl. unfold RF.glen. simpl.
    rewrite Hoff, EG, gbytes_last by (rewrite <- EG; exact Hs). reflexivity.
  - simpl. apply RS.Chain_rotate. exact Hch.
  - exists G, [RState st]. reflexivity.
  - rewrite hd_ids_app, Hhi, map_app. simpl. intros x Hx. apply in_app_or in Hx.
    apply in_or_app. destruct Hx as [Hx|Hx]; [left; now apply Hhd|right; exact Hx].
Qed.

Lemma HW_rotate k1 cr t G d :
  let off := ck_end (k_open k1) in
  GI k1 cr t G -> dle k1 d -> HW d t G ->
  HW d (t ++ rot_x k1) (G ++ [(off, [RState (m_rs (k_sm k1))])]).
Proof.
  intros off GIk Hd H.
  destruct (GI_rotate k1 cr t G GIk) as (_ & Hlt & Hnin). fold off in Hlt, Hnin.
  pose proof (creates_rot_x k1) as Hcr. fold off in Hcr.
  assert (Hth : forall id, theads (rot_x k1) id =
                 if N.eqb off id then enc_record (RState (m_rs (k_sm k1))) else []).
  { intros id. rewrite rot_x_eq. fold off. simpl. destruct (k_pending k1); simpl; now rewrite app_nil_r. }
  intros id Hin. rewrite creates_app, Hcr, app_assoc in Hin. apply in_app_or in Hin.
  rewrite theads_app, Hth. destruct (N.eqb_spec off id) as [<-|Hne].
  - assert (Hnd : ~ In off (map f_id d)).
    { intros Hx. apply in_map_iff in Hx. destruct Hx as (f & Ef & Hf).
      unfold dle in Hd. rewrite Forall_forall in Hd. specialize (Hd f Hf). lia. }
    rewrite (data_of_absent _ _ Hnd).
    rewrite theads_notin.
    + simpl. rewrite gbytes_snoc_new by exact Hnin. rewrite encs_one.
      apply bprefix_refl.
    + intros Hx. apply Hnin. apply (gi_hd _ _ _ _ GIk). exact Hx.
  - rewrite app_nil_r. destruct Hin as [Hin|[E|[]]]; [|congruence].
    rewrite gbytes_snoc_other by congruence. now apply H.
Qed.

Lemma EI_rotate k1 cr t G d c0 S :
  let off := ck_end (k_open k1) in
  GI k1 cr t G -> dle k1 d -> EI k1 d c0 S G ->
  EI (rotated k1) d c0 (S ++ rot_x k1) (G ++ [(off, [RState (m_rs (k_sm k1))])]).
Proof.
  intros off GIk Hd [Hf HE Hh Hb].
  destruct (GI_rotate k1 cr t G GIk) as (_ & Hlt & Hnin). fold off in Hlt, Hnin.
  set (o := ck_id (k_open k1)) in *. set (st := m_rs (k_sm k1)).
  assert (Hns : ~ In off (seen_of [c0] S)).
  { intros Hx. rewrite Forall_forall in Hb. specialize (Hb _ Hx). lia. }
  pose proof (creates_rot_x k1) as Hcr. fold off in Hcr.
  assert (Hpw : forall id, pw o (rot_x k1) id =
            (if N.eqb off id then enc_record (RState st) else []) ++
            (if N.eqb o id then k_pending k1 else [])).
  { intros id. rewrite rot_x_eq. fold off. simpl. destruct (k_pending k1) as [|b p]; simpl.
    - destruct (N.eqb o id); reflexivity.
    - now rewrite app_nil_r. }
  assert (Hfc : fcur o (rot_x k1) = off).
  { rewrite rot_x_eq. fold off. simpl. rewrite fcur_app. destruct (k_pending k1); reflexivity. }
  assert (Hso : seen_of (seen_of [c0] S) (rot_x k1) = off :: off :: seen_of [c0] S).
  { rewrite rot_x_eq. fold off. simpl. rewrite seen_of_app. destruct (k_pending k1); reflexivity. }
  constructor.
  - rewrite fcur_app, Hf. fold o. rewrite Hfc. reflexivity.
  - intros id Hin. rewrite creates_app, Hcr, app_assoc in Hin. apply in_app_or in Hin.
    rewrite pw_app, Hf. fold o. rewrite Hpw.
    change (ck_id (k_open (rotated k1))) with off. change (k_pending (rotated k1)) with (@nil byte).
    destruct (N.eqb_spec off id) as [<-|Hne].
    + assert (Hnd : ~ In off (map f_id d)).
      { intros Hx. apply in_map_iff in Hx. destruct Hx as (f & Ef & Hfd).
        unfold dle in Hd. rewrite Forall_forall in Hd. specialize (Hd f Hfd). fold o in Hd. lia. }
      rewrite (data_of_absent _ _ Hnd), (pw_no_target S c0 [c0] off (or_introl eq_refl) Hns).
      destruct (N.eqb_spec o off); [lia|]. simpl. rewrite !app_nil_r.
      rewrite gbytes_snoc_new by exact Hnin. now rewrite encs_one.
    + destruct Hin as [Hin|[E|[]]]; [|congruence].
      specialize (HE id Hin). fold o in HE. simpl. rewrite app_nil_r.
      rewrite gbytes_snoc_other by congruence. rewrite <- HE. reflexivity.
  - apply hf_app. split; [exact Hh|]. rewrite rot_x_eq. fold off. simpl. split; [exact Hns|].
    rewrite hf_app. split; [destruct (k_pending k1); exact I|exact I].
  - rewrite seen_of_app, Hso. change (ck_id (k_open (rotated k1))) with off.
    repeat constructor; try lia. eapply Forall_impl; [|exact Hb]. simpl. intros; lia.
Qed.

Lemma dle_mono k k' d : ck_id (k_open k) <= ck_id (k_open k') -> dle k d -> dle k' d.
Proof. intros H. unfold dle. apply Forall_impl. intros; lia. Qed.

(* [estep]: a call that appends [X] to whatever is still to be carried out and takes the journal from
   [G] to [G'] keeps [EI]; [wres_step]: all a call does to the invariant, the disk being untouched *)
Definition estep (k k' : core) (d : disk) (G G' : list jfile) (X : list xeff) : Prop :=
  forall c0 S, EI k d c0 S G -> EI k' d c0 (S ++ X) G'.

Definition wres_step (k k' : core) (cr : list N) (t : list xeff) (d : disk) (G : list jfile)
  (X : list xeff) (G' : list jfile) : Prop :=
  GI k' cr (t ++ X) G' /\ HW d (t ++ X) G' /\ dle k' d /\ estep k k' d G G' X.

Lemma wres_noop k cr t d G : GI k cr t G -> HW d t G -> dle k d -> wres_step k k cr t d G [] G.
Proof.
  intros. unfold wres_step. rewrite app_nil_r. repeat (split; [assumption|]). intros c0 S HE. now rewrite app_nil_r.
Qed.

Lemma GI_purged k cr t G upto rm rest :
  GI k cr t G -> pop_obsolete upto (k_closed k) = (rm, rest) -> GI (purged_core k rm rest) cr t G.
Proof.
  intros [J Hi Hs Hok Hab Hch Hl Hhd] Hp.
  pose proof (jinv_purge k (chunk_ids k) (gbytes G) upto rm rest J Hp) as JP.
  constructor; try assumption. rewrite <- (ji_ids _ _ _ JP). exact JP.
Qed.

Lemma EI_core k k' d c0 S G : k_open k' = k_open k -> k_pending k' = k_pending k ->
  EI k d c0 S G -> EI k' d c0 S G.
Proof. intros Ho Hp [H1 H2 H3 H4]. constructor; rewrite ?Ho, ?Hp; assumption. Qed.

Lemma write_step k cr d G w k' res effs :
  GI k cr [] G -> HW d [] G -> dle k d -> wop_wf w ->
  do_write k w = Ret (k', res, effs) ->
  wres_step k k' cr [] d G (flat_map expand_eff effs) (gfold k (wrecs k w) G).
Proof.
  intros Gk Hw Hd Hwf H.
  set (P := fun G0 k0 ef0 => wres_step k k0 cr [] d G (flat_map expand_eff ef0) G0).
  refine (do_write_ginv P w (aaa_ginv P w _ _ _) P (fun _ _ _ p => p) _
            _ _ _ _ _ (wres_noop _ _ _ _ _ Gk Hw Hd) H).
  - intros G0 k0 ef0 (G1 & _). exact (gi_last _ _ _ _ G1).
  - intros G0 rs k0 ef0 r sm1 (G1 & W1 & D1 & E1) Hi Hv Hsm.
    pose proof (issues_wf_j _ _ _ _ _ (gi_jinv _ _ _ _ G1) Hwf Hi) as Hr.
    pose proof (gi_sorted _ _ _ _ G1) as Hs.
    split; [exact (GI_record _ _ _ _ _ _ _ G1 Hr Hv Hsm)|]. split; [now apply HW_record|].
    split; [exact D1|]. intros c0 S HE. now apply EI_record, E1.
  - intros G0 k0 ef0 (G1 & W1 & D1 & E1). unfold P. rewrite flat_map_app. fold (rot_x k0).
    destruct (GI_rotate _ _ _ _ G1) as (G2 & Hlt & _).
    split; [exact G2|]. split; [eapply HW_rotate; eauto|]. split.
    + eapply dle_mono; [|exact D1]. change (ck_id (k_open (rotated k0))) with (ck_end (k_open k0)). lia.
    + intros c0 S HE. rewrite app_assoc. eapply EI_rotate; eauto.
  - intros G0 k0 u k1 ef rm rest _ _ Ep (G1 & W1 & D1 & E1).
    split; [exact (GI_purged _ _ _ _ _ _ _ G1 Ep)|]. split; [exact W1|]. split; [exact D1|].
    intros c0 S HE. eapply EI_core; [| |apply E1, HE]; reflexivity.
Qed.

Definition flush_x (k : core) (cb : bool) : list xeff :=
  flat_map expand_eff (snd (do_flush k cb)).

Lemma flush_x_eq k cb :
  flush_x k cb =
  map XSend (WWrite (ck_end (k_open k)) (k_pending k) (if cb then Some (k_next_cb k) else None) ::
             match k_removed k with [] => [] | ids => [WRemove ids] end).
Proof. unfold flush_x, do_flush. simpl. destruct (k_removed k); reflexivity. Qed.

Lemma flush_step k cr d G cb :
  GI k cr [] G -> HW d [] G -> dle k d ->
  wres_step k (fst (do_flush k cb)) cr [] d G (flush_x k cb) G.
Proof.
  intros [J Hi Hs Hok Hab Hch Hl Hhd] Hw Hd.
  assert (Hcr : creates (flush_x k cb) = []) by (rewrite flush_x_eq; apply creates_sends).
  assert (Hhi : hd_ids (flush_x k cb) = []) by (rewrite flush_x_eq; apply hd_ids_sends).
  assert (Hth : forall id, theads (flush_x k cb) id = []).
  { intros id. apply theads_notin. now rewrite Hhi. }
  split; [|split; [|split]].
  - simpl. constructor; try assumption.
    + apply (jinv_flush k (chunk_ids k) (gbytes G) (gbytes G) _ J). reflexivity.
    + now rewrite Hcr.
    + now rewrite Hhi.
  - intros id Hin. cbn [app] in Hin |- *. rewrite Hcr in Hin. rewrite Hth. apply Hw. exact Hin.
  - exact Hd.
  - intros c0 S [Hf HE Hh Hb].
    assert (Hfc : forall c, fcur c (flush_x k cb) = c).
    { intros c. rewrite flush_x_eq. simpl. destruct (k_removed k); reflexivity. }
    assert (Hso : forall s, seen_of s (flush_x k cb) = s).
    { intros s. rewrite flush_x_eq. simpl. destruct (k_removed k); reflexivity. }
    constructor; simpl.
    + now rewrite fcur_app, Hfc.
    + intros id Hin. rewrite creates_app, Hcr, app_nil_r in Hin. specialize (HE id Hin).
      assert (Hpwf : forall c, pw c (flush_x k cb) id = if N.eqb c id then k_pending k else []).
      { intros c. rewrite flush_x_eq. simpl. destruct (k_removed k); simpl; now rewrite app_nil_r. }
      rewrite pw_app, Hf, <- HE, Hpwf. f_equal. rewrite <- app_assoc. f_equal.
      destruct (N.eqb (ck_id (k_open k)) id); now rewrite app_nil_r.
    + apply hf_app. split; [exact Hh|]. rewrite flush_x_eq. simpl. destruct (k_removed k); exact I.
    + now rewrite seen_of_app, Hso.
Qed.

Lemma GI_eqj k k' cr t G : core_eqj k k' -> GI k cr t G -> GI k' cr t G.
Proof.
  intros Hc [J Hi Hs Hok Hab Hch Hl Hhd].
  pose proof Hc as (E1 & E2 & E3 & E4 & E5 & E6 & E7).
  constructor; try assumption.
  - replace (chunk_ids k') with (chunk_ids k).
    + eapply jinv_core_eqj; eauto.
    + unfold chunk_ids, closed_ids. now rewrite E2, E4, E5.
  - now rewrite E6.
  - now rewrite E2.
Qed.
