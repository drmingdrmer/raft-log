(* The sequential core, call by call: what the later files go through instead of unfolding the model.
   [sm_apply_eq]: the step of the state machine in one equation.  The cache and index-map primitives on
   sorted lists.  C06 (a refused record, write or entry leaves no trace).  The rule for a write call:
   [do_write_cases] (the one case analysis of do_write) and [do_append_fold] (the one induction on
   do_append) give [do_write_ginv] (an invariant of a write call follows from one journalled record,
   named by [issues], and from the popping of obsolete chunks; it is indexed by the ghost journal
   [gfold k (wrecs k w) G], and [do_write_inv] is its instance for invariants that have none).
   [run_op_cases], [run_ops_inv] / [run_case_inv], [run_ops_results]: from one operation to a history.
   [commit y k effs] is the system after a call that returned [k] and [effs].  ([aaa_spec], the one
   statement about append_and_apply, is in JournalChunk.v.) *)
From Coq Require Import List NArith Bool Sorted.
From RaftLog Require Import Model.Types Model.Codec Model.Cache Model.Core Model.Recover Model.Run.
From RaftLog Require Import Proofs.OrderFacts Proofs.CacheFacts Proofs.JournalChunk.
Import ListNotations.
Local Open Scope N_scope.

Lemma ck_push_ends_nonempty : forall c n, ck_ends (ck_push c n) <> [].
Proof. intros c n. unfold ck_push. cbn [ck_ends]. destruct (ck_ends c); discriminate. Qed.

Lemma ck_last_segment_nonempty : forall c, ck_ends c <> [] -> exists seg, ck_last_segment c = Ret seg.
Proof.
  intros c H. unfold ck_last_segment. destruct (rev (ck_ends c)) as [|e r] eqn:E.
  - exfalso. apply H. apply (f_equal (@rev N)) in E. rewrite rev_involutive in E. exact E.
  - eexists. reflexivity.
Qed.

Lemma wal_last_segment_ok : forall k, ck_ends (k_open k) <> [] ->
  exists s l, wal_last_segment k = Ret (WOk s l).
Proof.
  intros k H. unfold wal_last_segment.
  destruct (ck_last_segment_nonempty _ H) as [[s l] Hs]. rewrite Hs. eexists. eexists. reflexivity.
Qed.

Lemma wal_last_segment_cases : forall k,
  wal_last_segment k = Panic \/ exists s l, wal_last_segment k = Ret (WOk s l).
Proof.
  intros k. unfold wal_last_segment. destruct (ck_last_segment (k_open k)) as [[s l]|].
  - right. eexists. eexists. reflexivity.
  - left. reflexivity.
Qed.

(* [sm_apply] in one equation: the RaftLogState goes through [rs_apply], the index map and the cache
   through what the record does to each ([log_apply], [cache_rec]; CacheSys.cache_apply is the latter),
   whether or not [rs_apply] refuses *)
Definition log_apply (lg : logmap) (r : record) (c : N) (seg : N * N) : logmap :=
  match r with
  | RAppend id _ => lm_insert (lid_index id) (mkLD id c (fst seg) (snd seg)) lg
  | RTrunc o => lm_keep_lt (next_index o) lg
  | RPurge id => lm_keep_ge (next_index (Some id)) lg
  | _ => lg
  end.

Definition cache_rec (c : cache) (r : record) : cache :=
  match r with
  | RAppend id p => cache_insert c id p
  | RTrunc (Some id) => cache_truncate_after c id
  | RTrunc None => cache_clear c
  | RPurge id => cache_purge_upto c id
  | _ => c
  end.

Lemma sm_apply_eq s r c seg :
  sm_apply s r c seg =
  (mkSM (match rs_apply (m_rs s) r with inl rs' => rs' | inr _ => m_rs s end)
        (log_apply (m_log s) r c seg) (cache_rec (m_cache s) r),
   match rs_apply (m_rs s) r with inl _ => None | inr e => Some e end).
Proof.
  unfold sm_apply. destruct r as [v|id p|id|[id|]|id|st]; destruct (rs_apply (m_rs s) _); reflexivity.
Qed.

Lemma sm_apply_purge : forall s id c seg,
  fst (sm_apply s (RPurge id) c seg) =
  mkSM (let s1 := if opair_ltb (r_purged (m_rs s)) (Some id) then rs_set_purged (m_rs s) (Some id) else m_rs s in
        if opair_ltb (r_last s1) (Some id) then rs_set_last s1 (Some id) else s1)
       (lm_keep_ge (next_index (Some id)) (m_log s))
       (cache_purge_upto (m_cache s) id).
Proof. reflexivity. Qed.

Lemma aaa_limit : forall k r, index_limit r = true ->
  append_and_apply k r = Ret (k, WErr EIndexLimit, []).
Proof. intros k r H. unfold append_and_apply. rewrite H. reflexivity. Qed.

Lemma aaa_never_panics : forall k r, append_and_apply k r <> Panic.
Proof. intros k r. destruct (aaa_spec k r) as (k' & w & effs & E & _). rewrite E. discriminate. Qed.

Theorem C06_refused_record_no_trace : forall k r k' e effs,
  append_and_apply k r = Ret (k', WErr e, effs) -> k' = k /\ effs = [].
Proof.
  intros k r k' e effs H. destruct (aaa_spec k r) as (k0 & w & effs0 & E & D).
  rewrite E in H. inversion H; subst.
  destruct D as [(-> & -> & _)|(_ & _ & Hw & _)]; [split; reflexivity|discriminate Hw].
Qed.

Definition clt (a b : logid * payload) : Prop := pair_cmp (fst a) (fst b) = Lt.

Lemma sorted_keys_clt : forall es, sorted_keys es <-> StronglySorted clt es.
Proof. intros es. exact (SS_map fst key_lt es). Qed.

Lemma evict_loop_noop : forall c es sz,
  need_evict c (length es) sz = false -> evict_loop c es sz = (es, sz).
Proof.
  intros c es sz H. destruct es as [|[id p] r]; [reflexivity|].
  cbn [evict_loop]. rewrite H. reflexivity.
Qed.

Lemma ent_get_app_l : forall k es l p, ent_get k es = Some p -> ent_get k (es ++ l) = Some p.
Proof.
  intros k es l p. induction es as [|[k' v] r IH]; intros H; cbn in *; [discriminate|].
  destruct (pair_eqb k k'); [exact H|apply IH; exact H].
Qed.

Lemma ent_get_app_r : forall k es l,
  (forall e, In e es -> fst e <> k) -> ent_get k (es ++ l) = ent_get k l.
Proof.
  intros k es l. induction es as [|[k' v] r IH]; intros H; cbn [app ent_get]; [reflexivity|].
  assert (E : pair_eqb k k' = false).
  { apply pair_eqb_neq. intros E. apply (H (k', v) (or_introl eq_refl)). cbn. congruence. }
  rewrite E. apply IH. intros e He. apply H. right. exact He.
Qed.

Lemma ent_get_filter_key : forall (g : logid -> bool) k es,
  g k = true -> ent_get k (filter (fun e => g (fst e)) es) = ent_get k es.
Proof.
  intros g k es Hg. induction es as [|[k' v] r IH]; [reflexivity|].
  cbn [filter fst ent_get]. destruct (pair_eqb k k') eqn:E.
  - apply pair_eqb_eq in E. subst k'. rewrite Hg. cbn [ent_get]. rewrite pair_eqb_refl. reflexivity.
  - destruct (g k'); cbn [ent_get]; [rewrite E|]; exact IH.
Qed.

Lemma cache_truncate_after_entries : forall c key,
  StronglySorted clt (ch_entries c) ->
  ch_entries (cache_truncate_after c key) =
  filter (fun e => negb (pair_ltb key (fst e))) (ch_entries c).
Proof.
  intros c key S. rewrite (CacheFacts.cache_truncate_after_entries c key (proj2 (sorted_keys_clt _) S)).
  apply filter_ext. intros e. exact (opair_leb_negb_ltb (Some (fst e)) (Some key)).
Qed.

Lemma cache_truncate_after_meta : forall c key,
  ch_size (cache_truncate_after c key) <= ch_size c /\
  ch_max_items (cache_truncate_after c key) = ch_max_items c /\
  ch_capacity (cache_truncate_after c key) = ch_capacity c.
Proof.
  intros c key. destruct (cache_truncate_after_spec c key) as (suf & _ & _ & _ & H & _).
  split; [exact H|]. split; [apply cache_truncate_after_max_items|apply cache_truncate_after_capacity].
Qed.

Lemma cache_purge_upto_split : forall c key,
  exists es1, ch_entries c = es1 ++ ch_entries (cache_purge_upto c key) /\
    (forall x, In x es1 -> pair_cmp (fst x) key <> Gt) /\
    ch_size (cache_purge_upto c key) <= ch_size c /\
    ch_max_items (cache_purge_upto c key) = ch_max_items c /\
    ch_capacity (cache_purge_upto c key) = ch_capacity c.
Proof.
  intros c key. destruct (cache_purge_upto_spec c key) as (pre & H1 & H2 & _ & H4).
  exists pre. split; [exact H1|]. split; [intros x Hx; apply pair_leb_le, (H2 x Hx)|].
  split; [exact H4|]. split; [apply cache_purge_upto_max_items|apply cache_purge_upto_capacity].
Qed.

Lemma cache_insert_end : forall c k v,
  (forall e, In e (ch_entries c) -> pair_cmp (fst e) k = Lt) ->
  N.of_nat (length (ch_entries c)) + 1 <= ch_max_items c ->
  ch_size c + psize v <= ch_capacity c ->
  cache_insert c k v = cache_with c (ch_size c + psize v) (ch_entries c ++ [(k, v)]).
Proof.
  intros c k v Hk Hn Hs. unfold cache_insert. rewrite (ent_insert_above k v _ Hk).
  rewrite evict_loop_noop; [reflexivity|].
  unfold need_evict. rewrite app_length. cbn [length].
  apply orb_false_iff. split; apply N.ltb_ge; [rewrite Nat2N.inj_add; exact Hn|exact Hs].
Qed.

Lemma lm_insert_end : forall k v m,
  (forall e, In e m -> fst e < k) -> lm_insert k v m = m ++ [(k, v)].
Proof.
  intros k v m. induction m as [|[k' v'] r IH]; intros H; [reflexivity|].
  cbn [lm_insert app].
  assert (Hk : N.compare k k' = Gt).
  { apply N.compare_gt_iff. apply (H (k', v') (or_introl eq_refl)). }
  rewrite Hk. f_equal. apply IH. intros e He. apply H. right. exact He.
Qed.

Lemma apply_effs_core : forall effs y, y_core (apply_effs y effs) = y_core y.
Proof.
  intros effs. unfold apply_effs. induction effs as [|e r IH]; intros y; cbn [fold_left]; [reflexivity|].
  rewrite IH. destruct e; reflexivity.
Qed.

Lemma do_read_sm_open : forall k d from to,
  k_sm (fst (do_read k d from to)) = k_sm k /\ k_open (fst (do_read k d from to)) = k_open k.
Proof.
  intros k d from to. unfold do_read.
  destruct (read_items (m_cache (k_sm k)) (k_closed k) d
              (lm_range from (N.max to from) (m_log (k_sm k))) (k_hit k) (k_miss k)) as [[items h] ms].
  split; reflexivity.
Qed.

Lemma do_read_items : forall k d from to,
  snd (do_read k d from to) =
  fst (fst (read_items (m_cache (k_sm k)) (k_closed k) d
              (lm_range from (N.max to from) (m_log (k_sm k))) (k_hit k) (k_miss k))).
Proof.
  intros k d from to. unfold do_read.
  destruct (read_items (m_cache (k_sm k)) (k_closed k) d
              (lm_range from (N.max to from) (m_log (k_sm k))) (k_hit k) (k_miss k)) as [[items h] ms].
  reflexivity.
Qed.

Lemma do_dump_iter_items : forall k d,
  do_dump_iter k d =
  fst (fst (read_items (m_cache (k_sm k)) (k_closed k) d (m_log (k_sm k)) 0 0)).
Proof.
  intros k d. unfold do_dump_iter.
  destruct (read_items (m_cache (k_sm k)) (k_closed k) d (m_log (k_sm k)) 0 0) as [[items h] ms].
  reflexivity.
Qed.

(* a property of the caller state that ignores the cache's evictable boundary
   survives the worker *)
Lemma worker_step_keeps : forall (P : core -> Prop),
  (forall k b, P k -> P (core_with_cache k (cache_set_evictable (m_cache (k_sm k)) b))) ->
  forall y r, P (y_core y) -> P (y_core (worker_step y r)).
Proof.
  intros P HP y r H. destruct r as [upto data cb|off prev|ids]; cbn [worker_step].
  - destruct (rev (y_files y)) as [|newest older]; [exact H|]. cbn [y_core]. apply HP. exact H.
  - exact H.
  - exact H.
Qed.

Lemma worker_idle_keeps : forall (P : core -> Prop),
  (forall k b, P k -> P (core_with_cache k (cache_set_evictable (m_cache (k_sm k)) b))) ->
  forall y, P (y_core y) -> P (y_core (worker_idle y)).
Proof.
  intros P HP y H. unfold worker_idle.
  assert (G : forall q y0, P (y_core y0) -> P (y_core (fold_left worker_step q y0))).
  { intros q. induction q as [|r q IH]; intros y0 H0; cbn [fold_left]; [exact H0|].
    apply IH. apply worker_step_keeps; assumption. }
  apply G. exact H.
Qed.

(* the system after a call that returned the core [k] and the effects [effs] *)
Definition commit (y : sys) (k : core) (effs : list eff) : sys := apply_effs (with_core y k) effs.

Lemma apply_effs_with_core effs : forall y k,
  apply_effs (with_core y k) effs = with_core (apply_effs y effs) k.
Proof.
  unfold apply_effs. induction effs as [|e effs IH]; intros y k; cbn [fold_left]; [reflexivity|].
  rewrite <- IH. destruct e; reflexivity.
Qed.

Lemma apply_effs_app e1 e2 y : apply_effs y (e1 ++ e2) = apply_effs (apply_effs y e1) e2.
Proof. apply fold_left_app. Qed.

Lemma with_core_self y : with_core y (y_core y) = y.
Proof. destruct y. reflexivity. Qed.
Lemma with_core_with_core y k k' : with_core (with_core y k) k' = with_core y k'.
Proof. reflexivity. Qed.

Lemma commit_core y k effs : y_core (commit y k effs) = k.
Proof. unfold commit. rewrite apply_effs_core. reflexivity. Qed.

Lemma commit_nil y : commit y (y_core y) [] = y.
Proof. apply with_core_self. Qed.

Lemma commit_commit y k1 e1 k2 e2 : commit (commit y k1 e1) k2 e2 = commit y k2 (e1 ++ e2).
Proof.
  unfold commit. rewrite apply_effs_app, !apply_effs_with_core. reflexivity.
Qed.

(* the records a write call hands to append_and_apply when the core is [k], in order;
   [issues k w r] holds of every member of that list ([issues_wrecs]) and is the form in
   which the rules below take a record *)
Definition wrecs (k : core) (w : wop) : list record :=
  match w with
  | OVote v => [RVote v]
  | OAppend es => map (fun e => RAppend (fst e) (snd e)) es
  | OTruncate i =>
    let purged := r_purged (m_rs (k_sm k)) in
    if N.eqb i (next_index purged) then [RTrunc purged]
    else if N.eqb i 0 then []
    else match lm_get_id k (i - 1) with None => [] | Some id => [RTrunc (Some id)] end
  | OPurge upto =>
    if N.ltb (lid_index upto) (next_index (r_purged (m_rs (k_sm k)))) then [] else [RPurge upto]
  | OCommit id => [RCommit id]
  | OUser u => [RState (rs_set_user (m_rs (k_sm k)) u)]
  | OUpdateState st => [RState st]
  end.

Inductive issues (k : core) : wop -> record -> Prop :=
| IsVote v : issues k (OVote v) (RVote v)
| IsEntry es id p : In (id, p) es -> issues k (OAppend es) (RAppend id p)
| IsTruncPurged i : issues k (OTruncate i) (RTrunc (r_purged (m_rs (k_sm k))))
| IsTruncEntry i d : lm_get (i - 1) (m_log (k_sm k)) = Some d ->
    issues k (OTruncate i) (RTrunc (Some (ld_id d)))
| IsPurge u : issues k (OPurge u) (RPurge u)
| IsCommit id : issues k (OCommit id) (RCommit id)
| IsUser u : issues k (OUser u) (RState (rs_set_user (m_rs (k_sm k)) u))
| IsState st : issues k (OUpdateState st) (RState st).

Lemma issues_wrecs k w r : In r (wrecs k w) -> issues k w r.
Proof.
  destruct w as [v|es|i|u|id|u|st]; cbn [wrecs].
  - intros [<-|[]]; constructor.
  - intros H. apply in_map_iff in H. destruct H as ([id p] & <- & Hin). now constructor.
  - destruct (N.eqb i (next_index _)); [intros [<-|[]]; constructor|].
    destruct (N.eqb i 0); [intros []|]. unfold lm_get_id.
    destruct (lm_get (i - 1) (m_log (k_sm k))) as [d|] eqn:E; [|intros []]. intros [<-|[]]. now constructor.
  - destruct (N.ltb _ _); [intros []|intros [<-|[]]; constructor].
  - intros [<-|[]]; constructor.
  - intros [<-|[]]; constructor.
  - intros [<-|[]]; constructor.
Qed.

Lemma do_write_cases k w k' res effs : do_write k w = Ret (k', res, effs) ->
  (exists es w0, w = OAppend es /\ do_append k es w0 [] = Ret (k', res, effs)) \/
  (wrecs k w = [] /\ k' = k /\ effs = []) \/
  (exists r k1, wrecs k w = [r] /\ append_and_apply k r = Ret (k1, res, effs) /\
     (k' = k1 \/
      exists upto rm rest, w = OPurge upto /\ (exists off len, res = WOk off len) /\
        pop_obsolete upto (k_closed k1) = (rm, rest) /\ k' = purged_core k1 rm rest)).
Proof.
  intros H.
  assert (One : forall r, append_and_apply k r = Ret (k', res, effs) -> wrecs k w = [r] ->
    exists r k1, wrecs k w = [r] /\ append_and_apply k r = Ret (k1, res, effs) /\
     (k' = k1 \/
      exists upto rm rest, w = OPurge upto /\ (exists off len, res = WOk off len) /\
        pop_obsolete upto (k_closed k1) = (rm, rest) /\ k' = purged_core k1 rm rest)).
  { intros r Ha E. exists r, k'. auto. }
  destruct w as [v|es|i|upto|id|u|st]; cbn [do_write wrecs] in *; unfold lm_get_id in *.
  - right; right. exact (One _ H eq_refl).
  - left. destruct (wal_last_segment k) as [w0|]; [|discriminate]. eauto.
  - right. destruct (N.eqb i (next_index (r_purged (m_rs (k_sm k))))); [right; exact (One _ H eq_refl)|].
    destruct (N.eqb i 0); [inversion H; subst; now left|].
    destruct (lm_get (i - 1) (m_log (k_sm k))); [right; exact (One _ H eq_refl)|inversion H; subst; now left].
  - right. destruct (N.ltb (lid_index upto) (next_index (r_purged (m_rs (k_sm k))))).
    { destruct (wal_last_segment k); [|discriminate]. inversion H; subst. now left. }
    right. destruct (append_and_apply k (RPurge upto)) as [[[k1 w1] ef]|] eqn:Ea; [|discriminate].
    exists (RPurge upto), k1. destruct w1 as [off len|e].
    + destruct (pop_obsolete upto (k_closed k1)) as [rm rest] eqn:Ep. inversion H; subst.
      split; [reflexivity|]. split; [exact Ea|]. right. exists upto, rm, rest. eauto 6.
    + inversion H; subst. auto.
  - right; right. exact (One _ H eq_refl).
  - right; right. exact (One _ H eq_refl).
  - right; right. exact (One _ H eq_refl).
Qed.

Theorem C06_refused_write_no_trace : forall k w k' e effs,
  (match w with OAppend _ => False | _ => True end) ->
  do_write k w = Ret (k', WErr e, effs) -> k' = k /\ effs = [].
Proof.
  intros k w k' e effs Hw H.
  destruct (do_write_cases _ _ _ _ _ H)
    as [(es & w0 & -> & _)|[(_ & -> & ->)|(r & k1 & _ & Ha & [->|(u & rm & rest & _ & (off & len & E) & _)])]].
  - destruct Hw.
  - split; reflexivity.
  - exact (C06_refused_record_no_trace _ _ _ _ _ Ha).
  - discriminate E.
Qed.

Definition wres_ok (w : wres) : Prop := match w with WOk _ _ => True | WErr _ => False end.

Lemma do_append_refused_prefix : forall es k acc effs0 k' e effs,
  wres_ok acc ->
  do_append k es acc effs0 = Ret (k', WErr e, effs) ->
  exists es1 x es2, es = es1 ++ x :: es2 /\
    exists w1, do_append k es1 acc effs0 = Ret (k', w1, effs) /\ wres_ok w1.
Proof.
  intros es. induction es as [|[id p] r IH]; intros k acc effs0 k' e effs Hacc H.
  - cbn [do_append] in H. inversion H. subst. destruct Hacc.
  - cbn [do_append] in H.
    destruct (append_and_apply k (RAppend id p)) as [[[k1 w1] ef]|] eqn:E; [|discriminate].
    destruct w1 as [off len|e1].
    + destruct (IH k1 (WOk off len) (effs0 ++ ef) k' e effs I H)
        as (es1 & x & es2 & Hes & w1 & Hd & Hok).
      exists ((id, p) :: es1), x, es2. split; [rewrite Hes; reflexivity|].
      exists w1. split; [|exact Hok]. cbn [do_append]. rewrite E. exact Hd.
    + inversion H. subst.
      destruct (C06_refused_record_no_trace _ _ _ _ _ E) as [Hk Hef]. subst.
      exists [], (id, p), r. split; [reflexivity|].
      exists acc. split; [|exact Hacc]. cbn [do_append]. rewrite app_nil_r. reflexivity.
Qed.

Theorem C06_refused_append_prefix : forall k es k' e effs,
  do_write k (OAppend es) = Ret (k', WErr e, effs) ->
  exists es1 x es2, es = es1 ++ x :: es2 /\
    exists w1, do_write k (OAppend es1) = Ret (k', w1, effs) /\
               (match w1 with WOk _ _ => True | WErr _ => False end).
Proof.
  intros k es k' e effs H. cbn [do_write] in *.
  destruct (wal_last_segment_cases k) as [Hp|[s [l Hs]]].
  - rewrite Hp in H. discriminate.
  - rewrite Hs in *.
    destruct (do_append_refused_prefix es k (WOk s l) [] k' e effs I H)
      as (es1 & x & es2 & Hes & w1 & Hd & Hok).
    exists es1, x, es2. split; [exact Hes|]. exists w1. split; [exact Hd|]. exact Hok.
Qed.


(* A ghost journal lists the chunk files with their records, oldest first ([RestartSim.jfile]
   is the type of its members).  [gnext k r G] is the journal after [r] has gone through
   append_and_apply in core [k]: unchanged if [r] is refused, else [r] joins the last file and a
   rotation adds a file headed by the state snapshot; [gfold] follows the records of a call
   and stops at the first refusal, as do_append does. *)
Definition accepted (k : core) (r : record) : bool :=
  negb (index_limit r) &&
  match rs_validate (m_rs (k_sm k)) r with None => true | Some _ => false end.

Definition glast_app (G : list (N * list record)) (r : record) : list (N * list record) :=
  match rev G with
  | [] => []
  | (o, rs) :: Gr => rev Gr ++ [(o, rs ++ [r])]
  end.

Lemma glast_app_snoc G0 o rs r : glast_app (G0 ++ [(o, rs)]) r = G0 ++ [(o, rs ++ [r])].
Proof. unfold glast_app. rewrite rev_unit, rev_involutive. reflexivity. Qed.

Definition gnext (k : core) (r : record) (G : list (N * list record)) : list (N * list record) :=
  if accepted k r then
    let sm1 := fst (sm_apply (k_sm k) r (ck_id (k_open k)) (ck_end (k_open k), rec_size r)) in
    let k1 := appended k r sm1 in
    let G1 := glast_app G r in
    if is_full (k_cfg k1) (k_open k1) then G1 ++ [(ck_end (k_open k1), [RState (m_rs sm1)])] else G1
  else G.

Fixpoint gfold (k : core) (rs : list record) (G : list (N * list record)) : list (N * list record) :=
  match rs with
  | [] => G
  | r :: rest =>
    match append_and_apply k r with
    | Ret (k1, WOk _ _, _) => gfold k1 rest (gnext k r G)
    | _ => G
    end
  end.

(* the cases of [aaa_spec] with the ghost journal each leaves *)
Lemma gnext_cases k r G0 rs k' w effs :
  let o := ck_id (k_open k) in
  let G := G0 ++ [(o, rs)] in
  append_and_apply k r = Ret (k', w, effs) ->
  (accepted k r = false /\ k' = k /\ effs = [] /\ (exists e, w = WErr e) /\ gnext k r G = G) \/
  (exists sm1, rs_validate (m_rs (k_sm k)) r = None /\ index_limit r = false /\
     sm_apply (k_sm k) r o (ck_end (k_open k), rec_size r) = (sm1, None) /\
     w = WOk (ck_end (k_open k)) (rec_size r) /\
     let k1 := appended k r sm1 in
     let G1 := G0 ++ [(o, rs ++ [r])] in
     (k' = k1 /\ effs = [] /\ gnext k r G = G1 \/
      k' = rotated k1 /\ effs = rotate_effs k1 /\
      gnext k r G = G1 ++ [(ck_end (k_open k1), [RState (m_rs sm1)])])).
Proof.
  intros o G H. subst o G. destruct (aaa_spec k r) as (k0 & w0 & e0 & E & D).
  rewrite E in H. inversion H; subst. unfold gnext, accepted.
  destruct D as [(-> & -> & [[Hi ->]|(Hi & e & Hv & ->)])|(Hi & Hv & -> & sm1 & Hs & D)];
    rewrite Hi, ?Hv; cbn [negb andb]; [left; eauto 7|left; eauto 7|right].
  exists sm1. rewrite Hs. cbn [fst]. rewrite glast_app_snoc.
  repeat (split; [reflexivity|]).
  destruct D as [(-> & -> & Ef)|(-> & -> & Ef)]; cbn [appended k_cfg k_open] in Ef |- *; rewrite Ef; auto.
Qed.

Lemma gnext_refused k r G : accepted k r = false -> gnext k r G = G.
Proof. intros H. unfold gnext. now rewrite H. Qed.

Lemma gfold_one k r G : gfold k [r] G = gnext k r G.
Proof.
  cbn [gfold]. destruct (aaa_spec k r) as (k1 & w1 & ef & E & D). rewrite E.
  destruct w1; [reflexivity|]. symmetry. apply gnext_refused. unfold accepted.
  destruct D as [(_ & _ & [[Hi _]|(Hi & e1 & Hv & _)])|(_ & _ & Hw & _)]; [| |discriminate Hw];
    rewrite Hi, ?Hv; reflexivity.
Qed.

(* [P G k effs]: the journal, the core reached and the effects produced so far.  One case
   analysis of do_write ([do_write_cases]) and one induction on do_append ([do_append_fold]). *)
Section GhostWriteRule.
  Variable P : list (N * list record) -> core -> list eff -> Prop.
  Lemma do_append_fold es :
    (forall G k effs id p k' res ef, P G k effs -> In (id, p) es ->
       append_and_apply k (RAppend id p) = Ret (k', res, ef) ->
       P (gnext k (RAppend id p) G) k' (effs ++ ef)) ->
    forall k G acc effs0 k' res effs, P G k effs0 ->
      do_append k es acc effs0 = Ret (k', res, effs) ->
      P (gfold k (map (fun e => RAppend (fst e) (snd e)) es) G) k' effs.
  Proof.
    induction es as [|[id p] es IH]; intros Hrec k G acc effs0 k' res effs Hk H; cbn [do_append] in H.
    - inversion H; subst. exact Hk.
    - destruct (append_and_apply k (RAppend id p)) as [[[k1 w1] ef]|] eqn:Ea; [|discriminate].
      pose proof (Hrec _ _ _ _ _ _ _ _ Hk (or_introl eq_refl) Ea) as H1.
      cbn [map fst snd gfold]. rewrite Ea. destruct w1 as [off len|e].
      + apply (IH (fun G k effs i q k' res ef Hp Hi => Hrec G k effs i q k' res ef Hp (or_intror Hi))
                  _ _ _ _ _ _ _ H1 H).
      + inversion H; subst.
        destruct (gnext_cases k (RAppend id p) [] [] _ _ _ Ea) as [(Eacc & _)|(sm1 & _ & _ & _ & Ew & _)];
          [|discriminate Ew].
        rewrite (gnext_refused _ _ _ Eacc) in H1. exact H1.
  Qed.

  Variable w : wop.
  Hypothesis P_rec : forall G k effs r k' res ef, P G k effs -> issues k w r ->
    append_and_apply k r = Ret (k', res, ef) -> P (gnext k r G) k' (effs ++ ef).
  (* [Q] need not be kept by records: the popping of obsolete chunks comes once, after the
     purge record has been applied (to the state machine of [k], giving that of [k1]) *)
  Variable Q : list (N * list record) -> core -> list eff -> Prop.
  Hypothesis P_Q : forall G k effs, P G k effs -> Q G k effs.
  Hypothesis P_pop : forall G k u k1 effs ids rest, w = OPurge u ->
    k_sm k1 = fst (sm_apply (k_sm k) (RPurge u) (ck_id (k_open k)) (ck_end (k_open k), rec_size (RPurge u))) ->
    pop_obsolete u (k_closed k1) = (ids, rest) -> P G k1 effs -> Q G (purged_core k1 ids rest) effs.

  Lemma do_write_ginv G k k' res effs :
    P G k [] -> do_write k w = Ret (k', res, effs) -> Q (gfold k (wrecs k w) G) k' effs.
  Proof using P_rec P_Q P_pop.
    intros Hk H.
    destruct (do_write_cases _ _ _ _ _ H)
      as [(es & w0 & Ew & Ha)|[(E & -> & ->)|(r & k1 & E & Ha & Hk1)]].
    - apply P_Q. rewrite Ew. cbn [wrecs]. refine (do_append_fold es _ _ _ _ _ _ _ _ Hk Ha).
      intros G0 k0 effs0 id p k2 res1 ef Hp Hi. apply P_rec; [exact Hp|rewrite Ew; constructor; exact Hi].
    - rewrite E. apply P_Q, Hk.
    - assert (Hi : issues k w r) by (apply issues_wrecs; rewrite E; left; reflexivity).
      rewrite E, gfold_one. pose proof (P_rec _ _ _ _ _ _ _ Hk Hi Ha) as H1.
      destruct Hk1 as [->|(upto & rm & rest & Ew & (off & len & ->) & Ep & ->)]; [apply P_Q, H1|].
      apply (P_pop _ k _ _ _ _ _ Ew); [|exact Ep|exact H1].
      assert (r = RPurge upto) as ->.
      { rewrite Ew in E. cbn [wrecs] in E. destruct (N.ltb _ _); [discriminate|]. now inversion E. }
      destruct (gnext_cases _ _ [] [] _ _ _ Ha) as [(_ & _ & _ & (e & He) & _)|(sm1 & _ & _ & Hsm & _ & Hc)];
        [discriminate|]. rewrite Hsm. now destruct Hc as [(-> & _)|(-> & _)].
  Qed.
End GhostWriteRule.

(* A record step moves core and journal by a record appended to the newest file ([P_app]) and
   perhaps a rotation that opens a new file ([P_rot]): what [P_rec] above asks for, from the
   two facts every predicate on journals comes with. *)
Section JournalMoves.
  Variable P : list (N * list record) -> core -> list eff -> Prop.
  Variable w : wop.
  Hypothesis P_last : forall G k effs, P G k effs -> exists G0 rs, G = G0 ++ [(ck_id (k_open k), rs)].
  Hypothesis P_app : forall G0 rs k effs r sm1, P (G0 ++ [(ck_id (k_open k), rs)]) k effs -> issues k w r ->
    rs_validate (m_rs (k_sm k)) r = None ->
    sm_apply (k_sm k) r (ck_id (k_open k)) (ck_end (k_open k), rec_size r) = (sm1, None) ->
    P (G0 ++ [(ck_id (k_open k), rs ++ [r])]) (appended k r sm1) effs.
  Hypothesis P_rot : forall G k effs, P G k effs ->
    P (G ++ [(ck_end (k_open k), [RState (m_rs (k_sm k))])]) (rotated k) (effs ++ rotate_effs k).

  Lemma aaa_ginv G k effs r k' res ef : P G k effs -> issues k w r ->
    append_and_apply k r = Ret (k', res, ef) -> P (gnext k r G) k' (effs ++ ef).
  Proof using P_last P_app P_rot.
    intros Hp Hr H. destruct (P_last _ _ _ Hp) as (G0 & rs & ->).
    destruct (gnext_cases _ _ G0 rs _ _ _ H) as [(_ & -> & -> & _ & ->)|(sm1 & Hv & _ & Hsm & _ & Hc)].
    - now rewrite app_nil_r.
    - pose proof (P_app _ _ _ _ _ _ Hp Hr Hv Hsm) as H1.
      destruct Hc as [(-> & -> & ->)|(-> & -> & ->)]; [now rewrite app_nil_r|exact (P_rot _ _ _ H1)].
  Qed.
End JournalMoves.

(* The rule for invariants without a journal: [P k effs] holds after a write call as soon
   as every journalled record and the removal of obsolete chunks preserve it.  For an
   invariant [I] of the system take
   [P k effs := I (commit y k effs)] ([commit_commit]); for one of the core alone ignore
   [effs]. *)
Section WriteRule.
  Variable P : core -> list eff -> Prop.
  Variable w : wop.
  Hypothesis P_rec : forall k effs r k' res ef, P k effs -> issues k w r ->
    append_and_apply k r = Ret (k', res, ef) -> P k' (effs ++ ef).
  Hypothesis P_pop : forall k effs u ids rest, P k effs ->
    pop_obsolete u (k_closed k) = (ids, rest) -> P (purged_core k ids rest) effs.

  Lemma do_write_inv k k' res effs :
    P k [] -> do_write k w = Ret (k', res, effs) -> P k' effs.
  Proof using P_rec P_pop.
    exact (do_write_ginv (fun _ => P) w (fun _ => P_rec) (fun _ => P) (fun _ _ _ p => p)
             (fun _ _ u k1 effs ids rest _ _ Ep Hp => P_pop k1 effs u ids rest Hp Ep) [] k k' res effs).
  Qed.
End WriteRule.

Lemma do_append_no_panic : forall es k acc effs, do_append k es acc effs <> Panic.
Proof.
  induction es as [|[id p] es IH]; intros k acc effs; cbn [do_append]; [discriminate|].
  destruct (aaa_spec k (RAppend id p)) as (k1 & w & ef & E & _). rewrite E.
  destruct w; [apply IH|discriminate].
Qed.

(* the only panic of the write path is the last segment of a chunk without a record *)
Lemma do_write_no_panic : forall k w, ck_ends (k_open k) <> [] -> do_write k w <> Panic.
Proof.
  intros k w Hk. destruct (wal_last_segment_ok k Hk) as (s & l & Hw).
  destruct w as [v|es|i|upto|id|u|st]; cbn [do_write]; try apply aaa_never_panics.
  - rewrite Hw. apply do_append_no_panic.
  - destruct (N.eqb i (next_index (r_purged (m_rs (k_sm k))))); [apply aaa_never_panics|].
    destruct (N.eqb i 0); [discriminate|].
    destruct (lm_get_id k (i - 1)); [apply aaa_never_panics|discriminate].
  - destruct (N.ltb (lid_index upto) (next_index (r_purged (m_rs (k_sm k))))); [rewrite Hw; discriminate|].
    destruct (aaa_spec k (RPurge upto)) as (k1 & w & ef & E & _). rewrite E.
    destruct w; [destruct (pop_obsolete upto (k_closed k1))|]; discriminate.
Qed.

Lemma run_op_cases y o y' r : run_op y o = (Some y', r) ->
  match o with
  | OW w => exists k res effs, do_write (y_core y) w = Ret (k, res, effs) /\
                               y' = commit y k effs /\ r = ResW res
  | OFlush cb => y' = commit y (fst (do_flush (y_core y) cb)) (snd (do_flush (y_core y) cb))
  | ORead from to => y' = with_core y (fst (do_read (y_core y) (y_disk y) from to))
  | ODumpIter | OStat | OSize => y' = y
  | OIdle => y' = worker_idle y
  | ODrain => y' = with_core y (core_with_cache (y_core y) (cache_drain (m_cache (k_sm (y_core y)))))
  | ORestart cfg => open_dir cfg (y_disk (worker_idle y)) = OpenOk y'
  end.
Proof.
  intros H. destruct o as [w|cb|from to| | | | | |cfg]; cbn [run_op] in H.
  - destruct (do_write (y_core y) w) as [[[k res] effs]|]; inversion H.
    exists k, res, effs. repeat split.
  - destruct (do_flush (y_core y) cb). inversion H. reflexivity.
  - destruct (do_read (y_core y) (y_disk y) from to). inversion H. reflexivity.
  - inversion H. reflexivity.
  - inversion H. reflexivity.
  - inversion H. reflexivity.
  - inversion H. reflexivity.
  - inversion H. reflexivity.
  - destruct (open_dir cfg (y_disk (worker_idle y))); inversion H. reflexivity.
Qed.

Section RunRule.
  Variable P : sys -> Prop.
  Variable ok : op -> Prop.
  Hypothesis P_op : forall y o y' r, P y -> ok o -> run_op y o = (Some y', r) -> P y'.

  Lemma run_ops_inv ops : forall y res y', P y -> Forall ok ops ->
    run_ops y ops = (res, Some y') -> P y'.
  Proof using P_op.
    induction ops as [|o ops IH]; intros y res y' Hy Hok H; cbn [run_ops] in H.
    - inversion H; subst. exact Hy.
    - inversion Hok as [|? ? Ho Hops]; subst.
      destruct (run_op y o) as [[y1|] r1] eqn:E; [|discriminate].
      destruct (run_ops y1 ops) as [rs fin] eqn:E2. inversion H; subst.
      exact (IH _ _ _ (P_op _ _ _ _ Hy Ho E) Hops E2).
  Qed.

  Lemma run_case_inv cfg ops res y : (forall y0, open_dir cfg [] = OpenOk y0 -> P y0) ->
    Forall ok ops -> run_case cfg ops = (res, Some y) -> P y.
  Proof using P_op.
    unfold run_case. intros H0 Hok H. destruct (open_dir cfg []) as [y0|e d]; [|discriminate].
    exact (run_ops_inv _ _ _ _ (H0 _ eq_refl) Hok H).
  Qed.
End RunRule.

(* the same for a property of every result of the run *)
Lemma run_ops_results (P : sys -> Prop) (ok : op -> Prop) (R : result -> Prop) :
  (forall y o, P y -> ok o -> R (snd (run_op y o)) /\ forall y', fst (run_op y o) = Some y' -> P y') ->
  forall ops y res fin, P y -> Forall ok ops -> run_ops y ops = (res, fin) -> Forall R res.
Proof.
  intros Hstep. induction ops as [|o ops IH]; intros y res fin Hy Hok H; cbn [run_ops] in H.
  - inversion H. constructor.
  - inversion Hok as [|? ? Ho Hops]; subst. destruct (Hstep y o Hy Ho) as [Hr Hy'].
    destruct (run_op y o) as [[y1|] r].
    + destruct (run_ops y1 ops) as [rs f] eqn:E. inversion H; subst.
      constructor; [exact Hr|exact (IH _ _ _ (Hy' _ eq_refl) Hops E)].
    + inversion H. constructor; [exact Hr|constructor].
Qed.

Lemma open_dir_nil_store : forall cfg,
  open_dir cfg [] =
  OpenOk (mkSys (mkCore cfg (sm_new cfg)
                        (ck_push (mkChunk 0 []) (N.of_nat (length (enc_record (RState rstate0)))))
                        [] [] [] 0 0 0)
                (disk_put (mkFile 0 (enc_record (RState rstate0)) 0) [])
                [] [mkWF 0 None] []).
Proof. intros cfg. reflexivity. Qed.
