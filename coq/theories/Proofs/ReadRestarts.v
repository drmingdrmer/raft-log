(* Property C07 across any number of clean restarts (OFlush; ORestart cfg', each under its own
   configuration with any cache limits), without the side condition [restart_ok] of
   ReadRestart.C07_restart_reads_total. [Bhead]: the eviction boundary recorded for the open chunk (in the worker's
   file list or in a queued AppendFile) is the last log id of the snapshot that heads its file in the
   logical directory, or [None] while that file is the oldest. The worker does not change the logical
   directory, so only the caller's operations have to keep it. The boundary a restart installs for
   the newest file is [None] or the last log id of that same snapshot ([bound_head]), hence [None] or
   the recorded one, and [EB] of [I7] gives [restart_ok]. *)
From Coq Require Import List NArith Bool Lia Sorted.
From Coq.Strings Require Import Byte.
From RaftLog Require Import Base.Bytes Model.Types Model.Codec Model.Cache Model.Core Model.Recover Model.Run Spec.Spec Spec.Hist.
From RaftLog Require Import Proofs.CodecFacts Proofs.JournalDisk Proofs.JournalChunk Proofs.JournalFacts.
From RaftLog Require Import Proofs.OrderFacts Proofs.SmFacts Proofs.PurgeLive Proofs.ReadInv Proofs.ReadFacts.
From RaftLog Require Import Proofs.RestartCycles Proofs.CacheRestart Proofs.ReadRestart.
Import ListNotations.
Local Open Scope N_scope.

Definition Bhead (y : sys) : Prop :=
  let o := ck_id (k_open (y_core y)) in
  forall pl, In (o, pl) (fbounds y) ->
    (exists st rest, file_bytes (logical y) o = enc_record (RState st) ++ rest /\ wf_rstate st /\
                     r_last st = pl) \/
    (pl = None /\ forall j, In j (ids (logical y)) -> o <= j).

Lemma fb_le y fid b : journal_wf y -> In (fid, b) (fbounds y) -> fid <= ck_id (k_open (y_core y)).
Proof.
  intros JW H. pose proof (jw_bound _ JW) as Hb. rewrite Forall_forall in Hb.
  apply Hb, (fbounds_mentioned y fid b H).
Qed.

(* the open chunk, its file and the boundaries are as before, but for the tail of that file *)
Lemma Bhead_keep y y' tl : Bhead y -> ck_id (k_open (y_core y')) = ck_id (k_open (y_core y)) ->
  incl (fbounds y') (fbounds y) -> incl (ids (logical y')) (ids (logical y)) ->
  file_bytes (logical y') (ck_id (k_open (y_core y))) =
    file_bytes (logical y) (ck_id (k_open (y_core y))) ++ tl -> Bhead y'.
Proof.
  intros H Eo Hfb Hids Ef. unfold Bhead. rewrite Eo. intros pl Hin.
  destruct (H pl (Hfb _ Hin)) as [(st & rest & E & W & El)|[E Hm]].
  - left. exists st, (rest ++ tl). rewrite Ef, E, app_assoc. auto.
  - right. split; [exact E|]. intros j Hj. apply Hm, Hids, Hj.
Qed.

Lemma Bhead_aaa y r k' w effs : journal_wf y -> wf_record r ->
  append_and_apply (y_core y) r = Ret (k', w, effs) -> Bhead y -> Bhead (commit y k' effs).
Proof.
  intros JW Hr Ha H. unfold commit.
  apply append_and_apply_steps in Ha as [(Ek & Ee & _)|(sm1 & Hv & Hs & _ & Ht)].
  { subst k' effs. change (Bhead (commit y (y_core y) [])). rewrite commit_nil. exact H. }
  destruct (jw_appended y r sm1 JW Hr Hv Hs) as (JW1 & Hids1 & Hfo1 & _).
  set (y1 := with_core y (appended (y_core y) r sm1)) in *.
  assert (H1 : Bhead y1).
  { apply (Bhead_keep y y1 (enc_record r) H); [unfold y1; cbn [with_core y_core appended k_open]; apply ck_id_push|apply incl_refl|rewrite Hids1; apply incl_refl|exact Hfo1]. }
  destruct Ht as [(_ & Ek & Ee)|(_ & Ek & Ee)]; subst k' effs; [exact H1|].
  destruct (jw_rotated y1 JW1) as (JW2 & _ & Hfoff2 & _).
  destruct (rotate_sys_fb y1) as (Ec & _ & Efl & Eq). cbv zeta in *.
  change (y_core y1) with (appended (y_core y) r sm1) in *. set (k1 := appended (y_core y) r sm1) in *.
  change (apply_effs (with_core y (rotated k1)) (rotate_effs k1))
    with (apply_effs (with_core y1 (rotated k1)) (rotate_effs k1)).
  set (y2 := apply_effs (with_core y1 (rotated k1)) (rotate_effs k1)) in *.
  unfold Bhead. rewrite Ec. cbn [rotated k_open ck_id]. intros pl Hin. left.
  unfold fbounds in Hin. rewrite Efl, Eq, app_assoc in Hin. apply in_app_or in Hin.
  destruct Hin as [Hin|[Hin|[]]].
  - exfalso. pose proof (fb_le y1 _ pl JW1 Hin) as Hle.
    pose proof (ji_open_lt_end _ _ _ (jw_inv _ JW1)) as Hlt.
    exact (N.lt_irrefl _ (N.le_lt_trans _ _ _ Hle Hlt)).
  - inversion Hin. exists (m_rs (k_sm k1)), []. rewrite app_nil_r.
    split; [exact Hfoff2|]. split; [apply (ji_rs _ _ _ (jw_inv _ JW1))|reflexivity].
Qed.

Lemma Bhead_run_op y o y' r : Bhead y -> journal_wf y -> op_wf o -> op_c11 o = true ->
  run_op y o = (Some y', r) -> Bhead y'.
Proof.
  intros H JW Hw Hn Hop.
  assert (Same : forall y k, Bhead y -> logical (with_core y k) = logical y ->
            ck_id (k_open k) = ck_id (k_open (y_core y)) -> Bhead (with_core y k)).
  { intros y0 k H0 El Eo. apply (Bhead_keep y0 _ [] H0); [exact Eo|apply incl_refl| |];
      rewrite El, ?app_nil_r; [apply incl_refl|reflexivity]. }
  refine (proj2 (run_op_sys (fun y => journal_wf y /\ Bhead y) (fun _ => wf_record) _ _ _ _ _
                   y o y' r (conj JW H) Hn _ Hop)).
  - intros y0 r0 k' res ef [JW0 H0] Wr Ha.
    split; [exact (append_step_jw _ _ _ _ _ JW0 Wr Ha)|exact (Bhead_aaa _ _ _ _ _ JW0 Wr Ha H0)].
  - intros y0 u rm rest [JW0 H0] Hp. split; [exact (jw_purged _ u rm rest JW0 Hp)|].
    apply Same; [exact H0|rewrite !logical_eq; reflexivity|reflexivity].
  - intros y0 cb [JW0 H0]. unfold commit. split; [apply jw_flush, JW0|].
    destruct (flush_sys y0 cb) as (_ & Ef & Eq & _ & Eo & _). cbv zeta in Ef, Eq, Eo.
    destruct (jw_flush_ex y0 cb JW0) as (_ & Hids & Hfb & _). cbv zeta in Hids, Hfb.
    apply (Bhead_keep y0 _ [] H0); [rewrite Eo; reflexivity|rewrite (fbounds_same _ _ Ef Eq); apply incl_refl| |].
    + rewrite Hids, (ji_ids _ _ _ (jw_inv _ JW0)). unfold chunk_ids. apply incl_appr, incl_refl.
    + rewrite app_nil_r. apply Hfb. apply in_or_app. right. left. reflexivity.
  - intros y0 k [JW0 H0] Ec. split; [apply jw_with_core; assumption|].
    apply Same; [exact H0|exact (logical_core_eqj y0 (with_core y0 k) eq_refl Ec)|].
    destruct Ec as (_ & Eo & _). rewrite Eo. reflexivity.
  - intros y0 [JW0 H0]. split; [apply jw_idle, JW0|]. destruct (idle_bounds y0) as (pre & Efb & _).
    pose proof (logical_core_eqj y0 (worker_idle y0) (wfinal_idle y0) (JournalDisk.worker_idle_core y0)) as El.
    destruct (JournalDisk.worker_idle_core y0) as (_ & Eo & _).
    apply (Bhead_keep y0 _ [] H0); [rewrite Eo; reflexivity|rewrite Efb; apply incl_appr, incl_refl| |];
      rewrite El, ?app_nil_r; [apply incl_refl|reflexivity].
  - intros w y1 r1 -> [JW1 _] Hi. exact (issues_wf _ _ _ JW1 Hw Hi).
Qed.

Lemma Bhead_init cfg : Bhead (sys0 cfg).
Proof.
  unfold Bhead. cbv zeta. intros pl Hin. left.
  unfold fbounds in Hin. cbn [sys0 y_files y_queue map wf_fb wf_id wf_prev_last flat_map app] in Hin.
  destruct Hin as [Hin|[]]. inversion Hin.
  rewrite (C11_idle_disk_is_journal _ (jw_init cfg) eq_refl eq_refl).
  exists rstate0, []. rewrite app_nil_r. split; [reflexivity|]. split; [|reflexivity]. unfold wf_rstate. cbn. tauto.
Qed.

Lemma newest_fb y : journal_wf y -> y_queue y = [] ->
  exists pl, In (ck_id (k_open (y_core y)), pl) (fbounds y).
Proof.
  intros JW Hq. destruct (jw_newest _ JW) as (older & pl & E).
  rewrite (wfinal_idle_state y Hq) in E. cbn [snd] in E. exists pl. unfold fbounds. rewrite E, map_app.
  apply in_or_app. left. apply in_or_app. right. left. reflexivity.
Qed.

(* at a flushed idle state: the boundary a restart installs for the open chunk is [None], or the last
   log id of the snapshot that heads its file; [None] when that file is the oldest *)
Lemma bound_head y : journal_wf y -> y_queue y = [] -> k_pending (y_core y) = [] ->
  let o := ck_id (k_open (y_core y)) in
  ((forall j, In j (ids (logical y)) -> o <= j) -> restart_bound y = None) /\
  exists st rest, file_bytes (logical y) o = enc_record (RState st) ++ rest /\ wf_rstate st /\
    (restart_bound y = r_last st \/
     restart_bound y = None /\ forall j, In j (ids (logical y)) -> o <= j).
Proof.
  intros JW Hq Hp o. rewrite (C11_idle_disk_is_journal y JW Hq Hp). pose proof (jw_inv _ JW) as J.
  rewrite (C11_idle_disk_is_journal y JW Hq Hp) in J. pose proof (jw_sorted _ JW) as Sd.
  destruct (ji_open_ok _ _ _ J) as (rs & Wrs & Efo & _ & st & tl & Ers). fold o in Efo.
  rewrite Ers, encs_cons in Efo. inversion Wrs as [|? ? Wst _]; [congruence|]. subst.
  assert (Wst' : wf_record (RState st)) by (rewrite Ers in Wrs; inversion Wrs; assumption).
  unfold restart_bound, disk_bound. fold o.
  assert (Hio : In o (ids (y_disk y))) by (apply (ji_open_in _ _ _ J)).
  destruct (y_disk y) as [|f0 d0] eqn:Ed; [destruct Hio|]. rewrite <- Ed in *.
  destruct (N.eqb_spec (f_id f0) o) as [E0|E0].
  { split; [reflexivity|]. exists st, (encs tl). split; [exact Efo|]. split; [exact Wst'|]. right.
    split; [reflexivity|]. intros j Hj. rewrite <- E0. rewrite Ed in Hj, Sd. destruct Hj as [Hj|Hj]; [lia|].
    apply StronglySorted_inv in Sd. destruct Sd as [_ F]. rewrite Forall_forall in F. specialize (F j Hj). lia. }
  assert (Eb : match disk_get o (y_disk y) with
               | Some fo => match dec_record (f_data fo) with DOk (RState st0, _) => r_last st0 | _ => None end
               | None => None end = r_last st).
  { unfold file_bytes in Efo. destruct (disk_get o (y_disk y)) as [fo|].
    - rewrite Efo, (dec_enc_record (RState st) (encs tl) Wst'). reflexivity.
    - exfalso. pose proof (PurgeFacts.blen_enc_pos (RState st)) as Hpos. apply (f_equal blen) in Efo.
      rewrite blen_app, blen_nil in Efo. lia. }
  rewrite Eb. split.
  - intros Hm. exfalso. apply E0. rewrite Ed in Hm. specialize (Hm (f_id f0) (or_introl eq_refl)).
    rewrite Ed in Hio, Sd. destruct Hio as [Hio|Hio]; [exact Hio|].
    apply StronglySorted_inv in Sd. destruct Sd as [_ F]. rewrite Forall_forall in F. specialize (F o Hio). lia.
  - exists st, (encs tl). split; [exact Efo|]. split; [exact Wst'|]. left. reflexivity.
Qed.

Lemma restart_ok_holds y sp : I7 y sp -> Bhead y -> y_queue y = [] -> k_pending (y_core y) = [] ->
  restart_ok y = true.
Proof.
  intros HI H Hq Hp. pose proof HI as [(HR & _ & _) JW _ _ HEB _].
  destruct (newest_fb y JW Hq) as (pl & Hin).
  destruct (bound_head y JW Hq Hp) as (Hmin & st & rest & Ef & W & Hb). cbv zeta in *.
  assert (Hpl : restart_bound y = None \/ restart_bound y = pl).
  { destruct (H pl Hin) as [(st' & rest' & Ef' & W' & El)|[_ Hm]]; [|left; exact (Hmin Hm)].
    destruct Hb as [Hb|[Hb _]]; [right|left; exact Hb]. rewrite Hb, <- El. f_equal.
    rewrite Ef in Ef'. apply (f_equal dec_record) in Ef'.
    rewrite (dec_enc_record (RState st) rest W), (dec_enc_record (RState st') rest' W') in Ef'.
    inversion Ef'. reflexivity. }
  unfold restart_ok. apply forallb_forall. intros [i ld] Hl. cbn [snd].
  destruct (N.eqb_spec (ld_chunk ld) (ck_id (k_open (y_core y)))) as [Ec|Ec]; [|reflexivity].
  cbn [negb orb]. destruct Hpl as [Hb'|Hb']; rewrite Hb'; [reflexivity|].
  rewrite opair_ltb_negb_leb. apply negb_true_iff.
  destruct (opair_leb (Some (ld_id ld)) pl) eqn:Ele; [|reflexivity]. exfalso.
  destruct (log_key_in0 _ sp (i, ld) HR Hl) as [[id p] [Hp' [_ Hid]]]. cbn [fst snd] in Hid. subst id.
  pose proof (HEB _ pl i ld p Hin Hl Hp' Ele) as Hlt. lia.
Qed.

Lemma run_Bhead : forall ops y sp res y', I7 y sp -> Bhead y ->
  ops_c07 sp ops = true -> Forall op_wf ops -> run_ok_c07b y ops = true ->
  run_ops y ops = (res, Some y') -> Bhead y'.
Proof.
  induction ops as [|o ops IH]; intros y sp res y' HI H Hc Hw Hok Hrun.
  - cbn [run_ops] in Hrun. inversion Hrun; subst. exact H.
  - cbn [ops_c07] in Hc. apply andb_true_iff in Hc. destruct Hc as [Hc1 Hc2].
    inversion Hw as [|? ? Hw1 Hw2]; subst.
    cbn [run_ok_c07b] in Hok. apply andb_true_iff in Hok. destruct Hok as [Hok1 Hok2].
    destruct (I7_run_op y sp o HI Hc1 Hw1 Hok1) as (y1 & r0 & Hop & HI1).
    assert (Hn : op_c11 o = true) by (destruct o; try reflexivity; discriminate Hc1).
    pose proof (Bhead_run_op y o y1 r0 H (i_jw _ _ HI) Hw1 Hn Hop) as H1.
    cbn [run_ops] in Hrun. rewrite Hop in Hrun, Hok2.
    destruct (run_ops y1 ops) as [rs fin] eqn:Er. inversion Hrun; subst.
    apply (IH y1 (spec_op sp o) rs y' HI1 H1 Hc2 Hw2 Hok2 Er).
Qed.

Lemma run_case_restart_ok cfg ops res y :
  ops_c07 spec0 ops = true -> Forall op_wf ops ->
  (match open_dir cfg [] with OpenOk y0 => run_ok_c07b y0 ops = true | _ => False end) ->
  run_case cfg ops = (res, Some y) -> y_queue y = [] -> k_pending (y_core y) = [] -> restart_ok y = true.
Proof.
  intros Hc Hw Hok Hrun Hq Hp. unfold run_case in Hrun. rewrite open_dir_nil in Hrun, Hok.
  destruct (I7_run_ops ops (sys0 cfg) spec0 res (Some y) (I7_init cfg) Hc Hw Hok Hrun) as (y0 & E & HI).
  inversion E; subst y0.
  apply (restart_ok_holds y _ HI); [|exact Hq|exact Hp].
  apply (run_Bhead ops (sys0 cfg) spec0 res y (I7_init cfg) (Bhead_init cfg) Hc Hw Hok Hrun).
Qed.

(* C07 across one clean restart, without the side condition [restart_ok] *)
Theorem C07_restart_reads_total_strong : forall cfg cfg' ops res y,
  ops_c07 spec0 ops = true -> Forall op_wf ops ->
  (match open_dir cfg [] with OpenOk y0 => run_ok_c07b y0 ops = true | _ => False end) ->
  run_case cfg ops = (res, Some y) ->
  y_queue y = [] -> k_pending (y_core y) = [] ->
  exists y', open_dir cfg' (y_disk y) = OpenOk y' /\ observes y' (spec_ops spec0 ops) /\
             I7 y' (spec_ops spec0 ops).
Proof.
  intros cfg cfg' ops res y Hc Hw Hok Hrun Hq Hpend.
  apply (C07_restart_reads_total cfg cfg' ops res y Hc Hw Hok Hrun Hq Hpend).
  apply (run_case_restart_ok cfg ops res y Hc Hw Hok Hrun Hq Hpend).
Qed.

Theorem C07_restart_continue_strong : forall cfg cfg' ops ops2 res y,
  ops_c07 spec0 ops = true -> Forall op_wf ops ->
  (match open_dir cfg [] with OpenOk y0 => run_ok_c07b y0 ops = true | _ => False end) ->
  run_case cfg ops = (res, Some y) ->
  y_queue y = [] -> k_pending (y_core y) = [] ->
  exists y', open_dir cfg' (y_disk y) = OpenOk y' /\
    forall res2 fin,
      ops_c07 (spec_ops spec0 ops) ops2 = true -> Forall op_wf ops2 -> run_ok_c07b y' ops2 = true ->
      run_ops y' ops2 = (res2, fin) ->
      exists y2, fin = Some y2 /\ observes y2 (spec_ops spec0 (ops ++ ops2)) /\
                 I7 y2 (spec_ops spec0 (ops ++ ops2)).
Proof.
  intros cfg cfg' ops ops2 res y Hc Hw Hok Hrun Hq Hpend.
  apply (C07_restart_continue cfg cfg' ops ops2 res y Hc Hw Hok Hrun Hq Hpend).
  apply (run_case_restart_ok cfg ops res y Hc Hw Hok Hrun Hq Hpend).
Qed.

Print Assumptions C07_restart_reads_total_strong.
Print Assumptions C07_restart_continue_strong.

(* One clean restart without the side condition: [Bhead] and [EB] of [I7] give [restart_ok]
   ([restart_ok_holds]), and the reopened store has [Bhead] again, its one boundary being the one
   that [bound_head] describes. *)
Lemma restart_gen cfg' y sp :
  I7 y sp -> Bhead y -> (forall c, FJ7 c y sp) ->
  y_queue y = [] -> k_pending (y_core y) = [] ->
  exists y', open_dir cfg' (y_disk y) = OpenOk y' /\ I7 y' sp /\ Bhead y' /\
    forall c, FJ7 c y' sp.
Proof.
  intros HI HHB F Hq Hpend.
  destruct (restart_I7 cfg' y sp HI (restart_ok_holds y sp HI HHB Hq Hpend) F Hq Hpend)
    as (y' & Ho & HI' & F' & El & Eo & Efb).
  exists y'. repeat (split; [assumption|]). split; [|exact F'].
  destruct (bound_head y (i_jw _ _ HI) Hq Hpend) as (_ & st & rest & Ef & W & Hb). cbv zeta in *.
  unfold Bhead. rewrite Eo, El, Efb. intros pl [Hx|[]]. inversion Hx as [Epl].
  destruct Hb as [Hb|Hb]; [left; exists st, rest; auto|right; exact Hb].
Qed.

(* what a run with restarts carries, under any cache limits *)
Record MI (y : sys) (sp : spec) : Prop := mkMI {
  mi_i7 : I7 y sp;
  mi_hb : Bhead y;
  mi_fj : forall c, FJ7 c y sp }.

Lemma mi_run_op y sp o :
  MI y sp -> op_c07 sp o = true -> op_wf o -> op_above_bounds y o = true ->
  exists y' r, run_op y o = (Some y', r) /\ MI y' (spec_op sp o).
Proof.
  intros [HI HHB HF] Hc Hw Hab.
  assert (Hnr : op_c11 o = true) by (destruct o; try reflexivity; discriminate Hc).
  destruct (I7_run_op y sp o HI Hc Hw Hab) as (y' & r & Hop & HI').
  exists y', r. split; [exact Hop|].
  constructor.
  - exact HI'.
  - apply (Bhead_run_op y o y' r HHB (i_jw _ _ HI) Hw Hnr Hop).
  - intros c. destruct (fj7_run_op c y sp o (HF c) Hc Hw) as (y1 & r1 & Hop1 & HF').
    rewrite Hop in Hop1. inversion Hop1; subst y1 r1. exact HF'.
Qed.

Lemma mi_restart y sp cb c :
  MI y sp ->
  exists y1 r1 y3, run_op y (OFlush cb) = (Some y1, r1) /\
    run_op y1 (ORestart c) = (Some y3, ResOpened) /\ MI y3 sp.
Proof.
  apply (flush_restart (fun y => MI y sp)).
  - intros y0 o y' r HM Ho E.
    destruct (mi_run_op y0 sp o HM) as (y1 & r1 & E1 & HM1);
      [destruct Ho as [-> | ->]; reflexivity|destruct Ho as [-> | ->]; exact I|destruct Ho as [-> | ->]; reflexivity|].
    rewrite E in E1. inversion E1; subst y1 r1. destruct Ho as [-> | ->]; exact HM1.
  - intros y0 [HI HH HF] Hq Hp. destruct (restart_gen c y0 sp HI HH HF Hq Hp) as (y3 & Ho & HI3 & HH3 & HF3).
    exists y3. split; [exact Ho|constructor; assumption].
Qed.

(* legal histories with clean restarts: every restart directly preceded by a flush *)
Fixpoint ops_c07r (sp : spec) (ops : list op) : bool :=
  match ops with
  | [] => true
  | o :: r =>
    match o, r with
    | OFlush _, ORestart _ :: r' => ops_c07r sp r'
    | _, _ => op_c07 sp o && ops_c07r (spec_op sp o) r
    end
  end.

(* the run-time check: [run_ok_c07b] follows the run through the restarts (the bounds of a
   reopened store are those the restart installed); nothing has to be tested at a restart
   itself, since [restart_ok] is implied ([restart_ok_holds]) *)
Definition run_ok_c07r (y : sys) (ops : list op) : bool := run_ok_c07b y ops.

Lemma ops_c07r_cons sp o r : (forall cb c r', o :: r <> OFlush cb :: ORestart c :: r') ->
  ops_c07r sp (o :: r) = op_c07 sp o && ops_c07r (spec_op sp o) r.
Proof.
  intros H. destruct o; try reflexivity. destruct r as [|o2 r']; [reflexivity|].
  destruct o2; try reflexivity. exfalso. eapply H. reflexivity.
Qed.

Lemma mi_run_ops : forall ops y sp res fin,
  MI y sp ->
  ops_c07r sp ops = true -> Forall op_wf ops -> run_ok_c07r y ops = true -> run_ops y ops = (res, fin) ->
  exists y', fin = Some y' /\ MI y' (spec_ops sp ops).
Proof.
  unfold run_ok_c07r. intros ops.
  induction ops as [|o r Hnot IH|cb c r' IH] using clean_restart_ind;
    intros y sp res fin HM Hp Hwf Hok Hrun.
  - cbn [run_ops] in Hrun. inversion Hrun. subst. exists y. split; [reflexivity|exact HM].
  - rewrite (ops_c07r_cons sp o r Hnot) in Hp. apply andb_true_iff in Hp. destruct Hp as [Hp1 Hp2].
    inversion Hwf as [|? ? Hw1 Hw2]; subst.
    cbn [run_ok_c07b] in Hok. apply andb_true_iff in Hok. destruct Hok as [Hok1 Hok2].
    destruct (mi_run_op y sp o HM Hp1 Hw1 Hok1) as (y' & r0 & Hop & M').
    cbn [run_ops] in Hrun. rewrite Hop in Hrun, Hok2.
    destruct (run_ops y' r) as [rs fin'] eqn:Er. inversion Hrun. subst.
    cbn [spec_ops fold_left].
    apply (IH y' (spec_op sp o) rs fin M'); assumption.
  - cbn [ops_c07r] in Hp.
    inversion Hwf as [|? ? _ Hwf1]; subst. inversion Hwf1 as [|? ? _ Hwf2]; subst.
    destruct (mi_restart y sp cb c HM) as (y1 & r1 & y3 & Hop1 & Hop2 & M3).
    cbn [run_ok_c07b] in Hok. rewrite Hop1 in Hok. cbn [op_above_bounds andb] in Hok.
    rewrite Hop2 in Hok.
    cbn [run_ops] in Hrun. rewrite Hop1 in Hrun. cbv beta iota in Hrun.
    rewrite Hop2 in Hrun. cbv beta iota in Hrun.
    destruct (run_ops y3 r') as [rs3 fin3] eqn:Er3. cbv beta iota in Hrun.
    inversion Hrun; subst. clear Hrun.
    cbn [spec_ops fold_left spec_op].
    apply (IH y3 sp rs3 fin M3); assumption.
Qed.

(* C07 across any number of clean restarts *)
Theorem C07_restarts_reads_total : forall cfg ops res fin,
  ops_c07r spec0 ops = true -> Forall op_wf ops ->
  (match open_dir cfg [] with OpenOk y0 => run_ok_c07r y0 ops = true | _ => False end) ->
  run_case cfg ops = (res, fin) ->
  exists y, fin = Some y /\ observes y (spec_ops spec0 ops).
Proof.
  intros cfg ops res fin Hp Hwf Hok Hrun.
  unfold run_case in Hrun. rewrite open_dir_nil in Hrun, Hok.
  assert (M0 : MI (sys0 cfg) spec0).
  { constructor; [apply I7_init|apply Bhead_init|intros c; apply FJ7_init]. }
  destruct (mi_run_ops ops (sys0 cfg) spec0 res fin M0) as (y & E & M); try assumption.
  exists y. split; [exact E|]. apply I7_observes. apply (mi_i7 _ _ M).
Qed.

Print Assumptions C07_restarts_reads_total.

(* the hypotheses are satisfiable: a zero-size cache with chunks of three records, a restart
   under a one-item cache with chunks of four, truncation and re-append above the
   boundaries, drain, purge, a second restart under a zero-size cache with chunks of two,
   a further append; the last read returns the reference log *)
Example C07_restarts_hyps_inhabited :
  let cfg := mkConfig 0 0 3 100000 true in
  let cfg1 := mkConfig 1 10 4 100000 false in
  let cfg2 := mkConfig 0 0 2 100000 true in
  let ops := [OW (OAppend [((1, 0), [x01]); ((1, 1), []); ((1, 2), [])]); OFlush true; ORestart cfg1;
              OW (OTruncate 2); OW (OAppend [((2, 2), []); ((2, 3), [x02])]); ODrain; ORead 0 10;
              OW (OPurge (1, 0)); OFlush false; ORestart cfg2;
              OW (OAppend [((3, 4), [x03])]); ORead 0 10; ODumpIter] in
  ops_c07r spec0 ops = true /\ Forall op_wf ops /\
  (match open_dir cfg [] with OpenOk y0 => run_ok_c07r y0 ops = true | _ => False end) /\
  restart_cfgs ops = [cfg1; cfg2] /\
  sp_entries (spec_ops spec0 ops) = [((1, 1), []); ((2, 2), []); ((2, 3), [x02]); ((3, 4), [x03])] /\
  exists res y, run_case cfg ops = (res, Some y) /\
    nth 11 res ResPanic =
      ResRead [RIOk (1, 1) []; RIOk (2, 2) []; RIOk (2, 3) [x02]; RIOk (3, 4) [x03]] /\
    ch_entries (m_cache (k_sm (y_core y))) = [((2, 3), [x02]); ((3, 4), [x03])].
Proof.
  cbv zeta. split; [vm_compute; reflexivity|]. split.
  { repeat constructor; cbn; unfold wf_pair, wf_u64, wf_bytes; cbn; lia. }
  split; [vm_compute; reflexivity|]. split; [reflexivity|]. split; [vm_compute; reflexivity|].
  (* only what is claimed of [res] and [y] is evaluated: the kernel's lazy machine, which coqchk uses
     for a [vm_compute] step, does not normalise the rest of the run's result *)
  set (r := run_case _ _).
  assert (H : match r with
              | (res, Some y) => Some (nth 11 res ResPanic, ch_entries (m_cache (k_sm (y_core y))))
              | (_, None) => None
              end = Some (ResRead [RIOk (1, 1) []; RIOk (2, 2) []; RIOk (2, 3) [x02]; RIOk (3, 4) [x03]],
                          [((2, 3), [x02]); ((3, 4), [x03])])) by (vm_compute; reflexivity).
  clearbody r. destruct r as [res [y|]]; [|discriminate H]. injection H as H1 H2.
  exists res, y. auto.
Qed.

Print Assumptions C07_restarts_hyps_inhabited.
