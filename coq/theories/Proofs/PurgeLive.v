(* Property C08, last part: no live entry is stored in a chunk whose file is gone
   (C08_only_dead_partial), for Raft-legal histories, in the states between API calls.
   Part A: [R0], the abstraction relation without its cache clauses (no cache budget is needed and
   eviction is allowed); it is [Refine.Rlog] ([R0_Rlog]). Part B: every index-map entry points into a
   chunk the caller still lists, and the entries of a closed chunk are at most the last id recorded
   when it was closed. Part C: lifting to the L2 system through the ghost history g_writes. *)
From Coq Require Import List NArith Bool Sorted.
From RaftLog Require Import Model.Types Model.Core Model.Recover Model.Run Spec.Spec Spec.Hist Model.Sys Spec.Durable.
From RaftLog Require Import Proofs.JournalDisk Proofs.JournalChunk Proofs.PurgeFacts.
From RaftLog Require Import Proofs.Refine.
From RaftLog Require Proofs.AckFacts.
Import ListNotations.
Local Open Scope N_scope.

(* ================================================================== Part A: cache-free refinement *)
Record R0 (s : sm) (sp : spec) : Prop := mkR0 {
  R0_rs : m_rs s = spec_state sp;
  R0_log : map f_log (m_log s) = map g_ent (sp_entries sp);
  R0_sorted : StronglySorted klt (sp_entries sp);
  R0_purged : forall e, In e (sp_entries sp) ->
      opair_cmp (sp_purged sp) (Some (fst e)) = Lt /\ next_index (sp_purged sp) <= lid_index (fst e) }.

Lemma R0_Rlog : forall s sp, R0 s sp <-> Rlog s sp.
Proof.
  intros s sp. split.
  - intros [H1 H2 H3 H4]. constructor; [exact H1|exact H2|split; assumption].
  - intros [H1 H2 [H3 H4]]. constructor; assumption.
Qed.

Lemma R0_wf : forall s sp, R0 s sp -> spec_wf sp.
Proof. intros s sp HR. exact (L_wf _ _ (proj1 (R0_Rlog _ _) HR)). Qed.

Lemma log_key_in0 : forall s sp e, R0 s sp -> In e (m_log s) ->
  exists b, In b (sp_entries sp) /\ fst e = lid_index (fst b) /\ ld_id (snd e) = fst b.
Proof. intros s sp e HR. exact (Rlog_key_in s sp e (proj1 (R0_Rlog _ _) HR)). Qed.

Lemma R0_same : forall s sp s' sp', R0 s sp ->
  sp_entries sp' = sp_entries sp -> sp_purged sp' = sp_purged sp ->
  m_log s' = m_log s -> m_rs s' = spec_state sp' -> R0 s' sp'.
Proof.
  intros s sp s' sp' HR He Hp Hl Hrs. apply R0_Rlog.
  exact (Rlog_same s sp s' sp' (proj1 (R0_Rlog _ _) HR) He Hp Hl Hrs).
Qed.

Definition step_sim0 (s : sm) (sp : spec) (r : record) (w : swrite) : Prop :=
  match spec_step sp w with
  | Some sp' =>
    index_limit r = false /\ rs_validate (m_rs s) r = None /\
    forall c seg, R0 (fst (sm_apply s r c seg)) sp'
  | None => index_limit r = true \/ exists e, rs_validate (m_rs s) r = Some e
  end.

Lemma step_sim0_log : forall s sp r w, step_log s sp r w -> step_sim0 s sp r w.
Proof.
  intros s sp r w H. unfold step_log, step_sim0 in *. destruct (spec_step sp w); [|exact H].
  destruct H as [H1 [H2 H3]]. split; [exact H1|]. split; [exact H2|]. intros c seg. apply R0_Rlog, H3.
Qed.

(* ================================================================== Part B: entries and chunks *)
Record J (k : core) : Prop := mkJ {
  J_in : forall e, In e (m_log (k_sm k)) -> In (ld_chunk (snd e)) (tail_ids k);
  J_le : forall e c, In e (m_log (k_sm k)) -> In c (k_closed k) -> ld_chunk (snd e) = cid c ->
         opair_cmp (Some (ld_id (snd e))) (r_last (cl_state c)) <> Gt }.

Definition KInv (k : core) (sp : spec) : Prop := R0 (k_sm k) sp /\ J k /\ core_ok k.

Lemma closed_not_open k c : core_ok k -> In c (k_closed k) -> cid c <> ck_id (k_open k).
Proof.
  intros [_ S] Hc E. pose proof (tail_ids_lt k (cid c) S) as H.
  assert (Hin : In (cid c) (map cid (k_closed k))) by (apply in_map; exact Hc).
  specialize (H Hin). rewrite E in H. apply (N.lt_irrefl _ H).
Qed.

Lemma J_Jc k : J k <-> Jc k.
Proof. split; intros [H1 H2]; constructor; assumption. Qed.

Lemma J_record k r sm1 seg : J k -> core_ok k ->
  sm_apply (k_sm k) r (ck_id (k_open k)) seg = (sm1, None) -> J (appended k r sm1).
Proof.
  intros HJ Hk Hs. apply J_Jc, (Jc_record k r sm1 seg); [apply J_Jc, HJ| |rewrite Hs; reflexivity].
  intros c Hc. exact (closed_not_open k c Hk Hc).
Qed.

Lemma R0_entry_le_last s sp e : R0 s sp -> In e (m_log s) ->
  opair_cmp (Some (ld_id (snd e))) (r_last (m_rs s)) <> Gt.
Proof. intros HR. apply (Rlog_entry_le_last s sp e), R0_Rlog, HR. Qed.

Lemma J_rotate k1 sp1 : J k1 -> core_ok k1 -> R0 (k_sm k1) sp1 -> J (rotated k1).
Proof.
  intros HJ [_ S] HR. apply J_Jc, (Jc_rotate k1 sp1); [apply J_Jc, HJ|apply R0_Rlog, HR|].
  unfold rotated. cbn [k_closed]. apply closed_insert_last. rewrite Forall_forall. intros c Hc.
  cbn [cl_chunk]. apply (tail_ids_lt k1); [exact S|]. apply in_map_iff. exists c. auto.
Qed.

Lemma KInv_rec k sp r sw k' res effs : KInv k sp -> rec_sw sp r sw ->
  append_and_apply k r = Ret (k', res, effs) ->
  KInv k' (fst (spec_one sp sw)) /\ res_agrees res (snd (spec_one sp sw)).
Proof.
  intros (HR & HJ & Hk) Hw H. pose proof (append_and_apply_ok _ _ _ _ _ Hk H) as (Hk' & _).
  destruct (aaa_sim k sp r sw k' res effs (proj1 (R0_Rlog _ _) HR) Hw H) as [Hag HA]. split; [|exact Hag].
  unfold spec_one. destruct (spec_step sp sw) as [sp'|]; cbn [fst].
  - destruct HA as (sm1 & _ & Hs & HL1 & D). apply R0_Rlog in HL1.
    pose proof (J_record _ _ _ _ HJ Hk Hs) as HJ1.
    destruct D as [[-> _]|[-> _]]; (split; [exact HL1|split; [|exact Hk']]); [exact HJ1|].
    destruct (appended_ok k r sm1 Hk) as (Hk1 & _ & _). eapply J_rotate; [exact HJ1|exact Hk1|exact HL1].
  - destruct HA as [-> _]. split; [exact HR|split; assumption].
Qed.

Lemma KInv_pop k sp u ids rest : KInv k sp -> opair_cmp (Some u) (sp_purged sp) <> Gt ->
  pop_obsolete u (k_closed k) = (ids, rest) -> KInv (purged_core k ids rest) sp.
Proof.
  intros (HR1 & HJ1 & Hk1) Hu Ep. split; [exact HR1|]. split.
  - apply J_Jc, (Jc_pop k sp u ids rest); [apply J_Jc, HJ1|apply R0_Rlog, HR1|exact Hu|exact Ep].
  - destruct (pop_obsolete_split _ _ _ _ Ep) as (popped & P1 & _).
    destruct Hk1 as [Ho S]. split; [exact Ho|]. unfold tail_ids in *. cbn [purged_core k_closed k_open].
    rewrite P1, map_app, <- app_assoc in S. apply ss_suffix in S. exact S.
Qed.

Lemma do_write_sim0 k sp w k' r effs : KInv k sp -> wop_legal sp w = true ->
  do_write k w = Ret (k', r, effs) -> KInv k' (fst (spec_wop sp w)).
Proof.
  intros HI Hleg H.
  refine (proj1 (do_write_sim_gen (fun k _ sp _ _ => KInv k sp) (fun _ _ _ _ _ _ _ H _ _ => H) w
                   _ _ _ k sp 0 0 k' r effs HI Hleg H)).
  - intros k0 _ sp0 _ _ (HR & _). apply R0_Rlog, HR.
  - intros k0 _ sp0 _ _ r0 sw k1 res ef _ Hs HI0.
    apply KInv_rec; [destruct r0; exact HI0|exact Hs].
  - intros k0 _ sp0 _ _. apply KInv_pop.
Qed.

(* ================================================================== Part C: the L2 system *)
Fixpoint wops_legal (s : spec) (l : list wop) : bool :=
  match l with
  | [] => true
  | w :: r => wop_legal s w && wops_legal (fst (spec_wop s w)) r
  end.
Definition spec_wops (s : spec) (l : list wop) : spec :=
  fold_left (fun s w => fst (spec_wop s w)) l s.

Definition hist (z : sys2) : list wop := map fst (g_writes (z_ghost z)).
Definition hist_legal (z : sys2) : Prop := wops_legal spec0 (hist z) = true.

Lemma wops_legal_snoc l : forall s w,
  wops_legal s (l ++ [w]) = wops_legal s l && wop_legal (spec_wops s l) w.
Proof.
  induction l as [|a l IH]; intros s w; cbn [app wops_legal spec_wops fold_left].
  - rewrite andb_true_r. reflexivity.
  - rewrite IH. unfold spec_wops. rewrite andb_assoc. reflexivity.
Qed.

Lemma spec_wops_snoc l s w : spec_wops s (l ++ [w]) = fst (spec_wop (spec_wops s l) w).
Proof. unfold spec_wops. rewrite fold_left_app. reflexivity. Qed.

Definition LInv (z : sys2) : Prop := KInv (z_core z) (spec_wops spec0 (hist z)).

Lemma KInv_eqj k k' sp : core_eqj k k' -> KInv k sp -> KInv k' sp.
Proof.
  intros He (HR & [J1 J2] & Hk). pose proof He as (_ & Eo & _ & Ec & _ & Ers & Elog).
  destruct (core_eqj_ok _ _ He Hk) as (Hk' & Ht & _).
  split; [|split; [|exact Hk']].
  - destruct HR as [H1 H2 H3 H4]. constructor; rewrite ?Ers, ?Elog; assumption.
  - constructor.
    + intros e Hin. rewrite Ht. apply J1. rewrite <- Elog. exact Hin.
    + intros e c Hin Hc. rewrite Ec in Hc. apply J2; [rewrite <- Elog; exact Hin|exact Hc].
Qed.

Lemma hist_step z e z' v : zstep z e = Some (z', v) ->
  hist z' = hist z ++ match e with ZCall (OW w) => [w] | _ => [] end.
Proof.
  intros H. unfold hist. destruct (AckFacts.writes_step _ _ _ _ H) as [[-> Hn]|(w & r & -> & ->)].
  - destruct e as [[w| | | | | | | | ]| | | |]; rewrite ?app_nil_r; try reflexivity. elim (Hn w). reflexivity.
  - rewrite map_app. reflexivity.
Qed.

(* what holds of the history after a step held before it, and holds of the write the step issued *)
Lemma hist_legal_back z e z' v : zstep z e = Some (z', v) -> hist_legal z' ->
  hist_legal z /\ forall w, e = ZCall (OW w) -> wop_legal (spec_wops spec0 (hist z)) w = true.
Proof.
  intros H. unfold hist_legal. rewrite (hist_step _ _ _ _ H).
  destruct e as [[w| | | | | | | | ]| | | | ]; rewrite ?app_nil_r; try (intros Hl; split; [exact Hl|discriminate]).
  rewrite wops_legal_snoc. intros Hl. apply andb_true_iff in Hl. split; [apply Hl|].
  intros w0 E. inversion E; subst w0. apply Hl.
Qed.

Lemma hist_Forall_back (P : wop -> Prop) z e z' v : zstep z e = Some (z', v) -> Forall P (hist z') ->
  Forall P (hist z) /\ forall w, e = ZCall (OW w) -> P w.
Proof.
  intros H. rewrite (hist_step _ _ _ _ H).
  destruct e as [[w| | | | | | | | ]| | | | ]; rewrite ?app_nil_r; try (intros Hw; split; [exact Hw|discriminate]).
  intros Hw. apply Forall_app in Hw. destruct Hw as [H1 H2]. split; [exact H1|].
  intros w0 E. inversion E; subst w0. now inversion H2.
Qed.

Lemma linv_zstep z e z' v : (hist_legal z -> LInv z) -> zstep z e = Some (z', v) ->
  hist_legal z' -> LInv z'.
Proof.
  intros HP H Hl. unfold hist_legal, LInv, hist in *.
  destruct (AckFacts.zstep_cases _ _ _ _ H)
    as [(w & k & r & effs & -> & _ & E & ->)|[(cb & -> & _ & ->)|(He & Eg & _)]].
  - unfold AckFacts.after_write in *. AckFacts.zproj. rewrite map_app in *. cbn [map fst] in *.
    rewrite wops_legal_snoc in Hl. apply andb_true_iff in Hl as [Hl1 Hl2].
    rewrite spec_wops_snoc. eapply do_write_sim0; [apply HP; exact Hl1|exact Hl2|exact E].
  - unfold AckFacts.after_flush in *. AckFacts.zproj. cbn [AckFacts.flush_ghost g_writes] in *.
    specialize (HP Hl). destruct HP as (HR & [J1 J2] & Hk).
    destruct (do_flush (z_core z) cb) as [k effs] eqn:Ef. cbn [fst].
    destruct (do_flush_ok _ _ _ _ Hk Ef) as (Hk' & Ht & _).
    unfold do_flush in Ef. inversion Ef; subst k effs; clear Ef.
    split; [exact HR|]. split; [|exact Hk'].
    constructor; cbn [k_sm k_closed]; [intros e He; rewrite Ht; apply J1; exact He|exact J2].
  - rewrite Eg in *. eapply KInv_eqj; [exact He|apply HP; exact Hl].
Qed.

Lemma linv_init cfg : LInv (z0_of cfg).
Proof.
  unfold LInv, z0_of, sys2_of, hist. AckFacts.zproj. cbn [y_core map spec_wops fold_left].
  split; [|split].
  - destruct (R_init cfg) as [H1 H2 H3 H4 _ _ _]. constructor; assumption.
  - constructor; cbn [PurgeFacts.core0 k_sm sm_new m_log]; [intros e []|intros e c []].
  - destruct (inv_init cfg) as (gone & rmw & keep & Hc). apply (ci_core _ _ _ _ Hc).
Qed.

Theorem zreach_LInv cfg z : zreach cfg z -> hist_legal z -> LInv z.
Proof.
  revert z. apply (AckFacts.zreach_ind (fun z => hist_legal z -> LInv z)); [intros _; apply linv_init|].
  intros z e z' v. apply linv_zstep.
Qed.

(* The statement with the legality hypothesis only,

     forall cfg z, zreach cfg z -> hist_legal z -> live_entries_have_files z,

   is false: between the in-memory part of an append that rotates the chunk and the
   creation of the new chunk file (effect XCreate still pending in z_todo) an entry can
   already point into the chunk that is about to be created
   (C08_only_dead_refuted). Added hypothesis: no API call is in progress (z_todo z = []). *)
Theorem C08_only_dead_partial : forall cfg z, zreach cfg z -> hist_legal z -> z_todo z = [] ->
  live_entries_have_files z.
Proof.
  intros cfg z Hr Hl Ht i ld Hin.
  destruct (zreach_LInv _ _ Hr Hl) as (_ & [J1 _] & _).
  destruct (zreach_Inv _ _ Hr) as (gone & rmw & keep & Hc).
  specialize (J1 (i, ld) Hin). cbn [snd] in J1.
  pose proof (ci_keep _ _ _ _ Hc) as Hk. rewrite Ht in Hk. cbn [todo_cr flat_map] in Hk. rewrite app_nil_r in Hk.
  intros Hn. apply disk_get_None in Hn. apply Hn.
  rewrite (ci_present _ _ _ _ Hc), Hk. rewrite !in_app_iff. tauto.
Qed.

Definition refute_cfg : config := mkConfig 10 1000 2 100000 false.
Definition refute_es : list zev := [ZCall (OW (OAppend [((1, 1), []); ((1, 2), [])]))].
Definition refute_z : sys2 :=
  match zrun (z0_of refute_cfg) refute_es with Some (z, _) => z | None => z0_of refute_cfg end.

Theorem C08_only_dead_refuted : exists cfg z,
  zreach cfg z /\ hist_legal z /\ ~ live_entries_have_files z.
Proof.
  exists refute_cfg, refute_z. split; [|split].
  - exists (z0_of refute_cfg), refute_es.
    assert (E : exists v, zrun (z0_of refute_cfg) refute_es = Some (refute_z, v)).
    { unfold refute_z. destruct (zrun (z0_of refute_cfg) refute_es) as [[z v]|] eqn:E; [exists v; reflexivity|].
      exfalso. vm_compute in E. discriminate. }
    destruct E as [v E]. exists v. split; [reflexivity|exact E].
  - vm_compute. reflexivity.
  - intros H.
    assert (Hin : exists ld, In (2, ld) (m_log (k_sm (z_core refute_z))) /\ ld_chunk ld = 50).
    { vm_compute. eexists. split; [right; left; reflexivity|reflexivity]. }
    destruct Hin as (ld & Hin & Hc). apply (H 2 ld Hin). rewrite Hc. vm_compute. reflexivity.
Qed.

Print Assumptions C08_only_dead_partial.
Print Assumptions C08_only_dead_refuted.
