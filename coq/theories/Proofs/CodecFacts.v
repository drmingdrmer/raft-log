(* The record codec (Model/Codec.v): round trip, canonicity, proper prefixes decode to Eof, sizes. The three
   properties are one contract [Good wf enc dec], proved once per combinator (part 2), instantiated for every
   parser of Codec.v (part 3) and lifted to the checksummed record (part 4); part 1: big-endian integers. *)
From Coq Require Import List NArith Lia Arith.
From Coq.Strings Require Import Byte.
From RaftLog Require Import Base.Bytes Base.Crc32 Model.Types Model.Codec.
From RaftLog Require Proofs.Crc32Facts.
Import ListNotations.

(* well-formed values: what the fixed-width encodings can hold *)
Definition wf_u64 (n : N) : Prop := (n < 2^64)%N.
Definition wf_pair (a : N * N) : Prop := wf_u64 (fst a) /\ wf_u64 (snd a).
Definition wf_bytes (p : bytes) : Prop := (N.of_nat (length p) < 2^32)%N.
Definition wf_opt {A} (wf : A -> Prop) (o : option A) : Prop :=
  match o with Some a => wf a | None => True end.
Definition wf_rstate (s : rstate) : Prop :=
  wf_opt wf_pair (r_vote s) /\ wf_opt wf_pair (r_last s) /\
  wf_opt wf_pair (r_committed s) /\ wf_opt wf_pair (r_purged s) /\
  wf_opt wf_bytes (r_user s).
Definition wf_record (r : record) : Prop :=
  match r with
  | RVote v => wf_pair v
  | RAppend id p => wf_pair id /\ wf_bytes p
  | RCommit id => wf_pair id
  | RTrunc o => wf_opt wf_pair o
  | RPurge id => wf_pair id
  | RState s => wf_rstate s
  end.
Definition pprefix (q full : bytes) : Prop := exists r, r <> [] /\ full = q ++ r.

(* ---- Part 1: bytes and big-endian integers ---- *)
Section BigEndian.
Local Open Scope N_scope.

Lemma b2n_lt b : b2n b < 256.
Proof. unfold b2n. pose proof (Byte.to_N_bounded b) as H. lia. Qed.

Lemma n2b_b2n b : n2b (b2n b) = b.
Proof.
  unfold n2b. rewrite N.mod_small by apply b2n_lt.
  unfold b2n. rewrite Byte.of_to_N. reflexivity.
Qed.

Lemma b2n_n2b n : b2n (n2b n) = n mod 256.
Proof.
  unfold n2b, b2n. destruct (Byte.of_N (n mod 256)) as [b|] eqn:E.
  - now apply Byte.to_of_N.
  - apply Byte.of_N_None_iff in E.
    pose proof (N.mod_lt n 256) as H. lia.
Qed.

Lemma n2b_add_mul x y : n2b (x + y * 256) = n2b x.
Proof. unfold n2b. rewrite N.mod_add by discriminate. reflexivity. Qed.

Lemma be_enc_length k n : length (be_enc k n) = k.
Proof. induction k as [|k IH]; cbn [be_enc length]; [reflexivity|now rewrite IH]. Qed.

Lemma pow256_pos k : 0 < 256 ^ k.
Proof. apply N.neq_0_lt_0, N.pow_nonzero. discriminate. Qed.

Lemma pow256_S k : 256 ^ N.of_nat (S k) = 256 * 256 ^ N.of_nat k.
Proof. rewrite Nat2N.inj_succ, N.pow_succ_r'. reflexivity. Qed.

Lemma be_dec_acc_spec bs : forall acc,
  be_dec_acc acc bs = acc * 256 ^ N.of_nat (length bs) + be_dec bs.
Proof.
  unfold be_dec. induction bs as [|b r IH]; intros acc.
  - cbn [be_dec_acc length N.of_nat]. rewrite N.pow_0_r. lia.
  - cbn [be_dec_acc length]. rewrite (IH (acc * 256 + b2n b)), (IH (0 * 256 + b2n b)).
    rewrite pow256_S. lia.
Qed.

Lemma be_dec_cons b r : be_dec (b :: r) = b2n b * 256 ^ N.of_nat (length r) + be_dec r.
Proof.
  unfold be_dec at 1. cbn [be_dec_acc]. rewrite be_dec_acc_spec. lia.
Qed.

Lemma be_dec_nil : be_dec [] = 0.
Proof. reflexivity. Qed.

Lemma be_dec_lt bs : be_dec bs < 256 ^ N.of_nat (length bs).
Proof.
  induction bs as [|b r IH].
  - rewrite be_dec_nil. cbn [length N.of_nat]. rewrite N.pow_0_r. lia.
  - rewrite be_dec_cons. cbn [length]. rewrite pow256_S.
    pose proof (b2n_lt b) as Hb. nia.
Qed.

Lemma be_dec_enc k n : be_dec (be_enc k n) = n mod 256 ^ N.of_nat k.
Proof.
  induction k as [|k IH].
  - cbn [be_enc N.of_nat]. rewrite N.pow_0_r, N.mod_1_r. reflexivity.
  - cbn [be_enc]. rewrite be_dec_cons, be_enc_length, IH, b2n_n2b.
    rewrite pow256_S, (N.mul_comm 256).
    rewrite N.mod_mul_r; [lia| |discriminate].
    apply N.pow_nonzero. discriminate.
Qed.

Lemma be_enc_add_mul k : forall m a n, (k <= m)%nat ->
  be_enc k (n + a * 256 ^ N.of_nat m) = be_enc k n.
Proof.
  induction k as [|k IH]; intros m a n Hk; cbn [be_enc]; [reflexivity|].
  f_equal.
  - replace (256 ^ N.of_nat m)
      with (256 ^ N.of_nat (m - S k) * 256 * 256 ^ N.of_nat k).
    + rewrite !N.mul_assoc, N.div_add by (apply N.pow_nonzero; discriminate).
      apply n2b_add_mul.
    + replace (N.of_nat m) with (N.of_nat (m - S k) + 1 + N.of_nat k) by lia.
      rewrite !N.pow_add_r, N.pow_1_r. reflexivity.
  - apply IH. lia.
Qed.

Lemma be_enc_dec bs : be_enc (length bs) (be_dec bs) = bs.
Proof.
  induction bs as [|b r IH]; [reflexivity|].
  cbn [length be_enc]. rewrite be_dec_cons. f_equal.
  - rewrite N.div_add_l by (apply N.pow_nonzero; discriminate).
    rewrite N.div_small by apply be_dec_lt.
    rewrite N.add_0_r. apply n2b_b2n.
  - rewrite N.add_comm, be_enc_add_mul by lia. exact IH.
Qed.

Lemma be_enc_mod k n : be_enc k (n mod 256 ^ N.of_nat k) = be_enc k n.
Proof.
  rewrite (N.div_mod n (256 ^ N.of_nat k)) at 2 by (apply N.pow_nonzero; discriminate).
  rewrite N.add_comm, N.mul_comm, be_enc_add_mul by lia. reflexivity.
Qed.

End BigEndian.

(* ---- Part 2: the combinator contract ---- *)

Record Good {A} (wf : A -> Prop) (e : A -> bytes) (p : parser A) : Prop := {
  g_rt  : forall a t, wf a -> p (e a ++ t) = DOk (a, t);
  g_can : forall bs a t, p bs = DOk (a, t) -> wf a /\ bs = e a ++ t;
  g_eof : forall a q, wf a -> pprefix q (e a) -> p q = DEof }.

Lemma pprefix_app_cases (q x y : bytes) :
  pprefix q (x ++ y) -> pprefix q x \/ (exists q', q = x ++ q' /\ pprefix q' y).
Proof.
  revert q. induction x as [|a x IH]; intros q [r [Hr E]].
  - right. exists q. split; [reflexivity|]. exists r; auto.
  - destruct q as [|c q].
    + left. exists (a :: x). split; [discriminate|reflexivity].
    + cbn [app] in E. inversion E; subst.
      destruct (IH q) as [[r' [Hr' E']]|[q' [E1 P]]].
      * exists r; auto.
      * left. exists r'. split; [assumption|]. cbn [app]. now rewrite E'.
      * right. exists q'. split; [|assumption]. cbn [app]. now rewrite E1.
Qed.

Lemma pprefix_length q full : pprefix q full -> (length q < length full)%nat.
Proof.
  intros [r [Hr E]]. subst. rewrite app_length.
  destruct r as [|b r]; [congruence|]. cbn [length]. lia.
Qed.

Lemma Good_ext {A} (wf wf' : A -> Prop) (e e' : A -> bytes) (p p' : parser A) :
  Good wf e p ->
  (forall a, wf' a <-> wf a) ->
  (forall a, wf a -> e' a = e a) ->
  (forall bs, p' bs = p bs) ->
  Good wf' e' p'.
Proof.
  intros G Hwf He Hp. split.
  - intros a t Ha. apply Hwf in Ha. rewrite Hp, (He a Ha). now apply (g_rt _ _ _ G).
  - intros bs a t H. rewrite Hp in H. apply (g_can _ _ _ G) in H as [Ha E].
    split; [now apply Hwf|]. now rewrite (He a Ha).
  - intros a q Ha Hq. apply Hwf in Ha. rewrite Hp. rewrite (He a Ha) in Hq.
    now apply (g_eof _ _ _ G a).
Qed.

Lemma Good_fail {A} (wf : A -> Prop) (e : A -> bytes) :
  (forall a, ~ wf a) -> Good wf e pfail.
Proof.
  intros H. split.
  - intros a t Ha. destruct (H a Ha).
  - intros bs a t E. unfold pfail in E. discriminate E.
  - intros a q Ha. destruct (H a Ha).
Qed.

Lemma take_n_rt n : forall x t, length x = n -> take_n n (x ++ t) = DOk (x, t).
Proof.
  induction n as [|n IH]; intros [|b x] t H; cbn [length] in H; try discriminate H.
  - reflexivity.
  - cbn [app take_n]. rewrite IH by lia. reflexivity.
Qed.

Lemma take_n_can n : forall bs x t, take_n n bs = DOk (x, t) -> length x = n /\ bs = x ++ t.
Proof.
  induction n as [|n IH]; intros bs x t H; cbn [take_n] in H.
  - inversion H; subst; auto.
  - destruct bs as [|b r]; [discriminate|].
    destruct (take_n n r) as [[x' r']| |] eqn:E; try discriminate.
    inversion H; subst. apply IH in E as [E1 E2]. subst. cbn [length app]. auto.
Qed.

Lemma take_n_eof n : forall x q, length x = n -> pprefix q x -> take_n n q = DEof.
Proof.
  induction n as [|n IH]; intros x q H [r [Hr E]].
  - destruct x; [|discriminate]. destruct q; destruct r; cbn [app] in E; congruence.
  - destruct x as [|b x]; [discriminate|]. destruct q as [|c q]; cbn [take_n]; [reflexivity|].
    cbn [app] in E. injection E as E1 E2. subst.
    rewrite (IH (q ++ r) q); [reflexivity| cbn [length] in H; lia | exists r; auto].
Qed.

Lemma take_n_short n : forall bs, (length bs < n)%nat -> take_n n bs = DEof.
Proof.
  induction n as [|n IH]; intros bs H; [lia|].
  destruct bs as [|b r]; [reflexivity|]. cbn [take_n]. cbn [length] in H.
  rewrite IH by lia. reflexivity.
Qed.

Lemma take_n_never_invalid n : forall bs, take_n n bs <> DInvalid.
Proof.
  induction n as [|n IH]; intros bs; cbn [take_n]; [discriminate|].
  destruct bs as [|b bs]; [discriminate|].
  specialize (IH bs). destruct (take_n n bs) as [[? ?]| |]; congruence.
Qed.

Lemma Good_raw n : Good (fun x => length x = n) (fun x => x) (take_n n).
Proof.
  split.
  - intros; now apply take_n_rt.
  - intros; now apply take_n_can.
  - intros; eapply take_n_eof; eauto.
Qed.

Lemma Good_img {A B} (wfa : A -> Prop) ea pa (wfb : B -> Prop) (eb : B -> bytes) (f : A -> B) :
  Good wfa ea pa ->
  (forall a, wfa a -> wfb (f a) /\ eb (f a) = ea a) ->
  (forall b, wfb b -> exists a, wfa a /\ f a = b) ->
  Good wfb eb (pmap f pa).
Proof.
  intros G H1 H2. unfold pmap, pbind, pret. split.
  - intros b t Hb. destruct (H2 b Hb) as (a & Ha & <-). destruct (H1 a Ha) as [_ ->].
    now rewrite (g_rt _ _ _ G).
  - intros bs b t H. destruct (pa bs) as [[a r]| |] eqn:E; try discriminate.
    inversion H; subst. apply (g_can _ _ _ G) in E as [Ha ->]. destruct (H1 a Ha) as [Hb ->]. auto.
  - intros b q Hb Hq. destruct (H2 b Hb) as (a & Ha & <-). destruct (H1 a Ha) as [_ E]. rewrite E in Hq.
    now rewrite (g_eof _ _ _ G _ _ Ha Hq).
Qed.

Lemma Good_pmapo {A B} (wfa : A -> Prop) ea pa (wfb : B -> Prop) (f : A -> option B) (g : B -> A) :
  Good wfa ea pa ->
  (forall b, wfb b -> wfa (g b) /\ f (g b) = Some b) ->
  (forall a b, wfa a -> f a = Some b -> wfb b /\ g b = a) ->
  Good wfb (fun b => ea (g b)) (pmapo pa f).
Proof.
  intros G H1 H2. split.
  - intros b t Hb. destruct (H1 b Hb) as [Ha Hf]. unfold pmapo, pbind.
    rewrite (g_rt _ _ _ G) by assumption. rewrite Hf. reflexivity.
  - intros bs b t H. unfold pmapo, pbind in H.
    destruct (pa bs) as [[a r]| |] eqn:E; try discriminate.
    apply (g_can _ _ _ G) in E as [Ha Ebs].
    destruct (f a) as [b'|] eqn:Ef; [|discriminate].
    inversion H; subst. destruct (H2 a b Ha Ef) as [Hb Hg]. subst. auto.
  - intros b q Hb Hq. destruct (H1 b Hb) as [Ha _]. unfold pmapo, pbind.
    rewrite (g_eof _ _ _ G _ _ Ha Hq). reflexivity.
Qed.

Lemma Good_pair {A B} (wfa : A -> Prop) ea pa (wfb : B -> Prop) eb pb :
  Good wfa ea pa -> Good wfb eb pb ->
  Good (fun ab => wfa (fst ab) /\ wfb (snd ab))
       (fun ab => ea (fst ab) ++ eb (snd ab)) (ppair pa pb).
Proof.
  intros GA GB. split.
  - intros [a b] t [Ha Hb]. cbn [fst snd] in *. unfold ppair, pbind. rewrite <- app_assoc.
    rewrite (g_rt _ _ _ GA) by assumption. rewrite (g_rt _ _ _ GB) by assumption. reflexivity.
  - intros bs [a b] t H. unfold ppair, pbind in H.
    destruct (pa bs) as [[a' r]| |] eqn:E1; try discriminate.
    destruct (pb r) as [[b' r']| |] eqn:E2; try discriminate.
    unfold pret in H. inversion H; subst.
    apply (g_can _ _ _ GA) in E1 as [Ha E1]. apply (g_can _ _ _ GB) in E2 as [Hb E2]. subst.
    cbn [fst snd]. rewrite app_assoc. auto.
  - intros [a b] q [Ha Hb] Hq. cbn [fst snd] in *. unfold ppair, pbind.
    destruct (pprefix_app_cases _ _ _ Hq) as [P|[q' [E P]]].
    + now rewrite (g_eof _ _ _ GA _ _ Ha P).
    + subst q. rewrite (g_rt _ _ _ GA) by assumption. now rewrite (g_eof _ _ _ GB _ _ Hb P).
Qed.

Lemma Good_bind {A B} (wfa : A -> Prop) ea pa (wfb : B -> Prop) (tag : B -> A)
      (eb : B -> bytes) (f : A -> parser B) :
  Good wfa ea pa ->
  (forall b, wfb b -> wfa (tag b)) ->
  (forall a, wfa a -> Good (fun b => wfb b /\ tag b = a) eb (f a)) ->
  Good wfb (fun b => ea (tag b) ++ eb b) (pbind pa f).
Proof.
  intros G Ht GF. split.
  - intros b t Hb. unfold pbind. rewrite <- app_assoc, (g_rt _ _ _ G) by auto.
    apply (g_rt _ _ _ (GF _ (Ht b Hb))). auto.
  - intros bs b t H. unfold pbind in H.
    destruct (pa bs) as [[a r]| |] eqn:E; try discriminate.
    apply (g_can _ _ _ G) in E as [Ha E].
    apply (g_can _ _ _ (GF a Ha)) in H as [[Hb Hta] H]. subst.
    rewrite <- app_assoc. auto.
  - intros b q Hb Hq. unfold pbind.
    destruct (pprefix_app_cases _ _ _ Hq) as [P|[q' [E P]]].
    + now rewrite (g_eof _ _ _ G _ _ (Ht b Hb) P).
    + subst q. rewrite (g_rt _ _ _ G) by auto.
      apply (g_eof _ _ _ (GF _ (Ht b Hb)) b); auto.
Qed.

(* the tag byte of an Option: the one place where all 256 bytes are looked at *)
Lemma p_opt_tag (b : byte) :
  b = x00 \/ b = x01 \/ forall A (pa : parser A) bs, p_opt pa (b :: bs) = DInvalid.
Proof. destruct b; [left; reflexivity|right; left; reflexivity|right; right; reflexivity ..]. Qed.

Lemma Good_opt {A} (wfa : A -> Prop) ea pa :
  Good wfa ea pa -> Good (wf_opt wfa) (enc_opt ea) (p_opt pa).
Proof.
  intros G. split.
  - intros [a|] t H; cbn [enc_opt wf_opt] in *; unfold p_opt, pbind; cbn [app take_n]; [|reflexivity].
    rewrite (g_rt _ _ _ G) by assumption. reflexivity.
  - intros bs o t H. destruct bs as [|b bs]; [discriminate|].
    destruct (p_opt_tag b) as [->|[->|F]]; [| |rewrite F in H; discriminate H];
      unfold p_opt, pbind in H; cbn [take_n] in H.
    + unfold pret in H. inversion H; subst. cbn [wf_opt enc_opt app]. auto.
    + destruct (pa bs) as [[a r]| |] eqn:E; try discriminate.
      unfold pret in H. inversion H; subst.
      apply (g_can _ _ _ G) in E as [Ha E]. subst. cbn [wf_opt enc_opt app]. auto.
  - intros [a|] q H [r [Hr E]]; cbn [enc_opt wf_opt] in *.
    + destruct q as [|c q]; [reflexivity|]. cbn [app] in E. inversion E; subst.
      unfold p_opt, pbind. cbn [take_n].
      rewrite (g_eof _ _ _ G a q); auto. exists r; auto.
    + destruct q as [|c q]; [reflexivity|]. cbn [app] in E. inversion E.
      destruct q; destruct r; cbn [app] in *; congruence.
Qed.

(* ---- Part 3: the parsers of Model/Codec.v ---- *)

Lemma Good_be k : Good (fun n => (n < 256 ^ N.of_nat k)%N) (be_enc k) (p_be k).
Proof.
  apply (Good_img _ _ _ _ _ be_dec (Good_raw k)).
  - intros x <-. split; [apply be_dec_lt|apply be_enc_dec].
  - intros n Hn. exists (be_enc k n). split; [apply be_enc_length|].
    rewrite be_dec_enc. now apply N.mod_small.
Qed.

Lemma Good_be_lt k B : (256 ^ N.of_nat k = B)%N -> Good (fun n => (n < B)%N) (be_enc k) (p_be k).
Proof. intros <-. apply Good_be. Qed.

Lemma pow256_8 : (256 ^ N.of_nat 8 = 2 ^ 64)%N. Proof. reflexivity. Qed.

Lemma Good_u8 : Good (fun n => (n < 256)%N) enc_u8 p_u8.
Proof. exact (Good_be_lt 1 _ eq_refl). Qed.

Lemma Good_u32 : Good (fun n => (n < 2 ^ 32)%N) enc_u32 p_u32.
Proof. exact (Good_be_lt 4 _ eq_refl). Qed.

Lemma Good_u64 : Good wf_u64 enc_u64 p_u64.
Proof. exact (Good_be_lt 8 _ pow256_8). Qed.

Lemma enc_u32_length n : length (enc_u32 n) = 4.
Proof. apply be_enc_length. Qed.
Lemma enc_u64_length n : length (enc_u64 n) = 8.
Proof. apply be_enc_length. Qed.

Lemma Good_p_pair : Good wf_pair enc_pair p_pair.
Proof. exact (Good_pair _ _ _ _ _ _ Good_u64 Good_u64). Qed.

Lemma take_N_eq n bs : take_N n bs = take_n (N.to_nat n) bs.
Proof.
  unfold take_N. destruct (N.ltb_spec (N.of_nat (length bs)) n) as [H|H]; [|reflexivity].
  symmetry. apply take_n_short. lia.
Qed.

Lemma Good_take_N n : (n < 2 ^ 32)%N ->
  Good (fun p => wf_bytes p /\ N.of_nat (length p) = n) (fun x => x) (take_N n).
Proof.
  intros Hn.
  apply (Good_ext _ _ _ _ _ _ (Good_raw (N.to_nat n))).
  - intros p. unfold wf_bytes. split.
    + intros [_ H]. lia.
    + intros H. rewrite H, N2Nat.id. auto.
  - reflexivity.
  - apply take_N_eq.
Qed.

Lemma Good_p_bytes : Good wf_bytes enc_bytes p_bytes.
Proof.
  exact (Good_bind _ _ _ wf_bytes (fun p => N.of_nat (length p)) (fun x => x) take_N
           Good_u32 (fun p H => H) Good_take_N).
Qed.

Definition enc_rs_fields (s : rstate) : bytes :=
  enc_opt enc_pair (r_vote s) ++
  enc_opt enc_pair (r_last s) ++
  enc_opt enc_pair (r_committed s) ++
  enc_opt enc_pair (r_purged s) ++
  enc_opt enc_bytes (r_user s).
Definition p_rs_fields : parser rstate :=
  pbind (p_opt p_pair) (fun v =>
  pbind (p_opt p_pair) (fun l =>
  pbind (p_opt p_pair) (fun c =>
  pbind (p_opt p_pair) (fun p =>
  pbind (p_opt p_bytes) (fun u =>
  pret (mkRState v l c p u)))))).

(* one [Good_bind] per field, read in the order of the decoder; the last field closes the record by
   [Good_img]: [pbind q (fun u => pret (f u))] is [pmap f q] by conversion *)
Lemma Good_rs_fields : Good wf_rstate enc_rs_fields p_rs_fields.
Proof.
  pose proof (Good_opt _ _ _ Good_p_pair) as GP.
  apply (Good_bind _ _ _ wf_rstate r_vote _ _ GP); [intros s H; apply H|intros v Hv].
  apply (Good_bind _ _ _ _ r_last _ _ GP); [intros s H; apply H|intros l Hl].
  apply (Good_bind _ _ _ _ r_committed _ _ GP); [intros s H; apply H|intros c Hc].
  apply (Good_bind _ _ _ _ r_purged _ _ GP); [intros s H; apply H|intros p Hp].
  apply (Good_img _ _ _ _ _ (mkRState v l c p) (Good_opt _ _ _ Good_p_bytes)).
  - intros u Hu. unfold wf_rstate. cbn. repeat split; assumption.
  - intros [v' l' c' p' u] [[[[H <-] <-] <-] <-]. exists u. split; [apply H|reflexivity].
Qed.

Lemma Good_p_rstate : Good wf_rstate enc_rstate p_rstate.
Proof.
  apply (Good_bind _ _ _ wf_rstate (fun _ => 1%N) enc_rs_fields _ Good_u8); [reflexivity|].
  intros ver _. destruct (N.eqb_spec ver 1) as [->|NE].
  - apply (Good_ext _ _ _ _ _ _ Good_rs_fields); try reflexivity. intros s. tauto.
  - apply Good_fail. intros s [_ E]. congruence.
Qed.

(* [p_payload] matches on the numerals 0..5; three [destruct]s of the positive expose its three low
   bits, which separates 6, 7 and everything from 8 on from them *)
Lemma p_payload_unknown tag : (6 <= tag)%N -> p_payload tag = pfail.
Proof.
  intros H. destruct tag as [|p]; [lia|].
  destruct p as [p|p|]; [| |lia];
    (destruct p as [p|p|]; [| |first [reflexivity|lia]]);
    (destruct p as [p|p|]; first [reflexivity|lia]).
Qed.

Definition append_of (r : record) : (N * N) * bytes :=
  match r with RAppend id p => (id, p) | _ => ((0%N, 0%N), []) end.

Lemma Good_payload_pair (c : N * N -> record) tag :
  (forall v, rec_tag (c v) = tag /\ wf_record (c v) = wf_pair v /\ enc_payload (c v) = enc_pair v) ->
  (forall r, rec_tag r = tag -> exists v, c v = r) ->
  Good (fun r => wf_record r /\ rec_tag r = tag) enc_payload (pmap c p_pair).
Proof.
  intros Hc Hr. apply (Good_img _ _ _ _ _ c Good_p_pair).
  - intros v Hv. destruct (Hc v) as (-> & -> & ->). auto.
  - intros r [W E]. destruct (Hr r E) as [v <-]. exists v. destruct (Hc v) as (_ & <- & _). auto.
Qed.

Lemma Good_p_payload tag : (tag < 2 ^ 32)%N ->
  Good (fun r => wf_record r /\ rec_tag r = tag) enc_payload (p_payload tag).
Proof.
  intros _.
  assert (C : (tag = 0 \/ tag = 1 \/ tag = 2 \/ tag = 3 \/ tag = 4 \/ tag = 5 \/ 6 <= tag)%N) by lia.
  destruct C as [E|[E|[E|[E|[E|[E|E]]]]]]; try subst tag.
  - apply (Good_payload_pair RVote); [auto|]. intros [] E; try discriminate E. eauto.
  - (* [pbind p_pair (fun id => pmap (RAppend id) p_bytes)] *)
    apply (Good_ext (fun r => wf_record r /\ rec_tag r = 1%N) _
             (fun r => enc_pair (fst (append_of r)) ++ enc_bytes (snd (append_of r))) _ (p_payload 1));
      [|reflexivity|intros [] [W E]; try discriminate E; reflexivity|reflexivity].
    apply (Good_bind _ _ _ _ (fun r => fst (append_of r)) _ _ Good_p_pair).
    + intros [] [W E]; try discriminate E. apply W.
    + intros id Hid. apply (Good_img _ _ _ _ _ (RAppend id) Good_p_bytes).
      * intros p Hp. cbn. auto.
      * intros [] [[W E] <-]; try discriminate E. eexists. split; [apply W|reflexivity].
  - apply (Good_payload_pair RCommit); [auto|]. intros [] E; try discriminate E. eauto.
  - apply (Good_img _ _ _ _ _ RTrunc (Good_opt _ _ _ Good_p_pair)); [auto|].
    intros [] [W E]; try discriminate E. eauto.
  - apply (Good_payload_pair RPurge); [auto|]. intros [] E; try discriminate E. eauto.
  - apply (Good_img _ _ _ _ _ RState Good_p_rstate); [auto|].
    intros [] [W E]; try discriminate E. eauto.
  - rewrite (p_payload_unknown tag E). apply Good_fail.
    intros r [_ Ht]. destruct r; cbn [rec_tag] in Ht; lia.
Qed.

Lemma rec_tag_lt r : (rec_tag r < 2 ^ 32)%N.
Proof. destruct r; reflexivity. Qed.

Lemma Good_p_body : Good wf_record enc_body p_body.
Proof.
  exact (Good_bind _ _ _ wf_record rec_tag enc_payload p_payload
           Good_u32 (fun r _ => rec_tag_lt r) Good_p_payload).
Qed.

(* ---- Part 4: the checksummed record ---- *)

Lemma crc32_wf_u64 bs : wf_u64 (crc32 bs).
Proof.
  unfold wf_u64. eapply N.lt_trans; [apply Crc32Facts.crc32_lt|reflexivity].
Qed.

Lemma firstn_consumed (x y : bytes) : firstn (length (x ++ y) - length y) (x ++ y) = x.
Proof.
  rewrite app_length, Nat.add_sub, firstn_app, Nat.sub_diag, firstn_all.
  cbn [firstn]. apply app_nil_r.
Qed.

Lemma enc_record_eq r : enc_record r = enc_body r ++ enc_u64 (crc32 (enc_body r)).
Proof. reflexivity. Qed.

Lemma dec_record_eq bs :
  dec_record bs =
  match p_body bs with
  | DOk (r, rest) =>
    match p_u64 rest with
    | DOk (c, rest') =>
      if N.eqb c (crc32 (firstn (length bs - length rest) bs)) then DOk (r, rest') else DInvalid
    | DEof => DEof
    | DInvalid => DInvalid
    end
  | DEof => DEof
  | DInvalid => DInvalid
  end.
Proof. reflexivity. Qed.

Theorem dec_enc_record : forall r t,
  wf_record r -> dec_record (enc_record r ++ t) = DOk (r, t).
Proof.
  intros r t Hr. rewrite dec_record_eq, enc_record_eq, <- app_assoc.
  rewrite (g_rt _ _ _ Good_p_body) by assumption.
  rewrite firstn_consumed.
  rewrite (g_rt _ _ _ Good_u64) by apply crc32_wf_u64.
  rewrite N.eqb_refl. reflexivity.
Qed.

Theorem dec_record_canonical : forall bs r t,
  dec_record bs = DOk (r, t) -> wf_record r /\ bs = enc_record r ++ t.
Proof.
  intros bs r t H. rewrite dec_record_eq in H.
  destruct (p_body bs) as [[r0 rest]| |] eqn:E1; try discriminate H.
  destruct (p_u64 rest) as [[c rest']| |] eqn:E2; try discriminate H.
  apply (g_can _ _ _ Good_p_body) in E1 as [Hwf E1].
  apply (g_can _ _ _ Good_u64) in E2 as [Hc E2].
  subst bs. rewrite firstn_consumed in H.
  destruct (N.eqb_spec c (crc32 (enc_body r0))) as [Ec|Ec]; [|discriminate H].
  inversion H; subst. split; [assumption|].
  rewrite enc_record_eq, <- app_assoc. reflexivity.
Qed.

Theorem dec_record_prefix_eof : forall r q,
  wf_record r -> pprefix q (enc_record r) -> dec_record q = DEof.
Proof.
  intros r q Hr Hq. rewrite enc_record_eq in Hq. rewrite dec_record_eq.
  destruct (pprefix_app_cases _ _ _ Hq) as [P|[q' [E P]]].
  - rewrite (g_eof _ _ _ Good_p_body _ _ Hr P). reflexivity.
  - subst q. rewrite (g_rt _ _ _ Good_p_body) by assumption.
    rewrite (g_eof _ _ _ Good_u64 _ _ (crc32_wf_u64 _) P). reflexivity.
Qed.

Theorem dec_record_consumed : forall bs r t,
  dec_record bs = DOk (r, t) -> N.of_nat (length bs - length t) = rec_size r.
Proof.
  intros bs r t H. apply dec_record_canonical in H as [_ E]. subst bs.
  rewrite app_length, Nat.add_sub. reflexivity.
Qed.

Theorem enc_body_len : forall r, length (enc_record r) = length (enc_body r) + 8.
Proof.
  intros r. rewrite enc_record_eq, app_length, enc_u64_length. reflexivity.
Qed.

Theorem enc_record_min_len : forall r, 12 <= length (enc_record r).
Proof.
  intros r. rewrite enc_body_len. unfold enc_body.
  rewrite app_length, enc_u32_length. lia.
Qed.

(* a successful decode consumes at least the 12 framing bytes *)
Corollary dec_record_consumed_min : forall bs r t,
  dec_record bs = DOk (r, t) -> 12 <= length bs - length t.
Proof.
  intros bs r t H. apply dec_record_canonical in H as [_ E]. subst bs.
  rewrite app_length, Nat.add_sub. apply enc_record_min_len.
Qed.

Print Assumptions dec_enc_record.
Print Assumptions dec_record_canonical.
Print Assumptions dec_record_prefix_eof.
