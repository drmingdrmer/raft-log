(* Facts about the chunk file name codec (Model/Names.v), part of property C11:
   round trip, injectivity, fixed length, numeric order = lexicographic order of names,
   and the parser only returns u64 values. *)
From Coq Require Import List NArith Lia Bool Arith.
From Coq.Strings Require Import Byte.
From RaftLog Require Import Base.Bytes Model.Types Model.Names.
From RaftLog Require Import Proofs.CodecFacts.
Import ListNotations.
Local Open Scope N_scope.


Lemma b2n_digit_byte d : d < 10 -> b2n (digit_byte d) = 48 + d.
Proof.
  intros Hd. unfold digit_byte. rewrite b2n_n2b. apply N.mod_small. lia.
Qed.

Lemma is_digit_digit_byte d : d < 10 -> is_digit (digit_byte d) = true.
Proof.
  intros Hd. unfold is_digit. rewrite (b2n_digit_byte d Hd).
  apply andb_true_intro. split; apply N.leb_le; lia.
Qed.

Lemma is_digit_underscore : is_digit x5f = false.
Proof. reflexivity. Qed.

Lemma pow10_pos k : 10 ^ k <> 0.
Proof. apply N.pow_nonzero. discriminate. Qed.

Lemma mod10_lt x : x mod 10 < 10.
Proof. apply N.mod_lt. discriminate. Qed.

Lemma digits_S k n :
  digits (S k) n = digit_byte ((n / 10 ^ N.of_nat k) mod 10) :: digits k n.
Proof. reflexivity. Qed.

Lemma digits_length k n : length (digits k n) = k.
Proof.
  induction k as [|k IH].
  - reflexivity.
  - rewrite digits_S. cbn [length]. now rewrite IH.
Qed.

Lemma digits_all_digit k n : Forall (fun b => is_digit b = true) (digits k n).
Proof.
  induction k as [|k IH].
  - constructor.
  - rewrite digits_S. constructor.
    + apply is_digit_digit_byte, mod10_lt.
    + exact IH.
Qed.

(* the function that [parse_dec] folds over the digits *)
Definition dstep (acc : N) (d : byte) : N := acc * 10 + (b2n d - 48).

Lemma mod_pow10_S k n :
  n mod 10 ^ N.of_nat (S k) =
  n mod 10 ^ N.of_nat k + 10 ^ N.of_nat k * ((n / 10 ^ N.of_nat k) mod 10).
Proof.
  rewrite Nat2N.inj_succ, N.pow_succ_r'.
  rewrite (N.mul_comm 10).
  apply N.mod_mul_r.
  - apply pow10_pos.
  - discriminate.
Qed.

Lemma digits_value k : forall n acc,
  fold_left dstep (digits k n) acc = acc * 10 ^ N.of_nat k + n mod 10 ^ N.of_nat k.
Proof.
  induction k as [|k IH]; intros n acc.
  - change (digits 0 n) with (@nil byte). cbn [fold_left].
    change (N.of_nat 0) with 0. rewrite N.pow_0_r, N.mod_1_r. lia.
  - rewrite digits_S. cbn [fold_left]. rewrite IH.
    rewrite mod_pow10_S.
    unfold dstep. rewrite b2n_digit_byte by apply mod10_lt.
    rewrite Nat2N.inj_succ, N.pow_succ_r'.
    set (q := 10 ^ N.of_nat k). set (h := (n / q) mod 10). set (l := n mod q).
    replace (48 + h - 48) with h by lia. ring.
Qed.

Lemma U64MAX_lt_pow : U64MAX < 10 ^ 20.
Proof. vm_compute. reflexivity. Qed.

Lemma digits20_value n :
  n <= U64MAX -> fold_left dstep (digits 20 n) 0 = n.
Proof.
  intros Hn. rewrite digits_value. change (N.of_nat 20) with 20.
  rewrite N.mod_small.
  - lia.
  - pose proof U64MAX_lt_pow. lia.
Qed.

(* what [grouped_aux] puts before the digit at position [i] of [len]: an underscore or nothing *)
Definition sep (len i : nat) : bytes :=
  if Nat.ltb 0 i && Nat.eqb ((len - i) mod 3) 0 then [x5f] else [].

Lemma grouped_aux_cons len i d r :
  grouped_aux len i (d :: r) = sep len i ++ d :: grouped_aux len (S i) r.
Proof. reflexivity. Qed.

Lemma sep_cases len i : sep len i = [x5f] \/ sep len i = [].
Proof.
  unfold sep. destruct (Nat.ltb 0 i && Nat.eqb ((len - i) mod 3) 0); auto.
Qed.

Lemma filter_grouped_aux len ds : forall i,
  Forall (fun b => is_digit b = true) ds ->
  filter is_digit (grouped_aux len i ds) = ds.
Proof.
  induction ds as [|d r IH]; intros i Hall.
  - reflexivity.
  - inversion Hall as [|d' r' Hd Hr]; subst.
    rewrite grouped_aux_cons.
    destruct (sep_cases len i) as [E|E]; rewrite E.
    + cbn [app filter]. rewrite is_digit_underscore, Hd. f_equal. now apply IH.
    + cbn [app filter]. rewrite Hd. f_equal. now apply IH.
Qed.

Lemma filter_grouped ds :
  Forall (fun b => is_digit b = true) ds -> filter is_digit (grouped ds) = ds.
Proof. intros H. unfold grouped. now apply filter_grouped_aux. Qed.

Lemma grouped_length20 ds : length ds = 20%nat -> length (grouped ds) = 26%nat.
Proof.
  intros H. do 20 (destruct ds as [|? ds]; [discriminate H|]).
  destruct ds; [reflexivity|discriminate H].
Qed.

Lemma bytes_eqb_refl a : bytes_eqb a a = true.
Proof.
  unfold bytes_eqb. rewrite Nat.eqb_refl. cbn [andb].
  induction a as [|x a IH].
  - reflexivity.
  - cbn [combine forallb fst snd]. rewrite N.eqb_refl. exact IH.
Qed.

Lemma strip_prefix_app p s : strip_prefix p (p ++ s) = Some s.
Proof.
  unfold strip_prefix.
  rewrite firstn_app, Nat.sub_diag, firstn_all. cbn [firstn]. rewrite app_nil_r.
  rewrite bytes_eqb_refl.
  rewrite skipn_app, Nat.sub_diag, skipn_all. reflexivity.
Qed.

Lemma strip_suffix_app p s : strip_suffix p (s ++ p) = Some s.
Proof.
  unfold strip_suffix. rewrite app_length.
  replace (length s + length p - length p)%nat with (length s) by lia.
  replace (Nat.leb (length p) (length s + length p)) with true
    by (symmetry; apply Nat.leb_le; lia).
  rewrite skipn_app, Nat.sub_diag, skipn_all. cbn [skipn app].
  rewrite bytes_eqb_refl. cbn [andb].
  rewrite firstn_app, Nat.sub_diag, firstn_all. cbn [firstn]. now rewrite app_nil_r.
Qed.

Lemma parse_dec_digits20 n : n <= U64MAX -> parse_dec (digits 20 n) = Some n.
Proof.
  intros Hn. unfold parse_dec.
  destruct (digits 20 n) as [|d r] eqn:E.
  - pose proof (digits_length 20 n) as HL. rewrite E in HL. discriminate HL.
  - rewrite <- E. change (fun acc d0 => acc * 10 + (b2n d0 - 48)) with dstep.
    rewrite (digits20_value n Hn).
    replace (N.leb n U64MAX) with true by (symmetry; apply N.leb_le; exact Hn).
    reflexivity.
Qed.

Theorem C11_name_roundtrip : forall n,
  (n <= U64MAX)%N -> parse_chunk_file_name (chunk_file_name n) = Some n.
Proof.
  intros n Hn. unfold parse_chunk_file_name, chunk_file_name.
  rewrite app_assoc, strip_suffix_app.
  rewrite strip_prefix_app.
  rewrite (grouped_length20 _ (digits_length 20 n)).
  change (Nat.eqb 26 26) with true. cbv iota.
  rewrite (filter_grouped _ (digits_all_digit 20 n)).
  apply parse_dec_digits20, Hn.
Qed.

Theorem C11_name_injective : forall n m,
  (n <= U64MAX)%N -> (m <= U64MAX)%N -> chunk_file_name n = chunk_file_name m -> n = m.
Proof.
  intros n m Hn Hm E.
  pose proof (C11_name_roundtrip n Hn) as Rn.
  pose proof (C11_name_roundtrip m Hm) as Rm.
  rewrite E in Rn. rewrite Rn in Rm. now inversion Rm.
Qed.

Theorem C11_name_length : forall n, length (chunk_file_name n) = 32%nat.
Proof.
  intros n. unfold chunk_file_name. rewrite !app_length.
  rewrite (grouped_length20 _ (digits_length 20 n)). reflexivity.
Qed.

Lemma parse_dec_range ds n : parse_dec ds = Some n -> n <= U64MAX.
Proof.
  unfold parse_dec. destruct ds as [|d r].
  - discriminate.
  - destruct (N.leb (fold_left (fun acc d0 => acc * 10 + (b2n d0 - 48)) (d :: r) 0) U64MAX) eqn:E.
    + intros H. inversion H; subst. apply N.leb_le. exact E.
    + discriminate.
Qed.

Theorem C11_parse_range : forall s n,
  parse_chunk_file_name s = Some n -> (n <= U64MAX)%N.
Proof.
  intros s n. unfold parse_chunk_file_name.
  destruct (strip_suffix suffix_wal s) as [s1|] eqn:E1; [|discriminate].
  destruct (strip_prefix prefix_r s1) as [s2|] eqn:E2; [|discriminate].
  destruct (Nat.eqb (length s2) 26) eqn:E3; [|discriminate].
  apply parse_dec_range.
Qed.

Lemma bytes_ltb_cons x y a b :
  bytes_ltb (x :: a) (y :: b) =
  if N.ltb (b2n x) (b2n y) then true
  else if N.eqb (b2n x) (b2n y) then bytes_ltb a b else false.
Proof. reflexivity. Qed.

Lemma bytes_ltb_same_head x a b : bytes_ltb (x :: a) (x :: b) = bytes_ltb a b.
Proof. rewrite bytes_ltb_cons, N.ltb_irrefl, N.eqb_refl. reflexivity. Qed.

Lemma bytes_ltb_app_l p a b : bytes_ltb (p ++ a) (p ++ b) = bytes_ltb a b.
Proof.
  induction p as [|x p IH].
  - reflexivity.
  - cbn [app]. rewrite bytes_ltb_same_head. exact IH.
Qed.

Lemma bytes_ltb_app_r s : forall a b,
  length a = length b -> bytes_ltb a b = true -> bytes_ltb (a ++ s) (b ++ s) = true.
Proof.
  induction a as [|x a IH]; intros b HL H.
  - destruct b as [|y b]; [discriminate H|discriminate HL].
  - destruct b as [|y b]; [discriminate HL|].
    cbn [app]. rewrite bytes_ltb_cons in *.
    destruct (N.ltb (b2n x) (b2n y)); [reflexivity|].
    destruct (N.eqb (b2n x) (b2n y)); [|discriminate H].
    apply IH; [now inversion HL|exact H].
Qed.

Lemma grouped_aux_ltb len : forall a b i,
  length a = length b -> bytes_ltb a b = true ->
  bytes_ltb (grouped_aux len i a) (grouped_aux len i b) = true.
Proof.
  induction a as [|x a IH]; intros b i HL H.
  - destruct b as [|y b]; [discriminate H|discriminate HL].
  - destruct b as [|y b]; [discriminate HL|].
    rewrite !grouped_aux_cons, bytes_ltb_app_l.
    rewrite bytes_ltb_cons in *.
    destruct (N.ltb (b2n x) (b2n y)); [reflexivity|].
    destruct (N.eqb (b2n x) (b2n y)); [|discriminate H].
    apply IH; [now inversion HL|exact H].
Qed.

Lemma grouped_aux_length_eq len : forall (a b : bytes) i,
  length a = length b ->
  length (grouped_aux len i a) = length (grouped_aux len i b).
Proof.
  induction a as [|x a IH]; intros b i HL.
  - destruct b; [reflexivity|discriminate HL].
  - destruct b as [|y b]; [discriminate HL|].
    rewrite !grouped_aux_cons, !app_length. cbn [length].
    rewrite (IH b (S i)) by now inversion HL. reflexivity.
Qed.

(* most significant digit first: numeric order = lexicographic order of digit strings *)
Lemma digits_ltb k : forall n m,
  n mod 10 ^ N.of_nat k < m mod 10 ^ N.of_nat k ->
  bytes_ltb (digits k n) (digits k m) = true.
Proof.
  induction k as [|k IH]; intros n m H.
  - change (N.of_nat 0) with 0 in H. rewrite N.pow_0_r, !N.mod_1_r in H. lia.
  - rewrite !digits_S, bytes_ltb_cons.
    rewrite !mod_pow10_S in H.
    rewrite !b2n_digit_byte by apply mod10_lt.
    pose proof (pow10_pos (N.of_nat k)) as Hq.
    pose proof (N.mod_lt n _ Hq) as Hln.
    pose proof (N.mod_lt m _ Hq) as Hlm.
    specialize (IH n m).
    set (q := 10 ^ N.of_nat k) in *.
    set (hn := (n / q) mod 10) in *. set (hm := (m / q) mod 10) in *.
    set (ln := n mod q) in *. set (lm := m mod q) in *.
    destruct (N.ltb (48 + hn) (48 + hm)) eqn:E1; [reflexivity|].
    apply N.ltb_ge in E1.
    assert (Hh : hm <= hn) by lia.
    destruct (N.eq_dec hn hm) as [Eh|Nh].
    + rewrite Eh, N.eqb_refl. apply IH. rewrite Eh in H. lia.
    + exfalso. assert (Hlt : hm + 1 <= hn) by lia.
      pose proof (N.mul_le_mono_l _ _ q Hlt) as Hmul. lia.
Qed.

Theorem C11_name_order : forall n m,
  (n <= U64MAX)%N -> (m <= U64MAX)%N -> (n < m)%N ->
  bytes_ltb (chunk_file_name n) (chunk_file_name m) = true.
Proof.
  intros n m Hn Hm Hlt. unfold chunk_file_name.
  rewrite bytes_ltb_app_l.
  pose proof U64MAX_lt_pow as HU.
  assert (HL : length (digits 20 n) = length (digits 20 m))
    by now rewrite !digits_length.
  apply bytes_ltb_app_r.
  - unfold grouped. rewrite <- HL. now apply grouped_aux_length_eq.
  - unfold grouped. rewrite <- HL. apply grouped_aux_ltb; [exact HL|].
    apply digits_ltb. change (N.of_nat 20) with 20.
    rewrite !N.mod_small by lia. exact Hlt.
Qed.

Print Assumptions C11_name_roundtrip.
Print Assumptions C11_name_injective.
Print Assumptions C11_name_length.
Print Assumptions C11_name_order.
Print Assumptions C11_parse_range.
