(* Crash images outside the gap class are chained (dir_chained), so crash -> reboot ->
   reopen -> crash can be iterated inside C05_recovers_outside_known_from. *)
From Coq Require Import List NArith.
From RaftLog Require Import Model.Codec Model.Core Model.Recover Model.Run Model.Sys Spec.Durable.
From RaftLog Require Import Proofs.CodecFacts Proofs.NoPanic Proofs.ScanFacts Proofs.RecoverFacts.
From RaftLog Require Import Proofs.CrashBase Proofs.CrashJournal Proofs.CrashSteps.
From RaftLog Require Import Proofs.CrashRecover.
From RaftLog Require Proofs.RestartSys Proofs.RestartCrash Proofs.RestartChain.
Import ListNotations.
Local Open Scope N_scope.
Local Arguments enc_record : simpl never.
Module RC := RestartCrash.
Module RSy := RestartSys.
Module RCh := RestartChain.

Lemma Chain_app_l X C cur : RS.Chain cur (X ++ C) ->
  RS.Chain (match C with [] => cur | c :: _ => RS.head_state (snd c) end) X.
Proof. intros H. apply RS.Chain_app in H. apply H. Qed.

Lemma head_firstn j rs : firstn j rs <> [] -> RS.head_state (firstn j rs) = RS.head_state rs.
Proof. destruct j; [intros H; now elim H|]. destruct rs; [intros H; now elim H|reflexivity]. Qed.

Lemma chain_chainedL : forall Go gl cur j, RS.Chain cur (Go ++ [gl]) ->
  RC.chainedL (map snd Go ++ [firstn j (snd gl)]).
Proof.
  induction Go as [|g Go IH]; intros gl cur j H.
  - cbn [app map RC.chainedL RS.Chain] in *. destruct H as [(st & tl & E & _) _]. split; [|exact I].
    intros Hne. rewrite E in *. destruct j; [now elim Hne|]. cbn [firstn]. eexists _, _. split; [reflexivity|exact I].
  - cbn [app RS.Chain] in H. destruct H as [(st & tl & E & Hr) H2].
    cbn [map app RC.chainedL]. split; [|eapply IH; exact H2].
    intros _. exists st, tl. split; [exact E|].
    destruct Go as [|g' Go'].
    + cbn [map app] in *. intros Hne. rewrite Hr. f_equal. symmetry. now apply head_firstn.
    + cbn [map app] in *. intros _. exact Hr.
Qed.

Lemma recs_of_tail rs tl : Forall wf_record rs -> tail_shape tl -> RC.recs_of (encs rs ++ tl) = rs.
Proof.
  intros Hw Ht. destruct (scan_tail_shape rs tl Hw Ht) as [e E]. unfold RC.recs_of. rewrite E.
  cbn [fst]. apply sized_fst.
Qed.

Lemma crash_image_chained_gen z d' : journalled z -> crash_image z d' -> ~ gap_class d' ->
  RC.dir_chained d'.
Proof.
  intros [Hinv [G J]] Hc Hng. destruct d' as [|f0 l0] eqn:Ed; [exact I|]. rewrite <- Ed in *.
  destruct (image_split z d' G Hinv J Hc Hng) as
    (Go & o & recs & j & older' & nf' & tl & IF & Ed' & Hfm & Eid & Edat & Htl & _).
  { rewrite Ed. discriminate. }
  destruct IF as [J' (A & C & EG & _) _ _ _].
  pose proof (gi_ok _ _ _ _ (ji_gi _ _ J')) as Hok.
  pose proof (gi_chain _ _ _ _ (ji_gi _ _ J')) as Hch.
  rewrite EG in Hok, Hch. rewrite !Forall_app in Hok. destruct Hok as (_ & [Hoko Hokl] & _).
  apply RS.Chain_app_r in Hch. apply Chain_app_l in Hch.
  unfold RC.dir_chained. rewrite Ed', map_app. cbn [map].
  assert (E1 : map (fun f => RC.recs_of (f_data f)) older' = map snd Go).
  { clear - Hfm Hoko. induction Hfm as [|f g l1 l2 [_ E] _ IH]; [reflexivity|].
    inversion Hoko as [|? ? [Hw _] Hoko']; subst. cbn [map]. rewrite E, RC.recs_of_encs by exact Hw.
    f_equal. now apply IH. }
  rewrite E1, Edat.
  inversion Hokl as [|? ? [Hw _] _]; subst. cbn [snd] in Hw.
  rewrite recs_of_tail; [|apply Forall_firstn_; exact Hw|exact Htl].
  exact (chain_chainedL Go _ _ j Hch).
Qed.

Theorem crash_image_chained : forall cfg z d',
  zreach cfg z -> hist_wf z -> crash_image z d' -> ~ gap_class d' -> RC.dir_chained d'.
Proof. intros cfg z d' Hr Hw. apply crash_image_chained_gen, (journalled_reach cfg z Hr Hw). Qed.

Theorem crash_image_chained_from : forall cfg d z d',
  RC.dir_ok d -> RSy.zreach_from cfg d z -> hist_wf z -> crash_image z d' -> ~ gap_class d' ->
  RC.dir_chained d'.
Proof. intros cfg d z d' Hd Hr Hw. apply crash_image_chained_gen, (RC.journalled_from cfg d z Hd Hr Hw). Qed.

(* after a machine crash everything that is in the files is on the medium
   (same function as RestartChain.reboot) *)
Definition reboot (d : disk) : disk :=
  map (fun f => mkFile (f_id f) (f_data f) (N.of_nat (length (f_data f)))) d.

Lemma reboot_ok d : disk_sorted d -> RC.dir_chained d -> RC.dir_ok (reboot d).
Proof.
  intros Hs Hc. destruct (RCh.reboot_good d d Hs eq_refl) as (Hwf & Hold & _).
  split; [exact Hwf|]. split; [exact Hold|].
  unfold RC.dir_chained, reboot. rewrite map_map. exact Hc.
Qed.

Lemma crash_reboot_ok_gen z d' : journalled z -> crash_image z d' -> ~ gap_class d' ->
  RC.dir_ok (reboot d').
Proof.
  intros Hj Hc Hng. apply reboot_ok; [exact (crash_image_sorted z d' (proj1 Hj) Hc)|].
  exact (crash_image_chained_gen z d' Hj Hc Hng).
Qed.

Theorem crash_reboot_ok : forall cfg z d',
  zreach cfg z -> hist_wf z -> crash_image z d' -> ~ gap_class d' -> RC.dir_ok (reboot d').
Proof. intros cfg z d' Hr Hw. apply crash_reboot_ok_gen, (journalled_reach cfg z Hr Hw). Qed.

Theorem crash_reboot_ok_from : forall cfg d z d',
  RC.dir_ok d -> RSy.zreach_from cfg d z -> hist_wf z -> crash_image z d' -> ~ gap_class d' ->
  RC.dir_ok (reboot d').
Proof. intros cfg d z d' Hd Hr Hw. apply crash_reboot_ok_gen, (RC.journalled_from cfg d z Hd Hr Hw). Qed.

(* crash, reboot, reopen (any configuration), work, crash again: the directory still opens *)
Lemma recovers_after_reboot cfg' cfg'' z1 d1 z2 d2 :
  journalled z1 -> crash_image z1 d1 -> ~ gap_class d1 ->
  RSy.zreach_from cfg' (reboot d1) z2 -> hist_wf z2 -> crash_image z2 d2 -> ~ gap_class d2 ->
  c_truncate cfg'' = true ->
  exists y, open_dir cfg'' d2 = OpenOk y /\ sys_ok y /\
            (forall ops res fin, run_ops y ops = (res, fin) -> ~ In ResPanic res).
Proof.
  intros Hj Hc1 Hg1 Hr2 Hw2. apply image_recovers.
  exact (RC.journalled_from cfg' (reboot d1) z2 (crash_reboot_ok_gen z1 d1 Hj Hc1 Hg1) Hr2 Hw2).
Qed.

Theorem C05_recovers_twice : forall cfg cfg' cfg'' z1 d1 z2 d2,
  zreach cfg z1 -> hist_wf z1 -> crash_image z1 d1 -> ~ gap_class d1 ->
  RSy.zreach_from cfg' (reboot d1) z2 -> hist_wf z2 -> crash_image z2 d2 -> ~ gap_class d2 ->
  c_truncate cfg'' = true ->
  exists y, open_dir cfg'' d2 = OpenOk y /\ sys_ok y /\
            (forall ops res fin, run_ops y ops = (res, fin) -> ~ In ResPanic res).
Proof.
  intros cfg cfg' cfg'' z1 d1 z2 d2 Hr1 Hw1. apply recovers_after_reboot, (journalled_reach cfg z1 Hr1 Hw1).
Qed.

(* Any number of times: the hypothesis of C05_recovers_outside_known_from is re-established
   by every crash + reboot of an instance that was itself started on such a directory *)
Theorem C05_recovers_again : forall cfg cfg' cfg'' d z1 d1 z2 d2,
  RC.dir_ok d -> RSy.zreach_from cfg d z1 -> hist_wf z1 -> crash_image z1 d1 -> ~ gap_class d1 ->
  RSy.zreach_from cfg' (reboot d1) z2 -> hist_wf z2 -> crash_image z2 d2 -> ~ gap_class d2 ->
  c_truncate cfg'' = true ->
  exists y, open_dir cfg'' d2 = OpenOk y /\ sys_ok y /\
            (forall ops res fin, run_ops y ops = (res, fin) -> ~ In ResPanic res).
Proof.
  intros cfg cfg' cfg'' d z1 d1 z2 d2 Hd Hr1 Hw1.
  apply recovers_after_reboot, (RC.journalled_from cfg d z1 Hd Hr1 Hw1).
Qed.

Print Assumptions crash_image_chained.
Print Assumptions crash_image_chained_from.
Print Assumptions crash_reboot_ok.
Print Assumptions crash_reboot_ok_from.
Print Assumptions C05_recovers_twice.
Print Assumptions C05_recovers_again.
