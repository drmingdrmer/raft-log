(* Property C07 on the L2 system (any interleaving of caller and worker steps, the end of the worker
   thread included): [C07_L2_gen], of which [C07_reads_total_outside_known_L2] (worker alive) and
   the theorem of ReadSysFaults.v are instances.  An L2 state [z] is mapped to the L1 state
   [absq ws z] "as seen once the pending effects of the call in progress are done": the directory
   with the pending creations, and as queue the requests [ws] that the worker holds, the queue, the
   sends still to come.  [abs z] takes for [ws] the worker's remaining requests ([wstream]: postponed
   removals, rest of the batch); [pendq z lost] is that list while the thread lives and afterwards
   the list it held when it ended ([lost], a history variable).  [Pq]: [I7 (absq (pendq z lost) z) sp]
   is kept by every step ([Pq_step]): caller steps are L1 steps on [absq ws z] whatever [ws] is
   ([zcall_I7]), effect steps do not change it, actions of a live worker leave its journal
   unchanged (section [Worker]: [abs_step], [zwork_I7]), the action that ends the thread freezes [ws]. *)
From Coq Require Import List NArith Bool Lia Sorted.
From Coq.Strings Require Import Byte.
From RaftLog Require Import Model.Cache Model.Core Model.Run
  Spec.Spec Spec.Hist Model.Sys.
From RaftLog Require Proofs.AckFacts Proofs.AckDurable.
From RaftLog Require Import Proofs.JournalDisk Proofs.JournalChunk Proofs.JournalFacts
  Proofs.PurgeFacts.
From RaftLog Require Import Proofs.SmFacts Proofs.PurgeLive Proofs.ReadCache Proofs.ReadInv
  Proofs.ReadFacts.
Import ListNotations.
Local Open Scope N_scope.

(* ================================================================== directory operations that commute *)
#[local] Hint Resolve dsorted_put dsorted_append dsorted_sync dsorted_remove : dsorted.

(* Closes an equation between two [disk_get] results written out with [disk_get_put/append/sync/remove]:
   decides every id comparison in it.  A tactic, because how many comparisons there are, and nested in
   which order, differs with each pair of operations (two to four of them). *)
Ltac disk_cases :=
  repeat match goal with |- context [N.eqb ?a ?b] => destruct (N.eqb_spec a b) end; subst; congruence.

Lemma remove_append_comm : forall j i x d, dsorted d ->
  disk_remove j (disk_append i x d) = disk_append i x (disk_remove j d).
Proof.
  intros j i x d S. apply disk_ext; [auto with dsorted..|]. intros a.
  rewrite disk_get_remove, !disk_get_append, !disk_get_remove.
  destruct (disk_get i d) as [g|] eqn:E; disk_cases.
Qed.

Lemma remove_all_append_comm : forall pp i x d, dsorted d ->
  remove_all pp (disk_append i x d) = disk_append i x (remove_all pp d).
Proof.
  unfold remove_all. intros pp. induction pp as [|j pp IH]; intros i x d S; cbn [fold_left]; [reflexivity|].
  rewrite remove_append_comm by exact S. apply IH. apply dsorted_remove. exact S.
Qed.

Lemma remove_remove_comm : forall i x d, disk_remove i (disk_remove x d) = disk_remove x (disk_remove i d).
Proof.
  intros i x d. unfold disk_remove. induction d as [|g r IH]; cbn [filter]; [reflexivity|].
  destruct (negb (N.eqb x (f_id g))) eqn:E1; destruct (negb (N.eqb i (f_id g))) eqn:E2;
    cbn [filter]; rewrite ?E1, ?E2, IH; reflexivity.
Qed.

Lemma remove_all_remove_comm : forall a i d, remove_all a (disk_remove i d) = disk_remove i (remove_all a d).
Proof.
  unfold remove_all. intros a. induction a as [|x a IH]; intros i d; cbn [fold_left]; [reflexivity|].
  rewrite remove_remove_comm. apply IH.
Qed.

(* ================================================================== transfer of the invariant *)
Lemma I7_transfer : forall y y' sp,
  I7 y sp ->
  core_eqj (y_core y) (y_core y') ->
  m_cache (k_sm (y_core y')) = m_cache (k_sm (y_core y)) ->
  dsorted (y_disk y') ->
  weq (wfinal y') (wfinal y) ->
  (forall j, In j (mentioned (y_files y') (y_queue y')) -> In j (mentioned (y_files y) (y_queue y))) ->
  (forall x, In x (fbounds y') -> In x (fbounds y)) ->
  StronglySorted N.lt (map fst (fbounds y')) ->
  (forall i ld, In (i, ld) (m_log (k_sm (y_core y))) -> OnDisk y ld -> OnDisk y' ld) ->
  I7 y' sp.
Proof.
  intros y y' sp [HK JW HPL HC HEB HML] Ec Ecache Sd' Hw Hment Hfb HML' HQ.
  pose proof Ec as (E1 & E2 & E3 & E4 & E5 & E6 & E7).
  destruct (jw_transfer y y' JW Ec Sd' Hw Hment) as (JW' & Hids & Hbytes).
  constructor.
  - apply (KInv_eqj _ _ _ Ec HK).
  - exact JW'.
  - intros i ld p Hl Hp Hin. rewrite E7 in Hl. rewrite Hids in Hin. rewrite Hbytes.
    apply (HPL i ld p Hl Hp Hin).
  - unfold CIs. rewrite E7, Ecache. eapply CI_mono; [exact HC|]. exact HQ.
  - intros fid b i ld p Hb Hl Hp Hle. rewrite E7 in Hl.
    apply (HEB fid b i ld p (Hfb _ Hb) Hl Hp Hle).
  - exact HML'.
Qed.

(* ================================================================== files the queue does not touch *)
Lemma ondisk_below : forall y sp i ld p, I7 y sp ->
  In (i, ld) (m_log (k_sm (y_core y))) -> In (ld_id ld, p) (sp_entries sp) ->
  (forall j, In j (map fst (fbounds y)) -> ld_chunk ld < j) ->
  OnDisk y ld.
Proof.
  intros y sp i ld p [(HR & [J1 J2] & Hk) JW HPL HC HEB HML] Hl Hp Hlt.
  pose proof (jw_inv _ JW) as Jv.
  set (c := ld_chunk ld) in *. set (o := ck_id (k_open (y_core y))) in *.
  assert (Hml : map fst (fbounds y) = map wf_id (y_files y) ++ map fst (flat_map req_fb (y_queue y))).
  { unfold fbounds. rewrite map_app, map_map. reflexivity. }
  assert (Ho : In o (map fst (fbounds y))).
  { destruct (jw_newest _ JW) as (older & pl & En). destruct (idle_bounds y) as (pre & -> & _).
    unfold fbounds. rewrite worker_idle_files, En, !map_app. cbn [map wf_fb fst].
    apply in_or_app. right. apply in_or_app. left. apply in_or_app. right. left. reflexivity. }
  assert (Hne : c <> o) by (specialize (Hlt o Ho); lia).
  assert (Hin : In c (ids (logical y))).
  { rewrite (ji_ids _ _ _ Jv). unfold chunk_ids. apply in_or_app. right.
    specialize (J1 _ Hl). cbn [snd] in J1. unfold tail_ids in J1. apply in_app_or in J1.
    destruct J1 as [J1|[J1|[]]]; [apply in_or_app; left; exact J1|exfalso; apply Hne; symmetry; exact J1]. }
  destruct (HPL i ld p Hl Hp Hin) as (_ & pre & post & Ef & Eoff & Elen). fold c in Ef, Eoff.
  rewrite (jw_ids_FD _ JW) in Hin. rewrite (jw_fb_other y c Hne) in Ef.
  destruct (wrun_back (y_queue y) (wproj y) c (jw_sorted _ JW) Hin) as (I1 & tl & B1 & H).
  assert (Etl : tl = []).
  { (* the chunk is older than every file that a pending request writes to *)
    destruct H as [H|[(nw & E & Ec)|(prev & Hq)]]; [exact H|exfalso..].
    - destruct (newest_of_last _ _ E) as [older Eo]. cbn [wproj snd] in Eo.
      assert (Hj : In (wf_id nw) (map fst (fbounds y))).
      { rewrite Hml. apply in_or_app. left. rewrite Eo, map_app. apply in_or_app. right. left. reflexivity. }
      specialize (Hlt _ Hj). lia.
    - assert (Hj : In c (map fst (fbounds y))).
      { rewrite Hml. apply in_or_app. right. apply in_map_iff. exists (c, prev). split; [reflexivity|].
        apply in_flat_map. exists (WAppendFile c prev). split; [exact Hq|left; reflexivity]. }
      specialize (Hlt _ Hj). lia. }
  rewrite Etl, app_nil_r in B1. cbn [wproj fst] in I1, B1. fold (wfinal y) in B1. rewrite B1 in Ef.
  split; [exact Hne|]. destruct (disk_get_Some_In _ _ I1) as [f Hf]. exists f. split; [exact Hf|].
  unfold file_bytes in Ef. rewrite Hf in Ef. fold c. rewrite Ef, Eoff, Elen, rec_size_blen, !blen_app. lia.
Qed.

(* ================================================================== operations on the directory *)
Notation dop := AckFacts.dop.
Notation dapply := AckFacts.dapply.
Notation DNone := AckFacts.DNone.
Notation DCreate := AckFacts.DCreate.
Notation DAppend := AckFacts.DAppend.
Notation DSync := AckFacts.DSync.
Notation DRemove := AckFacts.DRemove.
Definition dtouch (o : dop) : list N :=
  match o with DNone => [] | DCreate i | DAppend i _ | DSync i | DRemove i => [i] end.

Lemma dapply_sorted : forall o d, dsorted d -> dsorted (dapply o d).
Proof.
  intros o d S. destruct o; cbn [dapply];
    [exact S|apply dsorted_put; exact S|apply dsorted_append; exact S|apply dsorted_sync; exact S
    |apply dsorted_remove; exact S].
Qed.

Definition xdisk (d : disk) (x : xeff) : disk :=
  match x with
  | XCreate id => disk_put (mkFile id [] 0) d
  | XWriteHead id h => disk_append id h d
  | XSend _ => d
  end.
Definition xid (x : xeff) : list N :=
  match x with XCreate id => [id] | XWriteHead id _ => [id] | XSend _ => [] end.
Definition xids (t : list xeff) : list N := flat_map xid t.
Definition xsend (x : xeff) : list wreq := match x with XSend r => [r] | _ => [] end.

Lemma xdisk_sorted : forall x d, dsorted d -> dsorted (xdisk d x).
Proof.
  intros x d S. destruct x; cbn [xdisk]; [apply dsorted_put; exact S|apply dsorted_append; exact S|exact S].
Qed.

Lemma fold_xdisk_sorted : forall t d, dsorted d -> dsorted (fold_left xdisk t d).
Proof.
  intros t. induction t as [|x t IH]; intros d S; cbn [fold_left]; [exact S|].
  apply IH. apply xdisk_sorted. exact S.
Qed.

Lemma dapply_xdisk_comm : forall o x d, dsorted d ->
  (forall i, In i (dtouch o) -> ~ In i (xid x)) ->
  xdisk (dapply o d) x = dapply o (xdisk d x).
Proof.
  intros o x d S H. destruct x as [id|id h|r]; [| |reflexivity]; (destruct o as [|i|i y|i|i]; [reflexivity|..]);
    cbn [xdisk dapply dtouch xid] in *;
    (assert (Hne : i <> id) by (intros E; apply (H i); left; [reflexivity|symmetry; exact E])).
  (* the creation of [id] after a creation, an append, a sync, a removal of another file [i] *)
  - apply disk_ext; [auto with dsorted..|]. intros j. rewrite !disk_get_put. cbn [f_id]. disk_cases.
  - symmetry. apply put_append_comm; assumption.
  - symmetry. apply put_sync_comm; assumption.
  - symmetry. apply put_remove_comm; assumption.
  (* the write of the head of [id] after the same four *)
  - apply put_append_comm; [exact S|]. intros E. apply Hne. symmetry. exact E.
  - apply disk_ext; [auto with dsorted..|]. intros j. rewrite !disk_get_append.
    destruct (disk_get i d) as [g|] eqn:E1; destruct (disk_get id d) as [g'|] eqn:E2;
      rewrite ?disk_get_append, ?E1, ?E2; disk_cases.
  - apply disk_ext; [auto with dsorted..|]. intros j. rewrite !disk_get_append, !disk_get_sync.
    destruct (disk_get i d) as [g|] eqn:E1; destruct (disk_get id d) as [g'|] eqn:E2;
      rewrite ?disk_get_append, ?disk_get_sync, ?E1, ?E2; disk_cases.
  - symmetry. apply remove_append_comm. exact S.
Qed.

Lemma dapply_todo_comm : forall o t d, dsorted d ->
  (forall i, In i (dtouch o) -> ~ In i (xids t)) ->
  fold_left xdisk t (dapply o d) = dapply o (fold_left xdisk t d).
Proof.
  intros o t. induction t as [|x t IH]; intros d S H; cbn [fold_left]; [reflexivity|].
  rewrite dapply_xdisk_comm; [|exact S|].
  - apply IH; [apply xdisk_sorted; exact S|]. intros i Hi Hx. apply (H i Hi). unfold xids. cbn [flat_map].
    apply in_or_app. right. exact Hx.
  - intros i Hi Hx. apply (H i Hi). unfold xids. cbn [flat_map]. apply in_or_app. left. exact Hx.
Qed.

(* ================================================================== the L1 view of an L2 state *)
Definition ww_req (w : wwrite) : wreq := WWrite (ww_upto w) (ww_data w) (ww_cb w).
Definition nf_reqs (o : option wreq) : list wreq := match o with Some r => [r] | None => [] end.
Definition batch_rest (b : batch) : list wreq :=
  match b_pos b with
  | BWrite i => map ww_req (skipn i (b_writes b)) ++ nf_reqs (b_nf b)
  | BUnlink rem => [WRemove rem]
  | BDone => []
  | _ => nf_reqs (b_nf b)
  end.
Definition wstream (w : worker) : list wreq :=
  WRemove (w_postponed w) :: match w_batch w with Some b => batch_rest b | None => [] end.

Definition abs (z : sys2) : sys :=
  mkSys (z_core z) (fold_left xdisk (z_todo z) (z_disk z))
        (wstream (z_w z) ++ z_queue z ++ flat_map xsend (z_todo z)) (w_files (z_w z)) [].

Lemma append_put_new : forall id h d,
  disk_append id h (disk_put (mkFile id [] 0) d) = disk_put (mkFile id h 0) d.
Proof.
  intros id h d. unfold disk_append. rewrite disk_get_put. cbn [f_id]. rewrite N.eqb_refl.
  apply disk_put_put. reflexivity.
Qed.

Lemma apply_effs_expand : forall effs k d q fs a,
  apply_effs (mkSys k d q fs a) effs =
  mkSys k (fold_left xdisk (flat_map expand_eff effs) d)
        (q ++ flat_map xsend (flat_map expand_eff effs)) fs a.
Proof.
  unfold apply_effs. intros effs. induction effs as [|e effs IH]; intros k d q fs a; cbn [fold_left flat_map].
  - rewrite app_nil_r. reflexivity.
  - destruct e as [id head|r]; cbn [apply_eff y_core y_disk y_queue y_files y_acks expand_eff app fold_left xdisk].
    + rewrite IH, append_put_new. cbn [flat_map xsend app]. reflexivity.
    + rewrite IH. cbn [flat_map xsend app]. rewrite <- app_assoc. reflexivity.
Qed.

(* the same view with an explicit list [ws] of the requests the worker holds: the caller's
   steps do not look at them *)
Definition absq (ws : list wreq) (z : sys2) : sys :=
  mkSys (z_core z) (fold_left xdisk (z_todo z) (z_disk z))
        (ws ++ z_queue z ++ flat_map xsend (z_todo z)) (w_files (z_w z)) [].

Lemma absq_todo_nil ws z : z_todo z = [] ->
  absq ws z = mkSys (z_core z) (z_disk z) (ws ++ z_queue z) (w_files (z_w z)) [].
Proof. intros H. unfold absq. rewrite H. cbn [fold_left flat_map]. rewrite app_nil_r. reflexivity. Qed.

Lemma absq_same ws z z' :
  z_core z' = z_core z -> z_todo z' = z_todo z -> z_disk z' = z_disk z -> z_queue z' = z_queue z ->
  w_files (z_w z') = w_files (z_w z) -> absq ws z' = absq ws z.
Proof. intros H1 H2 H3 H4 H5. unfold absq. rewrite H1, H2, H3, H4, H5. reflexivity. Qed.

Lemma absq_effs ws z k effs g : z_todo z = [] ->
  absq ws (set_ghost (set_todo (set_core z k) (flat_map expand_eff effs)) g) =
  commit (absq ws z) k effs.
Proof.
  intros H. rewrite (absq_todo_nil ws z H). unfold commit, with_core.
  cbn [y_core y_disk y_queue y_files y_acks]. rewrite apply_effs_expand.
  unfold absq. cbn [set_ghost set_todo set_core z_core z_todo z_disk z_queue z_w].
  rewrite <- app_assoc. reflexivity.
Qed.

Lemma absq_zeff ws z z' v : zeff z = Some (z', v) -> absq ws z' = absq ws z.
Proof.
  intros H. apply AckFacts.zeff_inv in H. unfold absq.
  destruct H as [id t Et|id data t Et|r t Et]; rewrite Et;
    cbn [set_ghost set_todo set_disk set_queue z_core z_todo z_disk z_queue z_w fold_left xdisk flat_map xsend app];
    rewrite <- ?app_assoc; reflexivity.
Qed.

Lemma abs_zrecv z k nf z' v : zrecv z k nf = Some (z', v) -> abs z' = abs z.
Proof.
  intros H. apply AckFacts.zrecv_inv in H. destruct H as [_ [b q' Ha Eb Eq Hok Hpos Hnf]].
  unfold abs, wstream. cbn [set_w set_queue w_set_batch z_core z_todo z_disk z_queue z_w w_files w_postponed w_batch].
  rewrite Eb, Eq. cbn [app]. rewrite <- !app_assoc.
  replace (batch_rest b) with (AckFacts.batch_reqs b); [reflexivity|].
  unfold batch_rest, AckFacts.batch_reqs. destruct Hpos as [[Ep _]|(Ep & Ew & _)]; rewrite Ep; [reflexivity|].
  rewrite Ew. reflexivity.
Qed.

Lemma wrun_cons : forall r q s, wrun (r :: q) s = wrun q (wstep s r).
Proof. reflexivity. Qed.

Lemma abs_same : forall z z',
  z_core z' = z_core z -> z_todo z' = z_todo z -> z_disk z' = z_disk z -> z_queue z' = z_queue z ->
  w_files (z_w z') = w_files (z_w z) -> wstream (z_w z') = wstream (z_w z) -> abs z' = abs z.
Proof.
  intros z z' H1 H2 H3 H4 H5 H6. change (absq (wstream (z_w z')) z' = absq (wstream (z_w z)) z).
  rewrite H6. now apply absq_same.
Qed.

Lemma ondisk_dapply : forall o y y' ld,
  ck_id (k_open (y_core y')) = ck_id (k_open (y_core y)) ->
  y_disk y' = dapply o (y_disk y) ->
  (forall id, o = DRemove id \/ o = DCreate id -> ld_chunk ld <> id) ->
  OnDisk y ld -> OnDisk y' ld.
Proof.
  intros o y y' ld Eo Ed Hrm [H1 (f & Hf & Hlen)]. split; [rewrite Eo; exact H1|]. rewrite Ed.
  destruct o as [|i|i x|i|i]; cbn [dapply].
  - exists f. split; assumption.
  - rewrite disk_get_put. cbn [f_id]. destruct (N.eqb_spec (ld_chunk ld) i) as [E|E].
    + exfalso. apply (Hrm i (or_intror eq_refl)). exact E.
    + exists f. split; assumption.
  - rewrite disk_get_append. destruct (disk_get i (y_disk y)) as [g|] eqn:Eg; [|exists f; split; assumption].
    destruct (N.eqb_spec (ld_chunk ld) i) as [E|E]; [|exists f; split; assumption].
    rewrite E in Hf. rewrite Hf in Eg. inversion Eg. subst g.
    eexists. split; [reflexivity|]. cbn [f_data]. rewrite blen_app. lia.
  - rewrite disk_get_sync. destruct (disk_get i (y_disk y)) as [g|] eqn:Eg; [|exists f; split; assumption].
    destruct (N.eqb_spec (ld_chunk ld) i) as [E|E]; [|exists f; split; assumption].
    rewrite E in Hf. rewrite Hf in Eg. inversion Eg. subst g.
    eexists. split; [reflexivity|]. cbn [f_data]. exact Hlen.
  - rewrite disk_get_remove. destruct (N.eqb_spec (ld_chunk ld) i) as [E|E].
    + exfalso. apply (Hrm i (or_introl eq_refl)). exact E.
    + exists f. split; assumption.
Qed.

(* the boundary recorded for the oldest file that the worker holds can be installed: what lies
   at or below it is in chunks older than every file still to be written to *)
Lemma I7_evict : forall y sp f rest, I7 y sp -> y_files y = f :: rest ->
  I7 (with_core y (core_with_cache (y_core y)
        (cache_set_evictable (m_cache (k_sm (y_core y))) (wf_prev_last f)))) sp.
Proof.
  intros y sp f rest HI Ef. apply I7_core; [exact HI|apply core_eqj_cache|].
  unfold CIs. cbn [core_with_cache core_with_sm k_sm m_log m_cache].
  eapply CI_reboot; [exact (i_ci _ _ HI)|reflexivity|intros i ld _ H; exact H|].
  intros i ld p Hl Hp Hle.
  assert (Hfb : fbounds y = wf_fb f :: (map wf_fb rest ++ flat_map req_fb (y_queue y))).
  { unfold fbounds. rewrite Ef. reflexivity. }
  assert (Hlt : ld_chunk ld < wf_id f).
  { apply (i_eb _ _ HI (wf_id f) (wf_prev_last f) i ld p); [|exact Hl|exact Hp|exact Hle].
    rewrite Hfb. left. reflexivity. }
  apply (ondisk_below y sp i ld p HI Hl Hp).
  intros j Hj. pose proof (i_ml _ _ HI) as HML. rewrite Hfb in HML, Hj. cbn [map fst wf_fb] in HML, Hj.
  destruct Hj as [Hj|Hj]; [subst j; exact Hlt|].
  apply ss_inv in HML. destruct HML as [_ HF]. rewrite Forall_forall in HF. specialize (HF j Hj). lia.
Qed.

(* ================================================================== every worker action *)
Lemma newest_newest_of : forall w, newest w = newest_of (w_files w).
Proof. intros w. unfold newest, newest_of. destruct (rev (w_files w)); reflexivity. Qed.

Lemma newest_of_in : forall fs f, newest_of fs = Some f -> In f fs.
Proof. intros fs f H. destruct (newest_of_last _ _ H) as [older E]. rewrite E. apply in_or_app. right. left. reflexivity. Qed.

Lemma wstream_batch w b : w_batch w = Some b -> wstream w = WRemove (w_postponed w) :: batch_rest b.
Proof. intros E. unfold wstream. rewrite E. reflexivity. Qed.

(* the directory operation is on a file that the worker holds *)
Definition held (w : worker) (o : dop) : Prop :=
  match o with
  | DNone => True
  | DCreate _ => False
  | DAppend i _ | DSync i => In i (map wf_id (w_files w))
  | DRemove i => In i (w_postponed w) \/ In i (AckDurable.unl w)
  end.

Section Worker.
Variables (z : sys2) (sp : spec).
Hypothesis HI : I7 (abs z) sp.
Hypothesis Sd : dsorted (z_disk z).
Hypothesis Htouch : forall i,
  In i (map wf_id (w_files (z_w z))) \/ In i (w_postponed (z_w z)) \/ In i (AckDurable.unl (z_w z)) ->
  ~ In i (xids (z_todo z)).
Hypothesis Hrem : forall id, In id (w_postponed (z_w z)) \/ In id (AckDurable.unl (z_w z)) ->
  forall i ld, In (i, ld) (m_log (k_sm (z_core z))) -> ld_chunk ld <> id.

Lemma abs_keep : forall z',
  z_core z' = z_core z -> z_todo z' = z_todo z -> z_disk z' = z_disk z -> z_queue z' = z_queue z ->
  w_files (z_w z') = w_files (z_w z) -> wstream (z_w z') = wstream (z_w z) -> I7 (abs z') sp.
Proof. intros z' H1 H2 H3 H4 H5 H6. rewrite (abs_same z z'); assumption. Qed.

(* the general shape of a worker micro-step that leaves the core alone *)
Lemma abs_step : forall z' o, held (z_w z) o ->
  z_core z' = z_core z -> z_todo z' = z_todo z -> z_queue z' = z_queue z ->
  z_disk z' = dapply o (z_disk z) ->
  (forall D, dsorted D ->
     weq (wrun (wstream (z_w z')) (dapply o D, w_files (z_w z')))
         (wrun (wstream (z_w z)) (D, w_files (z_w z)))) ->
  incl (mentioned (w_files (z_w z')) (wstream (z_w z'))) (mentioned (w_files (z_w z)) (wstream (z_w z))) ->
  (exists pre, map wf_fb (w_files (z_w z)) ++ flat_map req_fb (wstream (z_w z)) =
               pre ++ map wf_fb (w_files (z_w z')) ++ flat_map req_fb (wstream (z_w z'))) ->
  I7 (abs z') sp.
Proof.
  intros z' o Ho Ec Et Eq Ed FR Hment [pre Hfb].
  set (D := fold_left xdisk (z_todo z) (z_disk z)).
  assert (SD : dsorted D) by (apply fold_xdisk_sorted; exact Sd).
  assert (ED : y_disk (abs z') = dapply o D).
  { unfold abs. cbn [y_disk]. rewrite Et, Ed. apply dapply_todo_comm; [exact Sd|].
    intros i Hi. apply Htouch. destruct o; cbn [dtouch] in Hi; [destruct Hi|..]; destruct Hi as [<-|[]]; cbn [held] in Ho; tauto. }
  set (R := z_queue z ++ flat_map xsend (z_todo z)).
  assert (Eq' : y_queue (abs z') = wstream (z_w z') ++ R).
  { unfold abs. cbn [y_queue]. rewrite Et, Eq. reflexivity. }
  assert (Hfb' : fbounds (abs z) = pre ++ fbounds (abs z')).
  { unfold fbounds. rewrite Eq'. unfold abs at 1 2. cbn [y_files y_queue]. fold R.
    rewrite !flat_map_app, !app_assoc. rewrite Hfb. rewrite <- !app_assoc. reflexivity. }
  apply (I7_transfer (abs z) (abs z') sp HI).
  - unfold abs. cbn [y_core]. rewrite Ec. apply core_eqj_refl.
  - unfold abs. cbn [y_core]. rewrite Ec. reflexivity.
  - rewrite ED. apply dapply_sorted. exact SD.
  - assert (W1 : wfinal (abs z') = wrun (wstream (z_w z') ++ R) (dapply o D, w_files (z_w z'))).
    { unfold wfinal, wproj. rewrite ED, Eq'. reflexivity. }
    assert (W2 : wfinal (abs z) = wrun (wstream (z_w z) ++ R) (D, w_files (z_w z))) by reflexivity.
    rewrite W1, W2, !wrun_app. apply wrun_weq. apply FR. exact SD.
  - intros j Hj. unfold mentioned in *. rewrite Eq' in Hj. unfold abs in Hj at 1. cbn [y_files] in Hj.
    unfold abs. cbn [y_files y_queue]. fold R. rewrite flat_map_app in *. rewrite app_assoc in *.
    apply in_app_or in Hj. apply in_or_app. destruct Hj as [Hj|Hj]; [left|right; exact Hj].
    apply (Hment j). unfold mentioned. exact Hj.
  - intros x Hx. rewrite Hfb'. apply in_or_app. right. exact Hx.
  - pose proof (i_ml _ _ HI) as HML. rewrite Hfb', map_app in HML. apply ss_suffix in HML. exact HML.
  - intros i ld Hl HQ. apply (ondisk_dapply o (abs z) (abs z') ld); [| | |exact HQ].
    + unfold abs. cbn [y_core]. rewrite Ec. reflexivity.
    + rewrite ED. reflexivity.
    + intros id [->| ->]; [apply (Hrem id Ho i ld); exact Hl|destruct Ho].
Qed.

(* the requests held by the worker before ([Es]) and after an action, by computation *)
Ltac wsimp Es := AckFacts.zproj; rewrite ?Es; unfold wstream, batch_rest, w_set_pos, w_set_batch; AckFacts.zproj.

(* Every action of a worker that stays alive either leaves the abstract state alone
   (moves between positions, callbacks, failed syncs), installs the boundary of the oldest
   tracked file ([I7_evict]), or carries out part of the first requests of its stream on
   the directory ([abs_step]).  The seven moves that leave everything alone are settled by
   computing the worker's stream before and after ([wsimp]), which is shorter than naming them. *)
Lemma zwork_I7 : forall ok z' v,
  zwork z ok = Some (z', v) -> w_alive (z_w z') = true -> I7 (abs z') sp.
Proof.
  intros ok z' v H Hal.
  apply AckFacts.zwork_inv in H. destruct H as (b & _ & Eb & W).
  pose proof (wstream_batch _ _ Eb) as Es.
  AckFacts.work_cases W.
  - (* a move to the next position *)
    destruct M as [i ww Ep En Ed|i Ep En| Ep _|i ww Ep _ _|i Ep _|Ep _|Ep Enf|ids Ep Enf _|Ep];
      try (apply abs_keep; try reflexivity; wsimp Es;
           rewrite ?Ep, ?Enf, ?(AckFacts.skipn_nth_none _ _ En); reflexivity).
    + (* a write request without data *)
      apply (abs_step _ DNone I); try reflexivity; wsimp Es;
        rewrite ?Ep, ?(AckFacts.skipn_nth_cons _ _ _ En); cbn [map app].
      * intros D SD. cbn [dapply]. rewrite !wrun_cons. apply wrun_weq.
        unfold ww_req. rewrite Ed. apply weq_write_nil.
        cbn [wstep fst]. apply dsorted_remove_all. exact SD.
      * apply incl_refl.
      * exists []. reflexivity.
    + (* an empty list of removals *)
      apply (abs_step _ DNone I); try reflexivity; wsimp Es; rewrite ?Ep.
      * intros D SD. apply weq_refl. apply wrun_sorted. exact SD.
      * unfold mentioned. cbn [flat_map req_ids app]. rewrite !app_nil_r. apply incl_refl.
      * exists []. reflexivity.
  - (* the thread ends *)
    AckFacts.zproj. discriminate Hal.
  - (* write_all *)
    rewrite newest_newest_of in Enw.
    apply (abs_step _ (DAppend (wf_id f) (ww_data ww))); try reflexivity; wsimp Es;
      rewrite ?Ep, ?(AckFacts.skipn_nth_cons _ _ _ En); cbn [map app].
    + apply in_map, newest_of_in, Enw.
    + intros D SD. cbn [dapply]. rewrite !wrun_cons. apply wrun_weq. cbn [wstep fst snd].
      rewrite remove_all_append_comm by exact SD.
      apply weq_write_newest; [apply dsorted_remove_all; exact SD|exact Enw].
    + apply incl_refl.
    + exists []. reflexivity.
  - (* sync of the oldest file *)
    apply (abs_step _ (DSync (wf_id f))); try reflexivity; wsimp Es; rewrite ?Ef, ?Ep.
    + cbn [held]. rewrite Ef. left. reflexivity.
    + intros D SD. apply wrun_weq, weq_sync; [exact SD|symmetry; apply newest_of_cons].
    + unfold mentioned. cbn [map]. intros j Hj. right. exact Hj.
    + exists [wf_fb f]. reflexivity.
  - (* a failed sync *)
    apply abs_keep; try reflexivity. wsimp Es.
    destruct Ep as [[Ep _]|Ep]; rewrite Ep; reflexivity.
  - (* set_last_evictable *)
    pose proof (I7_evict (abs z) sp f rest HI Ef) as H. unfold abs, with_core in H |- *.
    rewrite Es in H. unfold batch_rest in H. rewrite Ep in H. wsimp Es. exact H.
  - (* sync of the newest file *)
    apply (abs_step _ (DSync (wf_id f))); try reflexivity; wsimp Es; rewrite ?Ef, ?Ep.
    + cbn [held]. rewrite Ef. left. reflexivity.
    + intros D SD. apply wrun_weq, weq_sync; [exact SD|reflexivity].
    + apply incl_refl.
    + exists []. reflexivity.
  - (* a callback *)
    apply abs_keep; try reflexivity. wsimp Es. rewrite Ep. reflexivity.
  - (* a postponed removal *)
    apply (abs_step _ (DRemove id)); try reflexivity; wsimp Es; rewrite ?Epp.
    + left. rewrite Epp. left. reflexivity.
    + intros D SD. rewrite !wrun_cons. cbn [wstep fst snd dapply].
      change (remove_all (id :: rest) D) with (remove_all rest (disk_remove id D)).
      apply weq_refl. apply wrun_sorted. cbn [fst]. apply dsorted_remove_all, dsorted_remove. exact SD.
    + unfold mentioned. cbn [flat_map req_ids]. intros j Hj. rewrite !in_app_iff in *. cbn [In]. tauto.
    + exists []. reflexivity.
  - (* a removal *)
    apply (abs_step _ (DRemove id)); try reflexivity; wsimp Es; rewrite ?Ep.
    + right. rewrite (AckDurable.unl_eq _ _ Eb), Ep. left. reflexivity.
    + intros D SD. unfold wrun. cbn [fold_left wstep fst snd dapply].
      change (remove_all (id :: rest) (remove_all (w_postponed (z_w z)) D))
        with (remove_all rest (disk_remove id (remove_all (w_postponed (z_w z)) D))).
      rewrite remove_all_remove_comm.
      apply weq_refl. cbn [fst]. apply dsorted_remove_all, dsorted_remove, dsorted_remove_all. exact SD.
    + unfold mentioned. cbn [flat_map req_ids app]. intros j Hj. rewrite ?app_nil_r, ?in_app_iff in *. cbn [In] in *. tauto.
    + exists []. reflexivity.
  - (* AppendFile *)
    apply (abs_step _ DNone I); try reflexivity; wsimp Es; rewrite ?Ep, ?Enf.
    + intros D SD. apply weq_refl. apply wrun_sorted. exact SD.
    + unfold mentioned. rewrite map_app. cbn [map wf_id flat_map req_ids nf_reqs app].
      intros j Hj. rewrite ?app_nil_r, ?in_app_iff in *. cbn [In] in *. tauto.
    + exists []. rewrite map_app. cbn [map wf_fb wf_id wf_prev_last flat_map req_fb nf_reqs app].
      rewrite app_nil_r. reflexivity.
  - (* RemoveChunks while a sync has failed *)
    apply (abs_step _ DNone I); try reflexivity; wsimp Es; rewrite ?Ep, ?Enf.
    + intros D SD. unfold wrun. cbn [fold_left wstep fst snd dapply nf_reqs]. unfold remove_all. rewrite fold_left_app.
      apply weq_refl. cbn [fst]. apply dsorted_remove_all, dsorted_remove_all. exact SD.
    + unfold mentioned. cbn [flat_map req_ids nf_reqs app].
      intros j Hj. rewrite ?app_nil_r, ?in_app_iff in *. cbn [In] in *. rewrite ?in_app_iff in *. tauto.
    + exists []. reflexivity.
  - (* the batch is done *)
    apply abs_keep; try reflexivity. wsimp Es. rewrite Ep. reflexivity.
Qed.
End Worker.

(* ================================================================== side conditions from the other invariants *)
Lemma touch_ok : forall z, AckDurable.full z -> w_alive (z_w z) = true ->
  forall i, In i (map wf_id (w_files (z_w z))) \/ In i (w_postponed (z_w z)) \/ In i (AckDurable.unl (z_w z)) ->
            ~ In i (xids (z_todo z)).
Proof.
  intros z HF Hal i Hi Hx. unfold xids in Hx. apply in_flat_map in Hx. destruct Hx as (x & Hxin & Hxi).
  pose proof (AckDurable.tracked_below_todo z HF Hal i Hi x Hxin) as Hlt.
  destruct x as [id|id h|r]; cbn [xid] in Hxi; [| |destruct Hxi]; destruct Hxi as [<-|[]]; lia.
Qed.

Lemma rem_ok : forall z sp, PurgeFacts.Inv z -> w_alive (z_w z) = true -> KInv (z_core z) sp ->
  forall id, In id (w_postponed (z_w z)) \/ In id (AckDurable.unl (z_w z)) ->
  forall i ld, In (i, ld) (m_log (k_sm (z_core z))) -> ld_chunk ld <> id.
Proof.
  intros z sp (gone & rmw & keep & Hc) Hal (HR & [J1 J2] & Hk) id Hid i ld Hl.
  pose proof (ci_alive _ _ _ _ Hc Hal) as Erm.
  assert (Hin : In id rmw).
  { rewrite Erm. unfold w_rm. apply in_or_app. destruct Hid as [Hid|Hid]; [left; exact Hid|right].
    unfold AckDurable.unl in Hid. destruct (w_batch (z_w z)) as [b|]; [|destruct Hid].
    unfold batch_rm. destruct (b_pos b); try destruct Hid. exact Hid. }
  specialize (J1 _ Hl). cbn [snd] in J1. rewrite <- (ci_keep _ _ _ _ Hc) in J1.
  pose proof (PurgeFacts.ci_sorted _ _ _ _ Hc) as S. rewrite (ci_present _ _ _ _ Hc) in S.
  assert (S' : StronglySorted N.lt ((gone ++ rmw) ++
             (queue_rm (z_queue z) ++ todo_rm (z_todo z) ++ k_removed (z_core z)) ++ keep ++ todo_cr (z_todo z))).
  { rewrite <- !app_assoc in *. exact S. }
  apply ss_app_inv in S'. destruct S' as (_ & _ & S').
  assert (Hlt : id < ld_chunk ld).
  { apply S'; [apply in_or_app; right; exact Hin|]. apply in_or_app. right. exact J1. }
  lia.
Qed.

Lemma zcall_absq ws z o z' v : zcall z o = Some (z', v) -> o <> OIdle ->
  exists r, run_op (absq ws z) o = (Some (absq ws z'), r).
Proof.
  intros H Hni. apply AckFacts.zcall_inv in H. destruct H as (Et & _ & C).
  assert (Ed : y_disk (absq ws z) = z_disk z) by (rewrite (absq_todo_nil ws z Et); reflexivity).
  destruct C as [w k r effs E|cb k effs E|from to k items E| |o r E]; cbn [run_op].
  - change (y_core (absq ws z)) with (z_core z). rewrite E, (absq_effs ws z k effs _ Et). eexists. reflexivity.
  - change (y_core (absq ws z)) with (z_core z). rewrite E, (absq_effs ws z k effs _ Et). eexists. reflexivity.
  - change (y_core (absq ws z)) with (z_core z). rewrite Ed, E. eexists. reflexivity.
  - eexists. reflexivity.
  - destruct o; try discriminate E; [eexists; reflexivity..|exfalso; apply Hni; reflexivity].
Qed.

Definition zstep_ok (z : sys2) (e : zev) : bool :=
  match e with ZCall o => op_above_bounds (abs z) o | _ => true end.
Fixpoint zrun_ok_c07 (z : sys2) (es : list zev) : bool :=
  match es with
  | [] => true
  | e :: r =>
    zstep_ok z e &&
    match zstep z e with
    | Some (z1, _) => zrun_ok_c07 z1 r
    | None => true
    end
  end.

Lemma hist_back z e z' v : zstep z e = Some (z', v) ->
  hist_legal z' -> Forall wop_wf (hist z') -> hist_legal z /\ Forall wop_wf (hist z).
Proof.
  intros H Hl Hw. split; [exact (proj1 (hist_legal_back _ _ _ _ H Hl))|exact (proj1 (hist_Forall_back wop_wf _ _ _ _ H Hw))].
Qed.

Lemma hist_call z o z' v : zcall z o = Some (z', v) ->
  hist_legal z' -> Forall wop_wf (hist z') ->
  spec_wops spec0 (hist z') = spec_op (spec_wops spec0 (hist z)) o /\
  op_c07 (spec_wops spec0 (hist z)) o = true /\ op_wf o.
Proof.
  intros H. unfold hist_legal. rewrite (hist_step z (ZCall o) _ _ H).
  destruct o as [w|cb|from to| | | | | |cfg']; rewrite ?app_nil_r; cbn [spec_op op_c07 op_wf];
    try (intros; split; [reflexivity|split; [reflexivity|exact I]]).
  - rewrite wops_legal_snoc, spec_wops_snoc. intros Hl Hw. apply andb_true_iff in Hl. apply Forall_app in Hw.
    destruct Hw as [_ Hw]. inversion Hw; subst. split; [reflexivity|]. split; [apply Hl|assumption].
  - apply AckFacts.zcall_inv in H. destruct H as (_ & _ & C). inversion C as [| | | |? ? E]. discriminate E.
Qed.

Lemma zcall_I7 ws z o z' v :
  zcall z o = Some (z', v) ->
  I7 (absq ws z) (spec_wops spec0 (hist z)) ->
  hist_legal z' -> Forall wop_wf (hist z') ->
  op_above_bounds (absq ws z) o = true ->
  I7 (absq ws z') (spec_wops spec0 (hist z')).
Proof.
  intros H HP Hleg Hwf Hok.
  destruct (hist_call _ _ _ _ H Hleg Hwf) as (Esp & Hc & Hw). rewrite Esp.
  destruct o; try (destruct (zcall_absq ws _ _ _ _ H) as [r Hr]; [discriminate|];
    destruct (I7_run_op (absq ws z) _ _ HP Hc Hw Hok) as (y' & r' & Hr' & HI');
    rewrite Hr in Hr'; inversion Hr'; subst y'; exact HI').
  (* wait_worker_idle changes nothing *)
  apply AckFacts.zcall_inv in H. destruct H as (_ & _ & C). inversion C; subst. exact HP.
Qed.

(* the requests the worker holds, or held when its thread ended ([lost], a history variable) *)
Definition pendq (z : sys2) (lost : list wreq) : list wreq :=
  if w_alive (z_w z) then wstream (z_w z) else lost.
Definition nextq (z z' : sys2) (lost : list wreq) : list wreq :=
  if w_alive (z_w z) && negb (w_alive (z_w z')) then wstream (z_w z) else lost.
Definition callq_ok (z : sys2) (lost : list wreq) (e : zev) : bool :=
  match e with ZCall o => op_above_bounds (absq (pendq z lost) z) o | _ => true end.
Fixpoint zrunq_ok (z : sys2) (lost : list wreq) (es : list zev) : bool :=
  match es with
  | [] => true
  | e :: r =>
    callq_ok z lost e &&
    match zstep z e with
    | Some (z1, _) => zrunq_ok z1 (nextq z z1 lost) r
    | None => true
    end
  end.

Definition Pq (z : sys2) (lost : list wreq) : Prop :=
  hist_legal z -> Forall wop_wf (hist z) ->
  I7 (absq (pendq z lost) z) (spec_wops spec0 (hist z)).

Lemma pendq_same z z' lost : z_w z' = z_w z -> pendq z' (nextq z z' lost) = pendq z lost.
Proof. intros E. unfold pendq, nextq. rewrite E. destruct (w_alive (z_w z)); reflexivity. Qed.

Lemma zwork_die : forall z ok z' v, zwork z ok = Some (z', v) -> w_alive (z_w z') = false ->
  z' = set_w z (w_die (z_w z)).
Proof.
  intros z ok z' v H Hd. apply AckFacts.zwork_inv in H. destruct H as (b & Ha & _ & W).
  destruct W; AckFacts.zproj; rewrite ?Ha in Hd; try discriminate Hd. reflexivity.
Qed.

Lemma Pq_step : forall z lost e z' v,
  AckDurable.full z -> PurgeFacts.Inv z -> Pq z lost ->
  zstep z e = Some (z', v) -> callq_ok z lost e = true -> Pq z' (nextq z z' lost).
Proof.
  intros z lost e z' v HF HInv HP H Hok Hleg Hwf.
  destruct (hist_back _ _ _ _ H Hleg Hwf) as [Hleg0 Hwf0]. specialize (HP Hleg0 Hwf0).
  pose proof (hist_step _ _ _ _ H) as Eh. pose proof (AckFacts.zstep_w _ _ _ _ H) as Ew.
  destruct e as [o| |k nf|ok|]; cbn [zstep callq_ok] in H, Hok; try (rewrite app_nil_r in Eh; rewrite Eh);
    try rewrite (pendq_same _ _ _ Ew).
  - apply (zcall_I7 _ z o z' v H HP Hleg Hwf Hok).
  - rewrite (absq_zeff _ _ _ _ H). exact HP.
  - assert (Ha : w_alive (z_w z) = true /\ w_alive (z_w z') = true)
      by (pose proof H as H0; apply AckFacts.zrecv_inv in H0; destruct H0 as [_ [b q' Ha]]; split; exact Ha).
    unfold pendq, nextq in *. rewrite (proj1 Ha), (proj2 Ha) in *. cbn [andb negb].
    change (I7 (abs z') (spec_wops spec0 (hist z))). rewrite (abs_zrecv _ _ _ _ _ H). exact HP.
  - pose proof (AckFacts.zwork_inv _ _ _ _ H) as (b & Ha & _). unfold pendq, nextq in *. rewrite Ha in *.
    destruct (w_alive (z_w z')) eqn:Hal; cbn [andb negb].
    + apply (zwork_I7 z _ HP) with (ok := ok) (v := v); [|apply (touch_ok z HF Ha)| |exact H|exact Hal].
      * destruct HInv as (gone & rmw & keep & Hc). apply (cinv_dsorted _ _ _ _ Hc).
      * apply (rem_ok z (spec_wops spec0 (hist z)) HInv Ha). apply (i_k _ _ HP).
    + rewrite (zwork_die _ _ _ _ H Hal). exact HP.
  - apply AckFacts.zdrop_inv in H. destruct H as (Et & _ & ->).
    rewrite (absq_same _ z); try reflexivity; [exact HP|symmetry; exact Et].
Qed.

Lemma z0_zstart : forall cfg, z0_of cfg = AckFacts.zstart cfg.
Proof. reflexivity. Qed.

Lemma Pq_init : forall cfg lost, Pq (z0_of cfg) lost.
Proof.
  intros cfg lost _ _. change (hist (z0_of cfg)) with (@nil wop). cbn [spec_wops fold_left].
  apply (I7_transfer (sys0 cfg) (abs (z0_of cfg)) spec0 (I7_init cfg)).
  - repeat split; reflexivity.
  - reflexivity.
  - unfold dsorted. cbn. repeat constructor.
  - apply (weq_refl (wfinal (sys0 cfg))). unfold dsorted. cbn. repeat constructor.
  - intros j Hj. exact Hj.
  - intros x Hx. exact Hx.
  - cbn. repeat constructor.
  - intros i ld _ H. exact H.
Qed.

Lemma Pq_run : forall es z lost z' v,
  AckDurable.full z -> PurgeFacts.Inv z -> Pq z lost ->
  zrun z es = Some (z', v) -> zrunq_ok z lost es = true ->
  exists lost', Pq z' lost'.
Proof.
  intros es. induction es as [|e es IH]; intros z lost z' v HF HInv HP H Hok; cbn [zrun] in H.
  - inversion H; subst. exists lost. exact HP.
  - cbn [zrunq_ok] in Hok. apply andb_true_iff in Hok. destruct Hok as [Hok1 Hok2].
    destruct (zstep z e) as [[z1 v1]|] eqn:E; [|discriminate H].
    destruct (zrun z1 es) as [[z2 v2]|] eqn:E2; [|discriminate H]. inversion H; subst z2 v. clear H.
    apply (IH z1 (nextq z z1 lost) z' v2); [| | |exact E2|exact Hok2].
    + eapply AckDurable.full_step; eassumption.
    + eapply inv_zstep; eassumption.
    + eapply Pq_step; eassumption.
Qed.

(* a run whose worker is alive at the end: it was alive all along, and the check is [zrun_ok_c07] *)
Lemma zrunq_ok_alive : forall es z lost z' v,
  zrun z es = Some (z', v) -> w_alive (z_w z') = true ->
  w_alive (z_w z) = true /\ zrunq_ok z lost es = zrun_ok_c07 z es.
Proof.
  intros es. induction es as [|e es IH]; intros z lost z' v H Hal; cbn [zrun] in H.
  - inversion H; subst. split; [exact Hal|reflexivity].
  - cbn [zrunq_ok zrun_ok_c07].
    destruct (zstep z e) as [[z1 v1]|] eqn:E; [|discriminate H].
    destruct (zrun z1 es) as [[z2 v2]|] eqn:E2; [|discriminate H]. inversion H; subst z2 v. clear H.
    destruct (IH z1 (nextq z z1 lost) z' v2 E2 Hal) as [Hal1 ->].
    pose proof (AckDurable.alive_back _ _ _ _ E Hal1) as Hal0. split; [exact Hal0|].
    unfold callq_ok, zstep_ok, pendq. rewrite Hal0. reflexivity.
Qed.

(* Every reachable state of the L2 system between two calls, worker failures of every kind included. *)
Theorem C07_L2_gen : forall cfg es z v,
  zrun (z0_of cfg) es = Some (z, v) ->
  zrunq_ok (z0_of cfg) [] es = true ->
  hist_legal z -> Forall wop_wf (hist z) -> z_todo z = [] ->
  let sp := spec_wops spec0 (hist z) in
  m_rs (k_sm (z_core z)) = spec_state sp /\
  (forall from to, read_ok (snd (do_read (z_core z) (z_disk z) from to)) (spec_read sp from to)) /\
  read_ok (do_dump_iter (z_core z) (z_disk z)) (sp_entries sp).
Proof.
  intros cfg es z v Hrun Hok Hleg Hwf Ht sp.
  destruct (Pq_run es (z0_of cfg) [] z v) as [lost HP];
    [rewrite z0_zstart; apply AckDurable.full_init|apply inv_init|apply Pq_init|exact Hrun|exact Hok|].
  pose proof (I7_observes _ _ (HP Hleg Hwf)) as Ho. unfold observes in Ho.
  rewrite (absq_todo_nil _ z Ht) in Ho. cbn [y_core y_disk] in Ho. exact Ho.
Qed.

(* ================================================================== C07 on the L2 system *)
(* Every interleaving of caller calls, caller effects, worker receptions and worker
   actions (with failing syncs; the worker thread must still be alive): if the write
   history is Raft-legal and well-formed, and every append is above every eviction
   boundary in force or pending at its call ([zrun_ok_c07], the boundaries being those
   of [abs z]: the one in force, those of the worker's files, of the batch in progress,
   of the queue), then between calls every read returns exactly the reference log.
   ReadSysFaults.v has the statement without [w_alive]. *)
Theorem C07_reads_total_outside_known_L2 : forall cfg es z v,
  zrun (z0_of cfg) es = Some (z, v) ->
  zrun_ok_c07 (z0_of cfg) es = true ->
  hist_legal z -> Forall wop_wf (hist z) ->
  w_alive (z_w z) = true -> z_todo z = [] ->
  let sp := spec_wops spec0 (hist z) in
  m_rs (k_sm (z_core z)) = spec_state sp /\
  (forall from to, read_ok (snd (do_read (z_core z) (z_disk z) from to)) (spec_read sp from to)) /\
  read_ok (do_dump_iter (z_core z) (z_disk z)) (sp_entries sp).
Proof.
  intros cfg es z v Hrun Hok Hleg Hwf Hal Ht.
  apply (C07_L2_gen cfg es z v Hrun); try assumption.
  rewrite (proj2 (zrunq_ok_alive es _ [] z v Hrun Hal)). exact Hok.
Qed.

(* the boundaries that the hypothesis refers to, spelled out *)
Lemma bounds_abs : forall z,
  bounds (abs z) =
  ch_evictable (m_cache (k_sm (z_core z))) ::
  map snd (map wf_fb (w_files (z_w z)) ++
           flat_map req_fb (wstream (z_w z) ++ z_queue z ++ flat_map xsend (z_todo z))).
Proof. reflexivity. Qed.

(* the hypotheses on the run ([Forall wop_wf (hist z)] apart) are satisfiable: a run with a
   zero-size cache in which the worker is caught between the write and the sync of a batch
   while the caller reads *)
Example C07_L2_inhabited :
  let cfg := mkConfig 0 0 3 100000 true in
  let es := [ZCall (OW (OAppend [((1, 0), [x01]); ((1, 1), []); ((1, 2), [])])); ZEff; ZEff; ZEff; ZEff;
             ZCall (OFlush true); ZEff;
             ZRecv 0 true; ZWork true; ZWork true; ZWork true; ZWork true; ZWork true; ZWork true;
             ZWork true; ZWork true; ZWork true; ZWork true;
             ZRecv 0 false; ZWork true; ZWork true; ZWork true; ZWork true; ZWork true;
             ZCall (OW (OAppend [((2, 3), [])])); ZEff; ZEff; ZEff; ZEff;
             ZCall ODrain; ZCall (ORead 0 10)] in
  exists z v, zrun (z0_of cfg) es = Some (z, v) /\ zrun_ok_c07 (z0_of cfg) es = true /\
    hist_legal z /\ w_alive (z_w z) = true /\ z_todo z = [] /\
    (exists b, w_batch (z_w z) = Some b /\ b_pos b = BSyncNew) /\
    ch_evictable (m_cache (k_sm (z_core z))) = Some (1, 1) /\
    map fst (ch_entries (m_cache (k_sm (z_core z)))) = [(1, 2); (2, 3)].
Proof.
  (* only what is claimed of [z] is evaluated: the kernel's lazy machine, which coqchk uses for a
     [vm_compute] step, does not normalise the rest of the state *)
  cbv zeta. set (r := zrun _ _).
  assert (H : match r with
              | Some (z, _) =>
                Some (wops_legal spec0 (hist z), w_alive (z_w z), z_todo z,
                      match w_batch (z_w z) with Some b => Some (b_pos b) | None => None end,
                      ch_evictable (m_cache (k_sm (z_core z))),
                      map fst (ch_entries (m_cache (k_sm (z_core z)))))
              | None => None
              end = Some (true, true, [], Some BSyncNew, Some (1, 1), [(1, 2); (2, 3)]))
    by (vm_compute; reflexivity).
  clearbody r. destruct r as [[z v]|]; [|discriminate H]. injection H as H1 H2 H3 H4 H5 H6.
  exists z, v. split; [reflexivity|]. split; [vm_compute; reflexivity|].
  destruct (w_batch (z_w z)) as [b|]; [injection H4 as H4|discriminate H4]. unfold hist_legal. eauto 10.
Qed.

Print Assumptions C07_reads_total_outside_known_L2.
