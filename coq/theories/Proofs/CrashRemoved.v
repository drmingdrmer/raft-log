(* C03, stage C: what is known about chunk files that have been removed. [FI]: every chunk file that
   was created and is gone was named in a RemoveChunks request recorded in the ghost history, and the
   directory is never empty. [RI]: for every recorded request (ids, U) and every c in ids the journal
   holds, behind file c, a file whose head snapshot is complete below U, and the purged id reached by the
   journalled records that end at or below U is at least the last log id of that snapshot (the purge
   record that made chunk c obsolete lies below U). *)
From Coq Require Import List NArith Lia.
From RaftLog Require Import Model.Types Model.Codec Model.Core
  Model.Sys Spec.Spec Spec.Hist Spec.Durable.
From RaftLog Require Import Proofs.JournalDisk Proofs.JournalChunk Proofs.OrderFacts.
From RaftLog Require Proofs.PurgeFacts.
From RaftLog Require Import Proofs.SmFacts Proofs.CrashBase Proofs.CrashJournal Proofs.CrashSteps
  Proofs.CrashSpec Proofs.CrashPrefix Proofs.CrashSuffix.
Import ListNotations.
Local Open Scope N_scope.
Local Arguments enc_record : simpl never.

Module PF := PurgeFacts.
Module JD := JournalDisk.

(* ================================================================== files that are gone were requested *)
Definition InRem (z : sys2) (id : N) : Prop :=
  exists l U, In (l, U) (g_removals (z_ghost z)) /\ In id l.

Record FI (z : sys2) : Prop := mkFI {
  fi_gone : forall id, In id (g_created (z_ghost z)) -> In id (JD.ids (z_disk z)) \/ InRem z id;
  fi_w : w_alive (z_w z) = true -> forall id, In id (PF.w_rm (z_w z)) -> InRem z id;
  fi_q : forall id, In id (PF.queue_rm (z_queue z) ++ PF.todo_rm (z_todo z)) -> InRem z id;
  fi_ne : exists id, In id (JD.ids (z_disk z)) /\
                     (In id (k_removed (z_core z)) \/ In id (PF.tail_ids (z_core z))) }.

Lemma InRem_mono z z' id :
  (forall x, In x (g_removals (z_ghost z)) -> In x (g_removals (z_ghost z'))) -> InRem z id -> InRem z' id.
Proof. intros H (l & U & H1 & H2). exists l, U. split; [apply H, H1|exact H2]. Qed.

Lemma InRem_eq z z' id : g_removals (z_ghost z') = g_removals (z_ghost z) -> InRem z id -> InRem z' id.
Proof. intros E. apply InRem_mono. intros x Hx. now rewrite E. Qed.

Lemma removals_after_flush z cb x :
  In x (g_removals (z_ghost (AF.after_flush z cb))) <->
  In x (g_removals (z_ghost z)) \/
  (k_removed (z_core z) <> [] /\ x = (k_removed (z_core z), ck_end (k_open (z_core z)))).
Proof.
  unfold AF.after_flush, AF.flush_ghost. AF.zproj. destruct (k_removed (z_core z)) as [|c l].
  - split; [now left|intros [H|[H _]]; [exact H|now elim H]].
  - rewrite in_app_iff. simpl. split; [intros [H|[<-|[]]]; [now left|right; split; [discriminate|reflexivity]]|].
    intros [H|[_ ->]]; auto.
Qed.

Lemma FI_frame z z' : FI z ->
  JD.ids (z_disk z') = JD.ids (z_disk z) -> g_created (z_ghost z') = g_created (z_ghost z) ->
  g_removals (z_ghost z') = g_removals (z_ghost z) ->
  (w_alive (z_w z') = true -> w_alive (z_w z) = true /\ PF.w_rm (z_w z') = PF.w_rm (z_w z)) ->
  z_queue z' = z_queue z -> z_todo z' = z_todo z ->
  k_removed (z_core z') = k_removed (z_core z) -> PF.tail_ids (z_core z') = PF.tail_ids (z_core z) ->
  FI z'.
Proof.
  intros [F1 F2 F3 F4] Hd Hc Hr Hw Hq Ht Hk Hti.
  constructor; rewrite ?Hd, ?Hc, ?Hq, ?Ht, ?Hk, ?Hti.
  - intros id Hid. destruct (F1 id Hid) as [H|H]; [now left|right; eapply InRem_eq; eauto].
  - intros Ha id Hid. destruct (Hw Ha) as [Ha' E]. rewrite E in Hid. eapply InRem_eq; eauto.
  - intros id Hid. eapply InRem_eq; eauto.
  - exact F4.
Qed.

Lemma FI_core_step z z' : PF.Inv z -> AF.core_step z z' -> FI z -> FI z'.
Proof.
  intros (gone & rmw & keep & Hc) (E & Ht & Hd & Hq & Hw & _ & _ & Hg) HF.
  destruct (PF.core_eqj_ok _ _ E (PF.ci_core _ _ _ _ Hc)) as (_ & T' & R').
  eapply FI_frame; [exact HF|now rewrite Hd|now rewrite Hg|now rewrite Hg| |exact Hq|exact Ht|exact R'|exact T'].
  rewrite Hw. auto.
Qed.

Lemma FI_call z o z' v : PF.Inv z -> FI z -> zcall z o = Some (z', v) -> FI z'.
Proof.
  intros HI HF H. pose proof HI as (gone & rmw & keep & Hc). pose proof Hc as [C A P K Cr S F R].
  pose proof HF as [F1 F2 F3 F4].
  destruct (AF.zcall_kinds _ _ _ _ H) as [Et [(w & k & r & effs & -> & Ew & ->)|[(cb & -> & ->)|[Hs _]]]].
  3: now apply (FI_core_step z).
  all: rewrite Et in *; cbn [PF.todo_rm PF.todo_cr flat_map app] in P, K, F3; rewrite app_nil_r in K, F3; subst keep.
  - apply PF.do_write_ok in Ew as (ids0 & keep' & R1 & T1 & T2 & M & C' & S'); [|exact C].
    constructor; unfold AF.after_write; AF.zproj; fold (PF.xeffs effs).
    + exact F1.
    + exact F2.
    + rewrite M, app_nil_r. exact F3.
    + destruct F4 as (id & Hid & [Hk|Hk]).
      * exists id. split; [exact Hid|]. left. rewrite R1. apply in_or_app. now left.
      * exists id. split; [exact Hid|]. rewrite T1 in Hk. apply in_app_or in Hk. destruct Hk as [Hk|Hk].
        -- left. rewrite R1. apply in_or_app. now right.
        -- right. rewrite T2. apply in_or_app. now left.
  - destruct (PF.do_flush_ok (z_core z) cb _ _ C (surjective_pairing _)) as (C' & T & R0 & Mc & Mr).
    set (z' := AF.after_flush z cb).
    assert (Hmono : forall x, In x (g_removals (z_ghost z)) -> In x (g_removals (z_ghost z')))
      by (intros x Hx; apply removals_after_flush; now left).
    assert (Hnew : forall id, In id (k_removed (z_core z)) -> InRem z' id).
    { intros id Hid. exists (k_removed (z_core z)), (ck_end (k_open (z_core z))).
      split; [|exact Hid]. apply removals_after_flush. right. split; [|reflexivity]. intros E. now rewrite E in Hid. }
    constructor.
    + intros id Hid. destruct (F1 id Hid) as [H0|H0]; [now left|right].
      eapply InRem_mono; [exact Hmono|exact H0].
    + intros Ha id Hid. eapply InRem_mono; [exact Hmono|exact (F2 Ha id Hid)].
    + unfold z' at 1 2, AF.after_flush, AF.flush_ghost. AF.zproj. fold (PF.xeffs (snd (do_flush (z_core z) cb))). rewrite Mr.
      intros id Hid. apply in_app_or in Hid. destruct Hid as [Hid|Hid].
      * eapply InRem_mono; [exact Hmono|exact (F3 id Hid)].
      * now apply Hnew.
    + unfold z', AF.after_flush, AF.flush_ghost. AF.zproj.
      exists (ck_id (k_open (z_core z))). split.
      * rewrite P. rewrite !in_app_iff. right. right. right. unfold PF.tail_ids.
        rewrite in_app_iff. right. now left.
      * right. rewrite T. unfold PF.tail_ids. rewrite in_app_iff. right. now left.
Qed.

Lemma FI_eff z z' v : PF.Inv z -> FI z -> zeff z = Some (z', v) -> FI z'.
Proof.
  intros (gone & rmw & keep & Hc) HF H. pose proof Hc as [C A P K Cr S F R].
  pose proof HF as [F1 F2 F3 F4].
  apply AF.zeff_inv in H. destruct H as [id t Et|id data t Et|r t Et]; rewrite Et in F3.
  - constructor; AF.zproj.
    + intros i Hi. apply in_app_or in Hi. destruct Hi as [Hi|[<-|[]]].
      * destruct (F1 i Hi) as [H|H]; [left; apply JD.In_ids_put; now right|right; exact H].
      * left. apply JD.In_ids_put. now left.
    + exact F2.
    + exact F3.
    + destruct F4 as (i & Hi & Hk). exists i. split; [apply JD.In_ids_put; now right|exact Hk].
  - constructor; AF.zproj.
    + intros i Hi. destruct (F1 i Hi) as [H|H]; [left|right; exact H].
      unfold JD.ids in *. now apply In_ids_append.
    + exact F2.
    + exact F3.
    + destruct F4 as (i & Hi & Hk). exists i. split; [|exact Hk].
      unfold JD.ids in *. now apply In_ids_append.
  - constructor; AF.zproj.
    + exact F1.
    + exact F2.
    + intros i Hi. apply F3. rewrite PF.queue_rm_app in Hi.
      unfold PF.queue_rm at 2 in Hi. cbn [flat_map] in Hi. rewrite app_nil_r in Hi.
      cbn [PF.todo_rm flat_map PF.xrm_of]. fold (PF.todo_rm t).
      rewrite !in_app_iff in *. tauto.
    + exact F4.
Qed.

Lemma zrecv_rm z k nf z' v : zrecv z k nf = Some (z', v) ->
  w_alive (z_w z) = true /\
  (forall id, In id (PF.w_rm (z_w z')) -> In id (PF.w_rm (z_w z)) \/ In id (PF.queue_rm (z_queue z))) /\
  (forall id, In id (PF.queue_rm (z_queue z')) -> In id (PF.queue_rm (z_queue z))).
Proof.
  intros H. apply AF.zrecv_inv in H. destruct H as [_ [b q' Hal Eb Eq _ Hp _]].
  split; [exact Hal|].
  (* the removals of the new batch are those of its non-write request *)
  assert (Ew : forall l, PF.queue_rm (map AF.req_of_ww l) = []).
  { induction l as [|ww l IH]; [reflexivity|exact IH]. }
  assert (Er : PF.batch_rm b = PF.queue_rm (AF.batch_reqs b)).
  { unfold AF.batch_reqs. rewrite PF.queue_rm_app, Ew. unfold PF.batch_rm.
    destruct Hp as [[-> _]|(-> & _)]; destruct (b_nf b); cbn; now rewrite ?app_nil_r. }
  rewrite Eq, PF.queue_rm_app, <- Er. unfold PF.w_rm. AF.zproj. rewrite Eb.
  split; intros id Hid; rewrite ?in_app_iff in *; tauto.
Qed.

Lemma FI_recv z k nf z' v : FI z -> zrecv z k nf = Some (z', v) -> FI z'.
Proof.
  intros [F1 F2 F3 F4] H.
  destruct (AD.zrecv_frame _ _ _ _ _ H) as (Ht & Hg & Hc & Hd & _).
  destruct (zrecv_rm _ _ _ _ _ H) as (Ha & Hw & Hq).
  assert (HR : forall id, InRem z id -> InRem z' id) by (intros id; apply InRem_eq; now rewrite Hg).
  constructor; rewrite ?Ht, ?Hg, ?Hc, ?Hd.
  - intros id Hid. destruct (F1 id Hid); [now left|right; now apply HR].
  - intros _ id Hid. apply HR. destruct (Hw id Hid) as [Hi|Hi]; [now apply F2|].
    apply F3. apply in_or_app. now left.
  - intros id Hid. apply HR, F3. apply in_app_or in Hid. apply in_or_app.
    destruct Hid as [Hid|Hid]; [left; now apply Hq|now right].
  - exact F4.
Qed.

Lemma FI_work z ok z' v : PF.Inv z -> FI z -> zwork z ok = Some (z', v) -> FI z'.
Proof.
  intros (gone & rmw & keep & Hc) HF H. pose proof Hc as [C A P K Cr S F R].
  pose proof HF as [F1 F2 F3 F4].
  pose proof (PF.cinv_dsorted _ _ _ _ Hc) as Sd.
  destruct (PF.zwork_cases _ _ _ _ H Sd F) as (Ht & Hq & Hg & _ & He & F' & Ha & Hk).
  destruct (PF.core_eqj_ok _ _ He C) as (C' & T' & R').
  destruct Hk as [(Hi & Hr)|(id & Hr & Hd & Ha' & _ & _)].
  - eapply FI_frame; [exact HF|exact Hi|now rewrite Hg|now rewrite Hg| |exact Hq|exact Ht|exact R'|exact T'].
    intros Ha2. split; [exact Ha|now apply Hr].
  - assert (HR : forall i, InRem z i -> InRem z' i) by (intros i; apply InRem_eq; now rewrite Hg).
    specialize (A Ha). rewrite Hr in A. subst rmw.
    constructor; rewrite ?Ht, ?Hq, ?Hg, ?R', ?T'.
    + intros i Hi. destruct (F1 i Hi) as [Hin|Hin]; [|right; now apply HR].
      destruct (N.eq_dec i id) as [->|Hne].
      * right. apply HR, (F2 Ha). rewrite Hr. now left.
      * left. rewrite Hd. unfold JD.ids in *. apply In_ids_remove. tauto.
    + intros _ i Hi. apply HR, (F2 Ha). rewrite Hr. now right.
    + intros i Hi. now apply HR, F3.
    + destruct F4 as (i & Hi & Hki). exists i. split; [|exact Hki].
      rewrite Hd. unfold JD.ids in *. apply In_ids_remove. split; [|exact Hi].
      apply JD.ss_suffix in S. rewrite P in S.
      cbn [app] in S. apply JD.ss_inv in S. destruct S as [_ S]. rewrite Forall_forall in S.
      assert (Hlt : id < i); [|lia]. apply S.
      rewrite <- K in Hki. rewrite !in_app_iff in *. tauto.
Qed.

Lemma FI_step z e z' v : PF.Inv z -> FI z -> zstep z e = Some (z', v) -> FI z'.
Proof.
  intros HI HF H. destruct e as [o| |k nf|ok|]; cbn [zstep] in H.
  - eapply FI_call; eauto.
  - eapply FI_eff; eauto.
  - eapply FI_recv; eauto.
  - eapply FI_work; eauto.
  - apply AF.zdrop_inv in H. destruct H as (Et & _ & ->).
    eapply FI_frame; [exact HF|reflexivity..| | | | |]; AF.zproj; auto.
Qed.

Lemma FI_init cfg : FI (AF.zstart cfg).
Proof.
  constructor; cbn.
  - intros id [<-|[]]. left. now left.
  - intros _ id [].
  - intros id [].
  - exists 0. split; [now left|]. right. now left.
Qed.

Theorem zreach_FI cfg z : zreach cfg z -> PF.Inv z /\ FI z.
Proof.
  revert z. apply (AF.zreach_ind (fun z => PF.Inv z /\ FI z)).
  - split; [exact (PF.inv_init cfg)|apply FI_init].
  - intros z e z' v [HI HF] H. split; [eapply PF.inv_zstep; eauto|eapply FI_step; eauto].
Qed.

Theorem gone_requested cfg z id : zreach cfg z -> In id (g_created (z_ghost z)) ->
  ~ In id (map f_id (z_disk z)) -> InRem z id.
Proof.
  intros Hr Hc Hn. destruct (zreach_FI cfg z Hr) as [_ HF].
  destruct (fi_gone _ HF id Hc) as [H|H]; [contradiction|exact H].
Qed.

Theorem disk_nonempty cfg z : zreach cfg z -> z_disk z <> [].
Proof.
  intros Hr E. destruct (zreach_FI cfg z Hr) as [_ HF].
  destruct (fi_ne _ HF) as (id & Hid & _). rewrite E in Hid. destruct Hid.
Qed.

(* ================================================================== closed chunks and the file that follows *)
Lemma split_ext G G' Ga (c : N) (rsc : list record) (x : N) h tl0 Gb : jext G G' ->
  G = Ga ++ (c, rsc) :: (x, h :: tl0) :: Gb ->
  exists tl' Gb', G' = Ga ++ (c, rsc) :: (x, h :: tl') :: Gb'.
Proof.
  intros (G0 & o & rs & more & new & Hne & EG & ->) E. rewrite EG in E. clear EG.
  destruct (@exists_last _ ((x, h :: tl0) :: Gb)) as (L & lastf & EL); [discriminate|].
  rewrite EL in E.
  assert (E' : G0 ++ [(o, rs)] = (Ga ++ (c, rsc) :: L) ++ [lastf]) by (rewrite E, <- app_assoc; reflexivity).
  apply app_inj_tail in E'. destruct E' as [-> <-].
  destruct L as [|l0 L'].
  - cbn [app] in EL. inversion EL; subst. exists (tl0 ++ more), new. rewrite <- app_assoc. reflexivity.
  - cbn [app] in EL. inversion EL; subst. exists tl0, (L' ++ (o, rs ++ more) :: new).
    rewrite <- app_assoc. reflexivity.
Qed.

Definition ple (a b : option logid) : Prop := opair_cmp a b <> Gt.

Definition succ_head (G : list jfile) (c : N) (st : rstate) : Prop :=
  exists Ga rsc x tl0 Gb, G = Ga ++ (c, rsc) :: (x, RState st :: tl0) :: Gb.

Lemma succ_head_ext G G' c st : jext G G' -> succ_head G c st -> succ_head G' c st.
Proof.
  intros Hx (Ga & rsc & x & tl0 & Gb & E).
  destruct (split_ext _ _ _ _ _ _ _ _ _ Hx E) as (tl' & Gb' & E'). exists Ga, rsc, x, tl', Gb'. exact E'.
Qed.

Definition QC (k : core) (G : list jfile) : Prop :=
  forall c, In c (k_closed k) -> succ_head G (PF.cid c) (cl_state c).

Definition QG (k : core) (G : list jfile) : Prop := glast k G /\ QC k G.

Lemma In_closed_insert c cl l : In c (closed_insert cl l) -> c = cl \/ In c l.
Proof.
  induction l as [|c' l IH]; simpl; [intros [H|[]]; now left|].
  destruct (N.compare (ck_id (cl_chunk cl)) (ck_id (cl_chunk c'))); simpl.
  - intros [H|H]; [now left|right; now right].
  - intros [H|H]; [now left|now right].
  - intros [H|H]; [right; now left|]. destruct (IH H); [now left|right; now right].
Qed.

Lemma purge_purged s id c seg : ple (Some id) (r_purged (m_rs (fst (sm_apply s (RPurge id) c seg)))).
Proof.
  rewrite sm_apply_purge. cbn [m_rs]. cbv zeta.
  set (s1 := if opair_ltb (r_purged (m_rs s)) (Some id) then rs_set_purged (m_rs s) (Some id) else m_rs s).
  assert (H : ple (Some id) (r_purged s1)).
  { unfold s1. destruct (opair_ltb (r_purged (m_rs s)) (Some id)) eqn:E.
    - cbn [rs_set_purged r_purged]. apply opair_eq_le.
    - apply opair_ltb_ge. exact E. }
  destruct (opair_ltb (r_last s1) (Some id)); cbn [rs_set_last r_purged]; exact H.
Qed.

Lemma QG_write k G w k' res effs : QG k G -> do_write k w = Ret (k', res, effs) ->
  let G' := gfold k (SmFacts.wrecs k w) G in
  QG k' G' /\
  (forall c, In c (k_removed k') ->
     In c (k_removed k) \/ exists st, succ_head G' c st /\ ple (r_last st) (r_purged (m_rs (k_sm k')))).
Proof.
  intros HQ H G'. subst G'.
  set (P := fun G0 k0 (_ : list eff) => QG k0 G0 /\ k_removed k0 = k_removed k).
  refine (do_write_ginv P w (aaa_ginv P w _ _ _)
            (fun G0 k0 _ => QG k0 G0 /\ forall c, In c (k_removed k0) -> In c (k_removed k) \/
               exists st, succ_head G0 c st /\ ple (r_last st) (r_purged (m_rs (k_sm k0))))
            _ _ _ _ _ _ _ (conj HQ eq_refl) H).
  - intros G0 k0 ef0 [[(G1 & rs & _ & ->) _] _]. eauto.
  - intros G0 rs k0 ef0 r sm1 [[HG0 HC] Hr0] _ _ _. split; [|exact Hr0]. split; [apply glast_record|].
    intros c Hc. eapply succ_head_ext; [|exact (HC c Hc)].
    apply jext_record. exact (glast_inv _ _ _ _ HG0 eq_refl).
  - intros G0 k0 ef0 [[HG0 HC] Hr0]. split; [|exact Hr0]. split; [apply glast_rotate|].
    pose proof HG0 as (G1 & rs & Hne & ->).
    intros c Hc. cbn [rotated k_closed] in Hc. apply In_closed_insert in Hc. destruct Hc as [->|Hc].
    + exists G1, rs, (ck_end (k_open k0)), [], []. now rewrite <- app_assoc.
    + eapply succ_head_ext; [|exact (HC c Hc)]. now apply jext_rotate.
  - intros G0 k0 ef0 [HQ0 Hr0]. split; [exact HQ0|]. intros c Hc. left. now rewrite <- Hr0.
  - (* the popped chunks were closed, and their last log id is at most [u] *)
    intros G0 k0 u k1 ef rm rest _ Hsm Ep [[HG1 HC1] Hr1].
    destruct (PF.pop_obsolete_split _ _ _ _ Ep) as (popped & E1 & E2 & E3 & _).
    split.
    + split; [exact HG1|]. intros c Hc. cbn [purged_core k_closed] in Hc. apply HC1. rewrite E1.
      apply in_or_app. now right.
    + cbn [purged_core k_removed k_sm]. intros c Hc. apply in_app_or in Hc.
      destruct Hc as [Hc|Hc]; [left; now rewrite <- Hr1|].
      right. rewrite E2 in Hc. apply in_map_iff in Hc. destruct Hc as (cl & <- & Hcl).
      exists (cl_state cl). split; [apply HC1; rewrite E1; apply in_or_app; now left|].
      rewrite Forall_forall in E3. specialize (E3 cl Hcl). apply opair_leb_le in E3.
      eapply opair_le_trans; [exact E3|]. rewrite Hsm. apply purge_purged.
Qed.

(* ================================================================== the invariant on removal requests *)
Definition rem_fact (G : list jfile) (c U : N) : Prop :=
  exists Ga rsc x st tl0 Gb n,
    G = Ga ++ (c, rsc) :: (x, RState st :: tl0) :: Gb /\
    x + rec_size (RState st) <= U /\ (n <= nb G U)%nat /\
    ple (r_last st) (sp_purged (run_recs spec0 (firstn n (jrecs G)))).

Lemma rem_fact_ext G G' c U : jext G G' -> rem_fact G c U -> rem_fact G' c U.
Proof.
  intros Hx (Ga & rsc & x & st & tl0 & Gb & n & E & Hh & Hn & Hp).
  destruct (split_ext _ _ _ _ _ _ _ _ _ Hx E) as (tl' & Gb' & E').
  destruct (jext_jrecs _ _ Hx) as [m Em]. destruct (jext_rec_ends _ _ Hx) as [m' Em'].
  exists Ga, rsc, x, st, tl', Gb', n. split; [exact E'|]. split; [exact Hh|]. split.
  - unfold nb in *. rewrite Em', filter_app, app_length. lia.
  - pose proof (nb_le_jrecs G U) as Hl. rewrite Em, firstn_app.
    replace (n - length (jrecs G))%nat with 0%nat by lia. cbn [firstn]. rewrite app_nil_r. exact Hp.
Qed.

Record RI (z : sys2) (G : list jfile) : Prop := mkRI {
  ri_closed : QC (z_core z) G;
  ri_removed : forall c, In c (k_removed (z_core z)) ->
     exists st, succ_head G c st /\ ple (r_last st) (r_purged (m_rs (k_sm (z_core z))));
  ri_us : forall l U, In (l, U) (g_removals (z_ghost z)) -> In U (AD.flushed_us z);
  ri_rem : forall l U c, In (l, U) (g_removals (z_ghost z)) -> In c l -> rem_fact G c U }.

Lemma head_end_le k cr t G x r tl0 : GI k cr t G -> In (x, r :: tl0) G ->
  x + rec_size r <= ck_end (k_open k).
Proof.
  intros Gi Hg. pose proof (GI_file_end_le _ _ _ _ _ Gi Hg) as Hle. cbn [fst snd] in Hle.
  rewrite encs_cons, app_length in Hle. unfold rec_size. lia.
Qed.

Lemma RI_frame z z' G : core_eqj (z_core z) (z_core z') ->
  g_removals (z_ghost z') = g_removals (z_ghost z) -> g_flushed (z_ghost z') = g_flushed (z_ghost z) ->
  RI z G -> RI z' G.
Proof.
  intros (_ & _ & _ & Ec & Er & Ers & _) Hr Hf [R1 R2 R3 R4].
  constructor; unfold QC, AD.flushed_us in *; rewrite ?Ec, ?Er, ?Ers, ?Hr, ?Hf; assumption.
Qed.

Lemma spec_wop_purged sp w : ple (sp_purged sp) (sp_purged (fst (spec_wop sp w))).
Proof.
  assert (One : forall sw, ple (sp_purged sp) (sp_purged (fst (spec_one sp sw)))).
  { intros sw. unfold spec_one. destruct (spec_step sp sw) as [sp'|] eqn:E; cbn [fst].
    - eapply spec_step_purged; eauto.
    - apply opair_eq_le. }
  destruct w as [v|es|i|u|id|u|st]; cbn [spec_wop]; try apply One.
  - revert sp One. induction es as [|[id p] es IH]; intros sp _; cbn [spec_append fst]; [apply opair_eq_le|].
    destruct (spec_step sp (SEntry id p)) as [sp'|] eqn:E; [|apply opair_eq_le].
    eapply opair_le_trans; [eapply spec_step_purged; eauto|]. apply IH. intros sw.
    unfold spec_one. destruct (spec_step sp' sw) as [sp''|] eqn:E'; cbn [fst];
      [eapply spec_step_purged; eauto|apply opair_eq_le].
  - apply opair_eq_le.
Qed.

Lemma RI_step z e z' v G :
  JI z G -> SP z G -> SP z' (gstep z e G) -> RI z G ->
  zstep z e = Some (z', v) -> RI z' (gstep z e G).
Proof.
  intros J HS HS' HR H.
  destruct (AF.zstep_cases _ _ _ _ H)
    as [(w & k & r & effs & -> & _ & E & ->)|[(cb & -> & _ & ->)|(Hc & _ & Hf & Hr & Hn)]]; cbn [gstep] in *.
  - destruct HR as [R1 R2 R3 R4].
    pose proof (sp_sc _ _ HS) as Hsc. pose proof (sp_sc _ _ HS') as Hsc'.
    pose proof (SC_glast _ _ _ Hsc) as HG.
    destruct (QG_write _ _ _ _ _ _ (conj HG R1) E) as [[HG' HQ'] Hrm]. cbv zeta in Hrm.
    rewrite hist_after_write, PL.spec_wops_snoc in Hsc'. unfold AF.after_write in *. AF.zproj.
    assert (Hmono : ple (r_purged (m_rs (k_sm (z_core z)))) (r_purged (m_rs (k_sm k)))).
    { rewrite (PL.R0_rs _ _ (sc_r0 _ _ _ Hsc)), (PL.R0_rs _ _ (sc_r0 _ _ _ Hsc')).
      cbn [spec_state r_purged]. apply spec_wop_purged. }
    constructor; AF.zproj.
    + exact HQ'.
    + intros c Hc. destruct (Hrm c Hc) as [Hold|Hnew]; [|exact Hnew].
      destruct (R2 c Hold) as (st & Hsh & Hp). exists st. split.
      * exact (write_ext (fun G => succ_head G c st) _ _ _ _ _ _ (fun G1 G2 Hx => succ_head_ext _ _ _ _ Hx) HG Hsh E).
      * eapply opair_le_trans; [exact Hp|exact Hmono].
    + exact R3.
    + intros l U c Hl Hc.
      exact (write_ext (fun G => rem_fact G c U) _ _ _ _ _ _ (fun G1 G2 Hx => rem_fact_ext _ _ _ _ Hx) HG (R4 l U c Hl Hc) E).
  - destruct HR as [R1 R2 R3 R4].
    pose proof (sp_sc _ _ HS) as Hsc.
    set (z' := AF.after_flush z cb).
    assert (Hfl : forall U, In U (AD.flushed_us z) -> In U (AD.flushed_us z')).
    { intros U HU. unfold AD.flushed_us, z', AF.after_flush, AF.flush_ghost. AF.zproj. rewrite map_app. apply in_or_app. now left. }
    assert (Hnew : In (ck_end (k_open (z_core z))) (AD.flushed_us z')).
    { unfold AD.flushed_us, z', AF.after_flush, AF.flush_ghost. AF.zproj. rewrite map_app. apply in_or_app. right. now left. }
    assert (Hcase : forall l U, In (l, U) (g_removals (z_ghost z')) ->
              In (l, U) (g_removals (z_ghost z)) \/
              (l = k_removed (z_core z) /\ U = ck_end (k_open (z_core z)))).
    { intros l U Hin. apply removals_after_flush in Hin. destruct Hin as [Hin|[_ Hin]]; [now left|].
      inversion Hin. now right. }
    constructor.
    + exact R1.
    + unfold z', AF.after_flush, AF.flush_ghost. AF.zproj. intros c [].
    + intros l U Hl. destruct (Hcase l U Hl) as [Hold|[-> ->]]; [apply Hfl; eapply R3; eauto|exact Hnew].
    + intros l U c Hl Hc. destruct (Hcase l U Hl) as [Hold|[-> ->]]; [eapply R4; eauto|].
      destruct (R2 c Hc) as (st & (Ga & rsc & x & tl0 & Gb & EG) & Hp).
      exists Ga, rsc, x, st, tl0, Gb, (length (jrecs G)).
      split; [exact EG|]. split; [|split].
      * eapply head_end_le; [apply (ji_gi _ _ J)|]. rewrite EG. apply in_or_app. right. right. now left.
      * now rewrite (nb_open_end _ _ _ _ (ji_gi _ _ J)).
      * rewrite firstn_all, (sc_cur _ _ _ Hsc).
        rewrite (PL.R0_rs _ _ (sc_r0 _ _ _ Hsc)) in Hp. exact Hp.
  - rewrite gstep_other by exact Hn. now apply (RI_frame z).
Qed.

Lemma RI_init cfg : RI (AF.zstart cfg) G_init.
Proof. constructor; cbn; [intros c []|intros c []|intros l U []|intros l U c []]. Qed.

Lemma hist_legal_back z e z' v : zstep z e = Some (z', v) -> PL.hist_legal z' -> PL.hist_legal z.
Proof. intros H Hl. exact (proj1 (PL.hist_legal_back _ _ _ _ H Hl)). Qed.

Theorem L2_removed : forall cfg z, zreach cfg z -> hist_wf z -> PL.hist_legal z ->
  exists G, JI z G /\ SP z G /\ RI z G.
Proof.
  intros cfg z Hr Hw Hl.
  destruct (L2_journal_ind (fun z G => PL.hist_legal z -> SP z G /\ RI z G) cfg) with (z := z)
    as (G & J & HP); try assumption.
  - intros _. split; [apply SP_init|apply RI_init].
  - intros z0 e z1 v G F J _ IH Hs Hl1.
    pose proof (hist_legal_back _ _ _ _ Hs Hl1) as Hl0. destruct (IH Hl0) as [HS HR].
    assert (HS' : SP z1 (gstep z0 e G)) by (eapply SP_step; eauto).
    split; [exact HS'|]. eapply RI_step; eauto.
  - exists G. split; [exact J|]. apply HP, Hl.
Qed.

Print Assumptions L2_removed.
