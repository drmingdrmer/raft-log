(* Two definitions whose names are fixed: [minv] is [PurgeDrain.tracks] and [Good0] is
   [PurgeDrain.live], word for word.  [RestartSys.good0_from] states the invariant of the drain under
   these names for an instance started on any directory; the proofs ([C14_drain_terminates_from]
   included, by [PurgeDrain.drain_reach]) use the definitions of PurgeDrain.v. *)
From Coq Require Import List.
From RaftLog Require Import Model.Sys.
From RaftLog Require Import Proofs.PurgeDurable Proofs.PurgeDrain.
Import ListNotations.

(* a live worker tracks at least one file, and exactly one after the loop over the older files *)
Definition minv (z : sys2) : Prop :=
  w_alive (z_w z) = true -> w_files (z_w z) <> [] /\ sync_tail (z_w z).

Definition Good0 (z : sys2) : Prop := minv z /\ nfinv z.
