(* C02, part 4: any number of clean close/open cycles. The reopened state of RestartFacts.v satisfies
   the invariant [FI] again (for every later configuration), so the argument can be
   iterated: [C02_restart_cycles] covers histories in which every restart directly follows a flush. *)
From Coq Require Import List NArith Bool Lia Arith.
From RaftLog Require Import Model.Types Model.Codec Model.Core Model.Recover Model.Run Spec.Spec Spec.Hist.
From RaftLog Require Import Proofs.Refine.
From RaftLog Require Import Proofs.JournalDisk Proofs.JournalChunk Proofs.JournalFacts.
From RaftLog Require Import Proofs.RecoverFacts.
From RaftLog Require Import Proofs.RestartSim Proofs.RestartInv Proofs.RestartFacts.
Import ListNotations.
Local Open Scope N_scope.

(* every file but the last becomes a closed chunk whose closing state is the snapshot
   heading the next file *)
Fixpoint closed_exp (G : list jfile) : list closed :=
  match G with
  | [] => []
  | g :: G' =>
    match G' with
    | [] => []
    | g' :: _ => mkClosed (chunk_of (fst g) (snd g)) (head_state (snd g')) false :: closed_exp G'
    end
  end.

Lemma closed_files_exp : forall G gl t0 t cur,
  replay_files t0 (G ++ [gl]) = (t, None) -> Chain cur (G ++ [gl]) ->
  closed_files t0 G = closed_exp (G ++ [gl]).
Proof.
  induction G as [|g G IH]; intros gl t0 t cur Hrep Hch; [reflexivity|].
  cbn [app] in Hrep. apply replay_files_cons_inv in Hrep as (t1 & Ec & Hrep).
  cbn [app Chain] in Hch. destruct Hch as [(st & tl & E1 & E2) Hch'].
  cbn [closed_files app closed_exp]. rewrite Ec. cbn [fst].
  pose proof (IH gl t1 t cur Hrep Hch') as IHg.
  destruct (G ++ [gl]) as [|g' R] eqn:EG; [destruct G; discriminate EG|].
  f_equal; [|exact IHg].
  f_equal. apply rapply_rs in Ec. rewrite E1, rs_run_head, E2 in Ec. inversion Ec. reflexivity.
Qed.

Lemma exp_bound lg : forall G, GB lg G ->
  forall c e, In c (closed_exp G) -> In e lg -> ld_chunk (snd e) = ck_id (cl_chunk c) ->
  opair_cmp (Some (ld_id (snd e))) (r_last (cl_state c)) <> Gt.
Proof.
  induction G as [|g G IH]; intros HG c e Hc He Hch; [destruct Hc|].
  cbn [GB] in HG. destruct HG as [H1 H2]. cbn [closed_exp] in Hc.
  destruct G as [|g' G']; [destruct Hc|]. destruct Hc as [Hc|Hc].
  - subst c. cbn [cl_state cl_chunk chunk_of ck_id] in *. apply H1; assumption.
  - apply (IH H2 c e Hc He Hch).
Qed.

(* the reopened store satisfies, for every later configuration [c2] and every [Q], what the store
   before the restart did *)
Lemma reopen_FJ c1 P ok c2 Q okq y sp n1 b1 n b y' :
  FJ c1 P ok y sp n1 b1 -> FJ c2 Q okq y sp n b ->
  y_queue y = [] -> k_pending (y_core y) = [] ->
  open_dir c1 (y_disk y) = OpenOk y' -> FJ c2 Q okq y' sp n b.
Proof.
  intros F1 F2 Hq Hpend Ho.
  destruct (FJ_opens c1 P ok y sp n1 b1 F1 Hq Hpend) as (y'' & G0 & o & rs & Ho' & RJ & _).
  rewrite Ho in Ho'. inversion Ho'; subst y''. clear Ho'.
  pose proof (fj_jw _ _ _ _ _ _ _ F1) as JW.
  pose proof (rj_jw _ _ _ _ _ _ RJ) as JW'. pose proof (rj_logical _ _ _ _ _ _ RJ) as El'.
  pose proof (rj_closed _ _ _ _ _ _ RJ) as Ecl.
  rewrite (closed_files_exp G0 (o, rs) _ _ _ (rj_replay _ _ _ _ _ _ RJ) (gc_chain _ _ (rj_gc _ _ _ _ _ _ RJ))) in Ecl.
  pose proof (rj_rs _ _ _ _ _ _ RJ) as Ers. pose proof (rj_log _ _ _ _ _ _ RJ) as Elog.
  assert (Ecids : closed_ids (y_core y') ++ [ck_id (k_open (y_core y'))] =
                  k_removed (y_core y) ++ closed_ids (y_core y) ++ [ck_id (k_open (y_core y))]).
  { pose proof (ji_ids _ _ _ (jw_inv _ JW')) as E. rewrite El' in E.
    rewrite (ji_ids _ _ _ (jw_inv _ JW)) in E. unfold chunk_ids in E.
    rewrite (rj_removed _ _ _ _ _ _ RJ) in E. cbn [app] in E. symmetry. exact E. }
  constructor.
  - exact JW'.
  - destruct (fj_L _ _ _ _ _ _ _ F2) as [L1 L2 L3]. constructor; rewrite ?Ers, ?Elog; assumption.
  - apply (fj_ok _ _ _ _ _ _ _ F2).
  - destruct (fj_g _ _ _ _ _ _ _ F2) as (G & Ga & Gc & Ge). exists G.
    split; [exact (GC_frame y y' G Ga El' Ers)|]. split.
    + eapply FamP_map; [exact Ers|exact Elog| |exact Gc]. auto.
    + rewrite Elog. exact Ge.
  - constructor; rewrite Elog.
    + rewrite Ecids. intros e He. apply in_or_app. right. apply (Jc_in _ (fj_Jc _ _ _ _ _ _ _ F1) e He).
    + rewrite Ecl. intros e c He Hc Hch. apply (exp_bound _ _ (rj_gb _ _ _ _ _ _ RJ) c e Hc He Hch).
Qed.

Lemma reopen_FI cfg1 cfg2 y sp n b y' :
  FI cfg1 y sp n b -> FI cfg2 y sp n b ->
  y_queue y = [] -> k_pending (y_core y) = [] ->
  open_dir cfg1 (y_disk y) = OpenOk y' -> FI cfg2 y' sp n b.
Proof.
  intros F1 F2 Hq Hpend Ho.
  destruct (reopen cfg1 y sp n b F1 Hq Hpend) as (y'' & Ho' & RO).
  rewrite Ho in Ho'. inversion Ho'; subst y''. apply FJ_Inv; [|apply (ro_inv _ _ _ _ _ _ RO)].
  apply FI_split in F1. apply FI_split in F2. apply (reopen_FJ _ _ _ _ _ _ _ _ _ _ _ _ _ (proj1 F1) (proj1 F2) Hq Hpend Ho).
Qed.

(* plain histories in which restarts are allowed, each directly preceded by a flush *)
Fixpoint ops_clean_restarts (sp : spec) (ops : list op) : bool :=
  match ops with
  | [] => true
  | o :: r =>
    match o, r with
    | OFlush _, ORestart _ :: r' => ops_clean_restarts sp r'
    | _, _ => op_plain sp o && ops_clean_restarts (spec_op sp o) r
    end
  end.

Fixpoint restart_cfgs (ops : list op) : list config :=
  match ops with
  | [] => []
  | ORestart c :: r => c :: restart_cfgs r
  | _ :: r => restart_cfgs r
  end.

Definition FIs (cs : list config) (y : sys) (sp : spec) (n b : N) : Prop :=
  Forall (fun c => FI c y sp n b) cs.

Lemma FIs_mono cs y sp n b n' b' : FIs cs y sp n b -> n' <= n -> b' <= b -> FIs cs y sp n' b'.
Proof.
  intros H Hn Hb. unfold FIs in *. eapply Forall_impl; [|exact H].
  intros a Ha. apply (FI_mono a y sp n b n' b' Ha Hn Hb).
Qed.

Lemma fis_run_op : forall c0 cs y sp o n b,
  FIs (c0 :: cs) y sp (n + N.of_nat (length (op_entries o))) (b + bytes_of (op_entries o)) ->
  op_plain sp o = true -> op_wf o ->
  exists y' r, run_op y o = (Some y', r) /\ FIs (c0 :: cs) y' (spec_op sp o) n b.
Proof.
  intros c0 cs y sp o n b HF Hp Hwf. unfold FIs in *.
  inversion HF as [|? ? H0 _]; subst.
  destruct (fi_run_op c0 y sp o n b H0 Hp Hwf) as (y' & r & Hop & _).
  exists y', r. split; [exact Hop|].
  rewrite Forall_forall in *. intros c Hc.
  destruct (fi_run_op c y sp o n b (HF c Hc) Hp Hwf) as (y'' & r' & Hop' & F').
  rewrite Hop in Hop'. inversion Hop'; subst. exact F'.
Qed.

(* a flush directly followed by a restart, for any property of states that a flush and the worker keep
   and that the reopening of a flushed idle store re-establishes *)
Lemma flush_restart (I : sys -> Prop) cb c :
  (forall y o y' r, I y -> o = OFlush cb \/ o = OIdle -> run_op y o = (Some y', r) -> I y') ->
  (forall y, I y -> y_queue y = [] -> k_pending (y_core y) = [] ->
     exists y3, open_dir c (y_disk y) = OpenOk y3 /\ I y3) ->
  forall y, I y -> exists y1 r1 y3, run_op y (OFlush cb) = (Some y1, r1) /\
    run_op y1 (ORestart c) = (Some y3, ResOpened) /\ I y3.
Proof.
  intros Hop Hre y Iy.
  destruct (run_op y (OFlush cb)) as [oy1 r1] eqn:E1.
  assert (E : exists y1, oy1 = Some y1 /\ k_pending (y_core y1) = []).
  { cbn [run_op] in E1. unfold do_flush in E1. inversion E1. eexists. split; [reflexivity|].
    rewrite SmFacts.apply_effs_core. reflexivity. }
  destruct E as (y1 & -> & Hp1).
  pose proof (Hop y _ y1 r1 Iy (or_introl eq_refl) E1) as I1.
  pose proof (Hop y1 OIdle (worker_idle y1) ResUnit I1 (or_intror eq_refl) eq_refl) as I2.
  destruct (Hre _ I2 (worker_idle_queue y1)) as (y3 & Ho & I3).
  { destruct (JournalDisk.worker_idle_core y1) as (_ & _ & E & _). rewrite E. exact Hp1. }
  exists y1, r1, y3. split; [reflexivity|]. split; [cbn [run_op]; rewrite Ho; reflexivity|exact I3].
Qed.

Lemma fis_restart : forall c0 cs y sp cb c n b,
  FIs (c0 :: cs) y sp n b -> In c (c0 :: cs) ->
  exists y1 r1 y3, run_op y (OFlush cb) = (Some y1, r1) /\
    run_op y1 (ORestart c) = (Some y3, ResOpened) /\ FIs (c0 :: cs) y3 sp n b.
Proof.
  intros c0 cs y sp cb c n b HF Hc. apply (flush_restart (fun y => FIs (c0 :: cs) y sp n b)); [| |exact HF].
  - intros y0 o y' r HF0 Ho E.
    destruct (fis_run_op c0 cs y0 sp o n b) as (y1 & r1 & E1 & HF1);
      [eapply FIs_mono; [exact HF0|destruct Ho as [-> | ->]; cbn; lia..]
      |destruct Ho as [-> | ->]; reflexivity|destruct Ho as [-> | ->]; exact I|].
    rewrite E in E1. inversion E1; subst y1 r1. destruct Ho as [-> | ->]; exact HF1.
  - intros y0 HF0 Hq Hp. unfold FIs in HF0. rewrite Forall_forall in HF0.
    destruct (reopen c y0 sp n b (HF0 c Hc) Hq Hp) as (y3 & Ho & _). exists y3. split; [exact Ho|].
    unfold FIs. rewrite Forall_forall. intros c2 Hc2.
    apply (reopen_FI c c2 y0 sp n b y3 (HF0 c Hc) (HF0 c2 Hc2) Hq Hp Ho).
Qed.

Lemma restart_cfgs_cons_incl o r c : In c (restart_cfgs r) -> In c (restart_cfgs (o :: r)).
Proof. intros H. destruct o; cbn [restart_cfgs]; try exact H. right. exact H. Qed.

(* induction over a history in which a flush directly followed by a restart is one step *)
Lemma clean_restart_ind (Q : list op -> Prop) :
  Q [] ->
  (forall o r, (forall cb c r', o :: r <> OFlush cb :: ORestart c :: r') -> Q r -> Q (o :: r)) ->
  (forall cb c r, Q r -> Q (OFlush cb :: ORestart c :: r)) ->
  forall ops, Q ops.
Proof.
  intros H0 H1 H2 ops.
  assert (G : forall m ops, (length ops <= m)%nat -> Q ops).
  { induction m as [|m IH]; intros l Hl; (destruct l as [|o r]; [exact H0|]); cbn [length] in Hl.
    - inversion Hl.
    - apply le_S_n in Hl.
      destruct o; try (apply H1; [intros; discriminate|apply IH, Hl]).
      destruct r as [|o2 r']; [apply H1; [intros; discriminate|apply IH, Hl]|].
      destruct o2; try (apply H1; [intros; discriminate|apply IH, Hl]).
      apply H2, IH. cbn [length] in Hl. apply Nat.lt_le_incl, Hl. }
  apply (G (length ops)), le_n.
Qed.

Lemma ops_clean_restarts_cons sp o r : (forall cb c r', o :: r <> OFlush cb :: ORestart c :: r') ->
  ops_clean_restarts sp (o :: r) = op_plain sp o && ops_clean_restarts (spec_op sp o) r.
Proof.
  intros H. destruct o; try reflexivity. destruct r as [|o2 r']; [reflexivity|].
  destruct o2; try reflexivity. exfalso. eapply H. reflexivity.
Qed.

Lemma fis_run_ops : forall ops c0 cs y sp res fin n b,
  FIs (c0 :: cs) y sp (n + N.of_nat (length (Hist.appended ops))) (b + appended_bytes ops) ->
  (forall c, In c (restart_cfgs ops) -> In c (c0 :: cs)) ->
  ops_clean_restarts sp ops = true -> Forall op_wf ops -> run_ops y ops = (res, fin) ->
  exists y', fin = Some y' /\ FIs (c0 :: cs) y' (spec_ops sp ops) n b.
Proof.
  intros ops. induction ops as [|o r Hne IH|cb c r IH] using clean_restart_ind;
    intros c0 cs y sp res fin n b HF Hcs Hp Hwf Hrun.
  - cbn [run_ops] in Hrun. inversion Hrun. subst. exists y. split; [reflexivity|].
    eapply FIs_mono; [exact HF|lia|lia].
  - rewrite (ops_clean_restarts_cons sp o r Hne) in Hp.
    apply andb_true_iff in Hp. destruct Hp as [Hp1 Hp2].
    inversion Hwf as [|? ? Hw1 Hw2]; subst.
    destruct (fis_run_op c0 cs y sp o (n + N.of_nat (length (Hist.appended r))) (b + appended_bytes r))
      as (y' & r0 & Hop & F'); [|exact Hp1|exact Hw1|].
    { unfold FIs in *. eapply Forall_impl; [|exact HF]. intros a. apply (P_cons (FI a) (FI_mono a)). }
    cbn [run_ops] in Hrun. rewrite Hop in Hrun.
    destruct (run_ops y' r) as [rs fin'] eqn:Er. inversion Hrun. subst.
    apply (IH c0 cs y' (spec_op sp o) rs fin n b F'); try assumption.
    intros c Hc. apply Hcs. apply restart_cfgs_cons_incl. exact Hc.
  - cbn [ops_clean_restarts] in Hp.
    inversion Hwf as [|? ? _ Hwf1]; subst. inversion Hwf1 as [|? ? _ Hwf2]; subst.
    assert (Hc : In c (c0 :: cs)) by (apply Hcs; cbn [restart_cfgs]; left; reflexivity).
    destruct (fis_restart c0 cs y sp cb c _ _ HF Hc) as (y1 & r1 & y3 & Hop1 & Hop2 & F3).
    cbn [run_ops] in Hrun. rewrite Hop1 in Hrun. cbv beta iota in Hrun.
    rewrite Hop2 in Hrun. cbv beta iota in Hrun.
    destruct (run_ops y3 r) as [rs3 fin3] eqn:Er3. cbv beta iota in Hrun.
    inversion Hrun; subst. clear Hrun.
    apply (IH c0 cs y3 sp rs3 fin n b F3); try assumption.
    intros c1 Hc1. apply Hcs. cbn [restart_cfgs]. right. exact Hc1.
Qed.

(* any number of clean close/open cycles, under changing chunk and cache limits *)
Theorem C02_restart_cycles : forall cfg ops res fin,
  ops_clean_restarts spec0 ops = true -> Forall op_wf ops ->
  big_cache cfg ops -> (forall c, In c (restart_cfgs ops) -> big_cache c ops) ->
  run_case cfg ops = (res, fin) ->
  exists y, fin = Some y /\ observes y (spec_ops spec0 ops).
Proof.
  intros cfg ops res fin Hp Hwf [B1 B2] Hcs Hrun.
  unfold run_case in Hrun. rewrite JournalFacts.open_dir_nil in Hrun.
  assert (F0 : FIs (cfg :: restart_cfgs ops) (sys0 cfg) spec0
                   (0 + N.of_nat (length (Hist.appended ops))) (0 + appended_bytes ops)).
  { unfold FIs. rewrite Forall_forall. intros c [Hc|Hc].
    - subst c. apply FI_init; lia.
    - destruct (Hcs c Hc) as [C1 C2]. apply FI_init; lia. }
  destruct (fis_run_ops ops cfg (restart_cfgs ops) (sys0 cfg) spec0 res fin 0 0 F0)
    as (y & E & F); try assumption.
  - intros c Hc. right. exact Hc.
  - exists y. split; [exact E|]. unfold FIs in F. inversion F as [|? ? Fc _]; subst.
    eapply Inv_observes. apply (FI_Inv _ _ _ _ _ Fc).
Qed.

(* the hypotheses are satisfiable: rotation, purge with chunk removal, two restarts
   under different limits *)
Example C02_cycles_inhabited :
  let cfg := mkConfig 10 100 2 64 true in
  let cfg1 := mkConfig 20 200 3 1000 false in
  let cfg2 := mkConfig 10 100 1 50 true in
  let ops := [OW (OVote (1, 1)); OW (OAppend [((1, 0), []); ((1, 1), []); ((1, 2), [])]);
              OFlush true; ORestart cfg1;
              OW (OPurge (1, 0)); OW (OTruncate 2); OW (OAppend [((2, 2), [])]);
              OFlush false; ORestart cfg2; ORead 0 10; OW (OCommit (2, 2)); OFlush true; OIdle] in
  ops_clean_restarts spec0 ops = true /\ big_cache cfg ops /\
  (forall c, In c (restart_cfgs ops) -> big_cache c ops) /\
  exists res y, run_case cfg ops = (res, Some y) /\
    map fst (sp_entries (spec_ops spec0 ops)) = [(1, 1); (2, 2)].
Proof.
  cbv zeta. split; [vm_compute; reflexivity|]. split; [split; vm_compute; intros H; discriminate H|].
  split.
  - intros c Hc. cbn [restart_cfgs] in Hc. destruct Hc as [Hc|[Hc|[]]]; subst c;
      split; vm_compute; intros H; discriminate H.
  - (* nothing is claimed of [res] and [y]: asked only whether the run ends in a state, the kernel's
       lazy machine does not normalise them *)
    set (r := run_case _ _).
    assert (H : match snd r with Some _ => true | None => false end = true) by (vm_compute; reflexivity).
    clearbody r. destruct r as [res [y|]]; [|discriminate H].
    exists res, y. split; [reflexivity|vm_compute; reflexivity].
Qed.

Print Assumptions C02_restart_cycles.
