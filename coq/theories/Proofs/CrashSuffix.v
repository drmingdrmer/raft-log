(* C03, stage C (no system here): replaying a SUFFIX of the journal. When older chunk files have been
   removed, recovery replays only the files that are left, from the empty state machine. Every file
   starts with the snapshot of the Raft state, so the Raft state of the suffix replay equals that of the
   full replay, and its index map is that of the full replay restricted to the entries stored in the
   replayed files ([Rel]). If at the end the purged id is at least the last log id in the snapshot heading
   the first replayed file, no entry lives in a skipped file and the index maps are equal ([suffix_replay]). *)
From Coq Require Import List NArith Lia Sorting.Sorted.
From RaftLog Require Import Model.Types Model.Codec Model.Cache Model.Core
  Model.Recover Spec.Spec.
From RaftLog Require Import Proofs.JournalChunk Proofs.OrderFacts Proofs.SmFacts
  Proofs.Refine.
From RaftLog Require Proofs.JournalDisk.
From RaftLog Require Import Proofs.CrashSpec.
Import ListNotations.
Local Open Scope N_scope.
Local Arguments enc_record : simpl never.

Lemma spec_step_purged sp w sp' : spec_step sp w = Some sp' ->
  opair_cmp (sp_purged sp) (sp_purged sp') <> Gt.
Proof.
  intros H. destruct w as [v|id p|i|u|id|u]; cbn [spec_step] in H.
  - destruct (ovote_accepts (sp_vote sp) v); inversion H; subst; apply opair_eq_le.
  - match type of H with (if ?c then _ else _) = _ => destruct c end; inversion H; subst; apply opair_eq_le.
  - match type of H with (if ?c then _ else _) = _ => destruct c end; inversion H; subst; apply opair_eq_le.
  - destruct (N.ltb (lid_index u) (next_index (sp_purged sp))).
    { inversion H; subst. apply opair_eq_le. }
    destruct (N.eqb (lid_index u) U64MAX); [discriminate|]. inversion H; subst. cbn [sp_purged].
    destruct (opair_ltb (sp_purged sp) (Some u)) eqn:E.
    + apply opair_lt_le. apply opair_ltb_lt. exact E.
    + apply opair_eq_le.
  - destruct (opair_leb (sp_committed sp) (Some id)); inversion H; subst; apply opair_eq_le.
  - inversion H; subst. apply opair_eq_le.
Qed.

Lemma spec_apply_purged sp w : opair_cmp (sp_purged sp) (sp_purged (spec_apply sp w)) <> Gt.
Proof.
  unfold spec_apply. destruct (spec_step sp w) as [sp'|] eqn:E.
  - eapply spec_step_purged; eauto.
  - apply opair_eq_le.
Qed.

Lemma run_recs_purged rs : forall sp, opair_cmp (sp_purged sp) (sp_purged (run_recs sp rs)) <> Gt.
Proof.
  induction rs as [|r rs IH]; intros sp; [apply opair_eq_le|].
  change (run_recs sp (r :: rs)) with (run_recs (spec_apply sp (sw_of r)) rs).
  eapply opair_le_trans; [apply spec_apply_purged|apply IH].
Qed.

Record Rel (lo : N) (s t : sm) : Prop := mkRel {
  rel_rs : m_rs t = m_rs s;
  rel_log : m_log t = filter (RS.in_chunks lo) (m_log s) }.

Lemma append_key_max s sp id p sp' : PL.R0 s sp -> spec_step sp (SEntry id p) = Some sp' ->
  forall e, In e (m_log s) -> fst e < lid_index id.
Proof.
  intros HR E. destruct (spec_entry_inv _ _ _ _ E) as (_ & Hlt & Hidx & _).
  exact (proj2 (entry_above s sp id p (proj1 (PL.R0_Rlog _ _) HR) Hlt Hidx)).
Qed.

Lemma rel_step lo s t sp r sp' c seg :
  PL.R0 s sp -> rec_ok sp r -> spec_step sp (sw_of r) = Some sp' -> Rel lo s t -> lo <= c ->
  Rel lo (fst (sm_apply s r c seg)) (fst (sm_apply t r c seg)) /\
  snd (sm_apply t r c seg) = None.
Proof.
  intros HR Hok E [Hrs Hlog] Hlo.
  pose proof (rec_sim s sp r HR Hok) as HS. unfold PL.step_sim0 in HS. rewrite E in HS.
  destruct HS as (_ & Hv & _).
  split; [|rewrite sm_apply_eq; unfold rs_apply; rewrite Hrs, Hv; reflexivity].
  destruct (RS.rel_step lo s t r c seg Hrs Hlog) as [A B]; [|constructor; assumption].
  intros id p ->. split; [exact Hlo|exact (append_key_max s sp id p sp' HR E)].
Qed.

Lemma replay_rel lo : forall rs s t sp id start,
  lo <= id -> PL.R0 s sp -> recs_ok sp rs -> Rel lo s t ->
  exists s1 t1, RS.rapply s id start rs = (s1, None) /\ RS.rapply t id start rs = (t1, None) /\
                PL.R0 s1 (run_recs sp rs) /\ Rel lo s1 t1.
Proof.
  induction rs as [|r rs IH]; intros s t sp id start Hlo HR Hok HRel.
  - exists s, t. split; [reflexivity|]. split; [reflexivity|]. split; [exact HR|exact HRel].
  - simpl in Hok. destruct Hok as (Hr & sp' & E & Hrest).
    pose proof (rec_sim s sp r HR Hr) as HS. unfold PL.step_sim0 in HS. rewrite E in HS.
    destruct HS as (_ & Hv & HR').
    destruct (rel_step lo s t sp r sp' id (start, rec_size r) HR Hr E HRel Hlo) as [HRel' Hnt].
    rewrite !RS.rapply_cons. specialize (HR' id (start, rec_size r)).
    destruct (sm_apply s r id (start, rec_size r)) as [s2 oe] eqn:Ea.
    destruct (sm_apply_ok _ _ _ _ _ _ Hv Ea) as [-> _].
    destruct (sm_apply t r id (start, rec_size r)) as [t2 oet] eqn:Eat.
    cbn [fst snd] in *. subst oet.
    destruct (IH s2 t2 sp' id (start + rec_size r) Hlo HR' Hrest HRel') as (s1 & t1 & H1 & H2 & H3 & H4).
    exists s1, t1. split; [exact H1|]. split; [exact H2|]. split; [|exact H4].
    change (run_recs sp (r :: rs)) with (run_recs (spec_apply sp (sw_of r)) rs).
    unfold spec_apply. now rewrite E.
Qed.

(* a file starts with the snapshot: only the index maps need to be related before it *)
Lemma chunk_rel lo s t sp id tl :
  lo <= id -> PL.R0 s sp -> recs_ok sp tl -> m_log t = filter (RS.in_chunks lo) (m_log s) ->
  exists s1 t1, RS.chunk_replay s (id, RState (spec_state sp) :: tl) = (s1, None) /\
                RS.chunk_replay t (id, RState (spec_state sp) :: tl) = (t1, None) /\
                PL.R0 s1 (run_recs sp tl) /\ Rel lo s1 t1.
Proof.
  intros Hlo HR Hok Hlog.
  change (RS.chunk_replay ?u (id, ?rs)) with (RS.rapply (RS.chunk_pre u) id id rs). rewrite !RS.rapply_cons.
  assert (Ea : forall u, sm_apply (RS.chunk_pre u) (RState (spec_state sp)) id
                 (id, rec_size (RState (spec_state sp))) =
               (mkSM (spec_state sp) (m_log u)
                     (cache_set_evictable (m_cache u) (r_last (m_rs u))), None)) by reflexivity.
  rewrite !Ea.
  apply replay_rel; [exact Hlo| |exact Hok|].
  - eapply PL.R0_same; [exact HR|reflexivity|reflexivity|reflexivity|reflexivity].
  - constructor; [reflexivity|exact Hlog].
Qed.

Lemma chunk_pre_log t : m_log (RS.chunk_pre t) = m_log t.
Proof. reflexivity. Qed.

Lemma files_rel lo : forall G s t sp,
  (forall x, In x (map fst G) -> lo <= x) -> PL.R0 s sp -> files_ok sp G -> Rel lo s t ->
  exists s1 t1, RS.replay_files s G = (s1, None) /\ RS.replay_files t G = (t1, None) /\
                PL.R0 s1 (run_recs sp (jrecs G)) /\ Rel lo s1 t1.
Proof.
  induction G as [|[id rs] G IH]; intros s t sp Hlo HR Hok HRel.
  - exists s, t. split; [reflexivity|]. split; [reflexivity|]. split; [exact HR|exact HRel].
  - simpl in Hok. destruct Hok as (tl & E & Hr & HG). subst rs.
    destruct (chunk_rel lo s t sp id tl (Hlo id (or_introl eq_refl)) HR Hr (rel_log _ _ _ HRel))
      as (s1 & t1 & E1 & E2 & HR1 & HRel1).
    cbn [RS.replay_files]. rewrite E1, E2.
    destruct (IH s1 t1 _ (fun x Hx => Hlo x (or_intror Hx)) HR1 HG HRel1) as (s2 & t2 & E3 & E4 & HR2 & HRel2).
    exists s2, t2. split; [exact E3|]. split; [exact E4|]. split; [|exact HRel2].
    unfold jrecs. cbn [flat_map snd List.tl]. fold (jrecs G). now rewrite run_recs_app.
Qed.

Lemma Rel_refl s : Rel 0 s s.
Proof.
  constructor; [reflexivity|]. symmetry. apply filter_all_true. intros e _. apply N.leb_le, N.le_0_l.
Qed.

Lemma replay_files_spec G t sp : PL.R0 t sp -> files_ok sp G ->
  exists t1, RS.replay_files t G = (t1, None) /\ PL.R0 t1 (run_recs sp (jrecs G)).
Proof.
  intros HR Hok.
  destruct (files_rel 0 G t t sp (fun x _ => N.le_0_l x) HR Hok (Rel_refl t)) as (s1 & _ & E & _ & H & _).
  eauto.
Qed.

Lemma replay_files_chunks G t t1 : RS.replay_files t G = (t1, None) ->
  forall e, In e (m_log t1) -> In e (m_log t) \/ In (ld_chunk (snd e)) (map fst G).
Proof.
  intros H e He. destruct (RS.replay_files_points _ _ _ H e He) as [Hi|(g & Hg & Hc & _)]; [now left|right].
  rewrite Hc. now apply in_map.
Qed.

(* [A]: the files that have been removed; [(lo, rs0) :: P1]: the files replayed.  If the
   purged id at the end is at least the last log id at the end of [A], the replay of
   the suffix from the empty state machine yields the reference state of the whole
   journal. *)
Theorem suffix_replay cfg' A lo rs0 P1 s1 :
  files_ok spec0 (A ++ (lo, rs0) :: P1) ->
  (forall a, In a (map fst A) -> a < lo) ->
  (forall x, In x (map fst P1) -> lo <= x) ->
  RS.replay_files (sm_new cfg') ((lo, rs0) :: P1) = (s1, None) ->
  opair_cmp (sp_last (run_recs spec0 (jrecs A)))
            (sp_purged (run_recs spec0 (jrecs (A ++ (lo, rs0) :: P1)))) <> Gt ->
  PL.R0 s1 (run_recs spec0 (jrecs (A ++ (lo, rs0) :: P1))).
Proof.
  intros Hf HA HP Hrep Hpg.
  apply files_ok_app in Hf. destruct Hf as [HfA HfP].
  rewrite jrecs_app, run_recs_app in *.
  set (spA := run_recs spec0 (jrecs A)) in *.
  destruct (replay_files_spec A (sm_new cfg') spec0 (R0_new cfg') HfA) as (tA & EA & HRA).
  fold spA in HRA.
  assert (HchA : forall e, In e (m_log tA) -> ld_chunk (snd e) < lo).
  { intros e He. destruct (replay_files_chunks _ _ _ EA e He) as [[]|Hi]. now apply HA. }
  cbn [files_ok snd] in HfP. destruct HfP as (tl & E0 & Hr0 & HfP1). subst rs0.
  assert (Hlog0 : m_log (sm_new cfg') = filter (RS.in_chunks lo) (m_log tA)).
  { cbn [sm_new m_log]. symmetry. apply filter_all_false. intros e He. unfold RS.in_chunks.
    apply N.leb_gt. now apply HchA. }
  destruct (chunk_rel lo tA (sm_new cfg') spA lo tl (N.le_refl _) HRA Hr0 Hlog0)
    as (s2 & t2 & E1 & E2 & HR2 & HRel2).
  destruct (files_rel lo P1 s2 t2 _ HP HR2 HfP1 HRel2) as (s3 & t3 & E3 & E4 & HR3 & HRel3).
  cbn [RS.replay_files] in Hrep. rewrite E2, E4 in Hrep. inversion Hrep; subst t3. clear Hrep.
  assert (Ej : jrecs ((lo, RState (spec_state spA) :: tl) :: P1) = tl ++ jrecs P1) by reflexivity.
  rewrite Ej, run_recs_app in *.
  set (sp := run_recs (run_recs spA tl) (jrecs P1)) in *.
  (* every entry of the full replay is stored in a replayed file *)
  assert (Hall : forall e, In e (m_log s3) -> RS.in_chunks lo e = true).
  { intros e He. unfold RS.in_chunks. apply N.leb_le.
    destruct (replay_files_chunks _ _ _ E3 e He) as [Hi|Hi]; [|now apply HP].
    destruct (RS.rapply_points _ _ _ _ E1 e Hi) as [Hj|[Hj _]]; [|cbn [fst] in Hj; lia].
    exfalso. rewrite chunk_pre_log in Hj.
    pose proof (PL.R0_entry_le_last tA spA e HRA Hj) as H1.
    rewrite (PL.R0_rs _ _ HRA) in H1. cbn [spec_state r_last] in H1.
    destruct (PL.log_key_in0 s3 sp e HR3 He) as (b & Hb & _ & Hid).
    destruct (PL.R0_purged _ _ HR3 b Hb) as [H2 _]. rewrite <- Hid in H2.
    eapply opair_lt_not_ge; [exact H2|]. eapply opair_le_trans; [exact H1|exact Hpg]. }
  eapply PL.R0_same; [exact HR3|reflexivity|reflexivity| |].
  - rewrite (rel_log _ _ _ HRel3). now apply filter_all_true.
  - rewrite (rel_rs _ _ _ HRel3). apply (PL.R0_rs _ _ HR3).
Qed.

Print Assumptions suffix_replay.

Lemma recovered_gen cfg' A P s1 :
  files_ok spec0 (A ++ P) -> StronglySorted N.lt (map fst (A ++ P)) ->
  RS.replay_files (sm_new cfg') P = (s1, None) ->
  (A <> [] -> P <> [] /\
     opair_cmp (sp_last (run_recs spec0 (jrecs A))) (sp_purged (run_recs spec0 (jrecs (A ++ P)))) <> Gt) ->
  PL.R0 s1 (run_recs spec0 (jrecs (A ++ P))).
Proof.
  intros Hf Hs Hrep HA. destruct A as [|a0 A0].
  - cbn [app] in *. destruct (replay_files_spec P (sm_new cfg') spec0 (R0_new cfg') Hf) as (t1 & E1 & H1).
    rewrite Hrep in E1. inversion E1; subst t1. exact H1.
  - destruct (HA ltac:(discriminate)) as [HP Hpg]. destruct P as [|[lo rs0] P1]; [congruence|].
    rewrite map_app in Hs.
    apply (suffix_replay cfg' (a0 :: A0) lo rs0 P1 s1 Hf).
    + intros a Ha. apply (proj2 (proj2 (JournalDisk.ss_app_inv _ _ Hs)) a lo Ha). now left.
    + intros x Hx. apply (JournalDisk.ss_head_le lo (map fst P1)); [|now right]. apply (JournalDisk.ss_suffix _ _ Hs).
    + exact Hrep.
    + exact Hpg.
Qed.

Lemma recovered_cut cfg' A Go o recs j s1 :
  files_ok spec0 (A ++ Go ++ [(o, recs)]) ->
  StronglySorted N.lt (map fst (A ++ Go ++ [(o, recs)])) ->
  RS.replay_files (sm_new cfg') (Go ++ [(o, firstn j recs)]) = (s1, None) ->
  (A <> [] -> (Go <> [] \/ (1 <= j)%nat) /\
     opair_cmp (sp_last (run_recs spec0 (jrecs A)))
               (sp_purged (run_recs spec0 (jrecs (A ++ Go ++ [(o, firstn j recs)])))) <> Gt) ->
  PL.R0 s1 (run_recs spec0 (jrecs (A ++ Go ++ [(o, firstn j recs)]))).
Proof.
  intros Hf Hs Hrep HA.
  assert (Hids : map fst (A ++ Go ++ [(o, firstn j recs)]) = map fst (A ++ Go ++ [(o, recs)])).
  { rewrite !map_app. reflexivity. }
  destruct j as [|j'].
  - cbn [firstn] in *.
    assert (Ej : jrecs (A ++ Go ++ [(o, @nil record)]) = jrecs (A ++ Go)).
    { rewrite app_assoc, jrecs_last. apply app_nil_r. }
    rewrite Ej in *.
    apply RS.replay_files_snoc_inv in Hrep. destruct Hrep as (t1 & Hr1 & Hr2).
    change (RS.chunk_replay t1 (o, [])) with (RS.chunk_pre t1, @None err) in Hr2. inversion Hr2; subst s1.
    rewrite app_assoc in Hf. apply files_ok_app in Hf. destruct Hf as [Hf _].
    assert (Hs' : StronglySorted N.lt (map fst (A ++ Go))).
    { rewrite app_assoc, map_app in Hs. apply JournalDisk.ss_app_inv in Hs. apply Hs. }
    eapply R0_eq; [| |apply (recovered_gen cfg' A Go t1 Hf Hs' Hr1)]; try reflexivity.
    intros HAne. destruct (HA HAne) as [[HG|HG] Hp]; [|lia]. split; assumption.
  - assert (Hf' : files_ok spec0 (A ++ Go ++ [(o, firstn (S j') recs)])).
    { rewrite app_assoc in *. apply files_ok_cut; [exact Hf|lia]. }
    apply (recovered_gen cfg' A _ s1 Hf'); [now rewrite Hids|exact Hrep|].
    intros HAne. destruct (HA HAne) as [_ Hp]. split; [destruct Go; discriminate|exact Hp].
Qed.
