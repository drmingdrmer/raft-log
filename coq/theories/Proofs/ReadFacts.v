(* Property C07: reads are independent of cache limits and worker progress.  False for the
   code in general (finding F2: C07_refuted_live), and still false when only appends at or below
   the boundary IN FORCE are excluded (C07_reads_total_outside_known_refuted).  The invariant
   [I7] of ReadInv.v is preserved by every operation of a history in which no append is at or
   below a boundary in force or pending ([HB], [run_ok_c07b]); under [I7] every index entry loads
   its own payload ([load_ok]), so the reads are the reference log's ([I7_observes]). *)
From Coq Require Import List NArith Bool Lia.
From Coq.Strings Require Import Byte.
From RaftLog Require Import Model.Types Model.Codec Model.Cache Model.Core Model.Recover Model.Run Spec.Spec Spec.Hist.
From RaftLog Require Proofs.CacheFacts Proofs.NoPanic.
From RaftLog Require Import Proofs.JournalDisk Proofs.JournalChunk Proofs.JournalFacts Proofs.PurgeFacts.
From RaftLog Require Import Proofs.OrderFacts Proofs.SmFacts Proofs.Refine Proofs.PurgeLive Proofs.ReadCache Proofs.ReadInv.
Import ListNotations.
Local Open Scope N_scope.

Lemma I7_popped : forall y1 sp1 u rm rest, I7 y1 sp1 ->
  opair_cmp (Some u) (sp_purged sp1) <> Gt ->
  pop_obsolete u (k_closed (y_core y1)) = (rm, rest) ->
  I7 (with_core y1 (purged_core (y_core y1) rm rest)) sp1.
Proof.
  intros y1 sp1 u rm rest [(HR & HJ & Hk) JW HPL HC HEB HML] Hu Ep.
  constructor.
  - exact (KInv_pop _ _ u rm rest (conj HR (conj HJ Hk)) Hu Ep).
  - apply (jw_purged y1 u rm rest JW Ep).
  - assert (El : logical (with_core y1 (purged_core (y_core y1) rm rest)) = logical y1).
    { rewrite !logical_eq. reflexivity. }
    intros i ld p Hl Hp Hin. rewrite El in *. apply (HPL i ld p Hl Hp Hin).
  - exact HC.
  - exact HEB.
  - exact HML.
Qed.

Definition append_above_bounds (y : sys) (w : wop) : bool :=
  match w with
  | OAppend es => forallb (fun e => forallb (fun b => opair_ltb b (Some (fst e))) (bounds y)) es
  | _ => true
  end.

(* the boundaries stay below the entries [es] still to be appended, or below the last log id *)
Definition HB (y : sys) (es : list (logid * payload)) : Prop :=
  forall b, In b (bounds y) ->
    (forall e, In e es -> opair_cmp b (Some (fst e)) = Lt) \/
    opair_cmp b (r_last (m_rs (k_sm (y_core y)))) <> Gt.

Lemma validate_last_lt : forall rs (id : logid) p, rs_validate rs (RAppend id p) = None ->
  opair_cmp (r_last rs) (Some id) = Lt.
Proof.
  intros rs id p H. apply entry_validate in H. apply andb_true_iff in H. destruct H as [H _].
  apply opair_ltb_lt. exact H.
Qed.

Lemma issues_entries k w r : issues k w r ->
  match r with RAppend id p => In (id, p) (op_entries (OW w)) | _ => op_entries (OW w) = [] end.
Proof. intros [v|es id p Hi|i|i d _|u|id|u|st]; try reflexivity. exact Hi. Qed.

Lemma I7_rec y w sp r sw k' res ef : wop_wf w ->
  I7 y sp -> HB y (op_entries (OW w)) ->
  issues (y_core y) w r -> rec_sw sp r sw ->
  append_and_apply (y_core y) r = Ret (k', res, ef) ->
  (I7 (commit y k' ef) (fst (spec_one sp sw)) /\ HB (commit y k' ef) (op_entries (OW w))) /\
  res_agrees res (snd (spec_one sp sw)).
Proof.
  intros Hw HI HBy Hin HJ Ha. pose proof (issues_entries _ _ _ Hin) as Hes.
  pose proof (issues_wf y w r (i_jw _ _ HI) Hw Hin) as Hr.
  assert (Hab : forall id p, r = RAppend id p -> rs_validate (m_rs (k_sm (y_core y))) r = None -> above y id).
  { intros id p -> Hv b Hb. destruct (HBy b Hb) as [H1|H1]; [exact (H1 (id, p) Hes)|].
    exact (opair_le_lt_trans _ _ _ H1 (validate_last_lt _ _ _ Hv)). }
  destruct (I7_record y sp r sw k' res ef HI Hr HJ Hab Ha) as (HI1 & Hag & Hb1).
  split; [split; [exact HI1|]|exact Hag].
  intros b Hb. unfold commit in Hb |- *. rewrite apply_effs_core. cbn [with_core y_core].
  destruct (Hb1 b Hb) as [Hb0| ->]; [|right; apply opair_eq_le].
  destruct HJ as [v|id|u|id p|o Ho|u Hleg E1]; try (left; rewrite Hes; intros e []).
  (* an entry: refused, nothing has changed; accepted, it is the last log id and above the old boundaries *)
  unfold spec_one in HI1, Hag. destruct (spec_step sp (SEntry id p)) as [sp1|] eqn:Es; cbn [fst snd] in HI1, Hag.
  - right. destruct (entry_fresh _ _ _ _ _ (proj1 (i_k _ _ HI)) Es) as (-> & _).
    pose proof (R0_rs _ _ (proj1 (i_k _ _ HI1))) as Ers. unfold commit in Ers. rewrite apply_effs_core in Ers.
    cbn [with_core y_core] in Ers. rewrite Ers. cbn [spec_state r_last]. rewrite sp_last_olast. cbn [sp_entries sp_purged]. rewrite olast_snoc. cbn [fst].
    apply opair_lt_le. apply (Hab id p eq_refl); [|exact Hb0].
    apply append_and_apply_steps in Ha as [(_ & _ & e & ->)|(sm1 & Hv & _)]; [discriminate Hag|exact Hv].
  - apply append_and_apply_steps in Ha as [(-> & _)|(sm1 & _ & _ & -> & _)]; [exact (HBy b Hb0)|discriminate Hag].
Qed.

Lemma I7_do_write : forall y sp w k' r effs,
  I7 y sp -> wop_wf w -> wop_legal sp w = true -> append_above_bounds y w = true ->
  do_write (y_core y) w = Ret (k', r, effs) ->
  I7 (apply_effs (with_core y k') effs) (fst (spec_wop sp w)).
Proof.
  intros y sp w k' r effs HI Hw Hleg Hab H.
  refine (proj1 (proj1 (do_write_sim_gen
                   (fun k effs sp _ _ => I7 (commit y k effs) sp /\ HB (commit y k effs) (op_entries (OW w)))
                   (fun _ _ _ _ _ _ _ H _ _ => H) w _ _ _ (y_core y) sp 0 0 k' r effs _ Hleg H))).
  - intros k effs0 sp0 _ _ [HI0 _]. rewrite <- (commit_core y k effs0). exact (proj1 (R0_Rlog _ _) (proj1 (i_k _ _ HI0))).
  - intros k effs0 sp0 _ _ r0 sw k1 res ef Hin HJ HQ Ha. rewrite <- (commit_commit y k effs0 k1 ef).
    rewrite <- (commit_core y k effs0) in Hin, Ha.
    assert (HQ0 : I7 (commit y k effs0) sp0 /\ HB (commit y k effs0) (op_entries (OW w))) by (destruct r0; exact HQ).
    exact (I7_rec _ w _ _ _ _ _ _ Hw (proj1 HQ0) (proj2 HQ0) Hin HJ Ha).
  - intros k effs0 sp0 _ _ u ids rest [HI0 HB0] Hu Ep. rewrite <- (commit_core y k effs0) in Ep.
    pose proof (I7_popped _ _ u ids rest HI0 Hu Ep) as HI1. rewrite commit_core in HI1.
    unfold commit in *. rewrite apply_effs_with_core in *. rewrite with_core_with_core in HI1.
    split; [exact HI1|]. intros b Hb. exact (HB0 b Hb).
  - rewrite commit_nil. split; [exact HI|]. intros b Hb. left. intros e He.
    destruct w as [v|es|i|u|id|u|st]; try destruct He. cbn [append_above_bounds op_entries] in Hab, He.
    rewrite forallb_forall in Hab. specialize (Hab e He). rewrite forallb_forall in Hab.
    apply opair_ltb_lt. apply (Hab b Hb).
Qed.

Lemma flush_sys : forall y cb,
  let y' := apply_effs (with_core y (fst (do_flush (y_core y) cb))) (snd (do_flush (y_core y) cb)) in
  y_disk y' = y_disk y /\ y_files y' = y_files y /\
  flat_map req_fb (y_queue y') = flat_map req_fb (y_queue y) /\
  k_sm (y_core y') = k_sm (y_core y) /\ k_open (y_core y') = k_open (y_core y) /\
  k_closed (y_core y') = k_closed (y_core y).
Proof.
  intros y cb y'. unfold y'. rewrite apply_effs_core. unfold do_flush. cbn [fst snd].
  destruct (k_removed (y_core y)) as [|a l];
    cbn [apply_effs fold_left apply_eff with_core y_core y_disk y_files y_queue y_acks k_sm k_open k_closed];
    rewrite ?flat_map_app; cbn [flat_map req_fb app]; rewrite ?app_nil_r; repeat split; reflexivity.
Qed.

Lemma jw_flush_fb : forall y cb, journal_wf y ->
  let y' := apply_effs (with_core y (fst (do_flush (y_core y) cb))) (snd (do_flush (y_core y) cb)) in
  journal_wf y' /\
  forall j, In j (ids (logical y')) ->
    In j (ids (logical y)) /\ file_bytes (logical y') j = file_bytes (logical y) j.
Proof.
  intros y cb JW. destruct (jw_flush_ex y cb JW) as (JW' & Hids & Hfb & _). cbv zeta in JW', Hids, Hfb.
  split; [exact JW'|]. intros j Ij. rewrite Hids in Ij. split; [|exact (Hfb j Ij)].
  rewrite (ji_ids _ _ _ (jw_inv _ JW)). unfold chunk_ids. apply in_or_app. right. exact Ij.
Qed.

Lemma I7_flush : forall y sp cb, I7 y sp ->
  I7 (apply_effs (with_core y (fst (do_flush (y_core y) cb))) (snd (do_flush (y_core y) cb))) sp.
Proof.
  intros y sp cb [(HR & HJ & Hk) JW HPL HC HEB HML].
  destruct (jw_flush_fb y cb JW) as [JW' Hfb]. cbv zeta in JW', Hfb.
  destruct (flush_sys y cb) as (Ed & Ef & Eq & Esm & Eo & Ecl). cbv zeta in Ed, Ef, Eq, Esm, Eo, Ecl.
  set (y' := apply_effs (with_core y (fst (do_flush (y_core y) cb))) (snd (do_flush (y_core y) cb))) in *.
  assert (Ecore : y_core y' = fst (do_flush (y_core y) cb)).
  { unfold y'. rewrite apply_effs_core. reflexivity. }
  constructor.
  - rewrite Ecore. destruct (do_flush (y_core y) cb) as [k1 effs1] eqn:Edo. cbn [fst].
    destruct (do_flush_ok _ _ _ _ Hk Edo) as (Hk' & Ht & _).
    unfold do_flush in Edo. inversion Edo; subst k1 effs1; clear Edo.
    split; [exact HR|]. split; [|exact Hk'].
    destruct HJ as [J1 J2].
    constructor; cbn [k_sm k_closed]; [intros e He; rewrite Ht; apply J1; exact He|exact J2].
  - exact JW'.
  - intros i ld p Hl Hp Hin. rewrite Esm in Hl. destruct (Hfb _ Hin) as [Hin0 Ebytes].
    rewrite Ebytes. apply (HPL i ld p Hl Hp Hin0).
  - rewrite Esm. eapply CI_mono; [exact HC|].
    intros i ld _ [H1 H2]. split; [rewrite Eo; exact H1|rewrite Ed; exact H2].
  - assert (Hb : fbounds y' = fbounds y) by (apply fbounds_same; [exact Ef|exact Eq]).
    intros fid b i ld p Hbb Hl Hp Hle. rewrite Esm in Hl. rewrite Hb in Hbb.
    apply (HEB fid b i ld p Hbb Hl Hp Hle).
  - rewrite (fbounds_same y y' Ef Eq). exact HML.
Qed.

Lemma I7_core : forall y sp k',
  I7 y sp -> core_eqj (y_core y) k' ->
  CIs (k_sm k') sp (OnDisk y) ->
  I7 (with_core y k') sp.
Proof.
  intros y sp k' [HK JW HPL HC HEB HML] Ec HC'.
  pose proof Ec as (E1 & E2 & E3 & E4 & E5 & E6 & E7).
  constructor.
  - cbn [with_core y_core]. apply (KInv_eqj _ _ _ Ec HK).
  - apply jw_with_core; assumption.
  - assert (El : logical (with_core y k') = logical y).
    { apply logical_core_eqj; [reflexivity|exact Ec]. }
    intros i ld p Hl Hp Hin. cbn [with_core y_core] in Hl. rewrite E7 in Hl. rewrite El in *.
    apply (HPL i ld p Hl Hp Hin).
  - cbn [with_core y_core]. eapply CI_mono; [exact HC'|].
    intros i ld _ [H1 H2]. split; [cbn [with_core y_core]; rewrite E2; exact H1|exact H2].
  - intros fid b i ld p Hbb Hl Hp Hle. cbn [with_core y_core] in Hl. rewrite E7 in Hl.
    change (fbounds (with_core y k')) with (fbounds y) in Hbb.
    apply (HEB fid b i ld p Hbb Hl Hp Hle).
  - exact HML.
Qed.

(* ================================================================== the worker *)
Definition hfb (y : sys) : list (N * option logid) := map wf_fb (y_files y).
Definition evb (y : sys) : option logid := ch_evictable (m_cache (k_sm (y_core y))).

(* The boundaries pending installation are consumed from the front: a request leaves a
   suffix of them, and the boundary it installs, if any, is one of them. *)
Lemma worker_step_bounds y r : exists pre,
  hfb y ++ req_fb r = pre ++ hfb (worker_step y r) /\
  (evb (worker_step y r) = evb y \/ exists fid, In (fid, evb (worker_step y r)) (hfb y)).
Proof.
  unfold hfb, evb. destruct r as [upto data cb|off prev|rm]; cbn [worker_step req_fb]; rewrite ?app_nil_r.
  - destruct (rev (y_files y)) as [|newest older] eqn:Er; [exists []; split; [reflexivity|left; reflexivity]|].
    assert (Ef : y_files y = rev older ++ [newest]) by (rewrite <- (rev_involutive (y_files y)), Er; reflexivity).
    exists (map wf_fb (rev older)). cbn [y_files y_core]. rewrite Ef, map_app. split; [reflexivity|].
    right. exists (wf_id newest). apply in_or_app. right. left. reflexivity.
  - exists []. cbn [y_files y_core]. rewrite map_app. split; [reflexivity|left; reflexivity].
  - exists []. split; [reflexivity|left; reflexivity].
Qed.

Lemma fold_bounds : forall q y, exists pre,
  hfb y ++ flat_map req_fb q = pre ++ hfb (fold_left worker_step q y) /\
  (evb (fold_left worker_step q y) = evb y \/
   exists fid, In (fid, evb (fold_left worker_step q y)) (hfb y ++ flat_map req_fb q)).
Proof.
  intros q. induction q as [|r q IH]; intros y; cbn [fold_left flat_map].
  - exists []. rewrite app_nil_r. split; [reflexivity|left; reflexivity].
  - destruct (worker_step_bounds y r) as (pre1 & E1 & Hev1).
    destruct (IH (worker_step y r)) as (pre2 & E2 & Hev2).
    assert (E : hfb y ++ req_fb r ++ flat_map req_fb q = pre1 ++ hfb (worker_step y r) ++ flat_map req_fb q)
      by (rewrite !app_assoc, E1; reflexivity).
    exists (pre1 ++ pre2). split; [rewrite E, E2, app_assoc; reflexivity|].
    destruct Hev2 as [Hev2|[fid Hev2]].
    + rewrite Hev2. destruct Hev1 as [Hev1|[fid Hev1]]; [left; exact Hev1|right].
      exists fid. apply in_or_app. left. exact Hev1.
    + right. exists fid. rewrite E. apply in_or_app. right. exact Hev2.
Qed.

Lemma idle_bounds : forall y, exists pre, fbounds y = pre ++ fbounds (worker_idle y) /\
  (evb (worker_idle y) = evb y \/ exists fid, In (fid, evb (worker_idle y)) (fbounds y)).
Proof.
  intros y. unfold fbounds at 2. rewrite worker_idle_queue. cbn [flat_map]. rewrite app_nil_r.
  exact (fold_bounds (y_queue y) (mkSys (y_core y) (y_disk y) [] (y_files y) (y_acks y))).
Qed.

Lemma idle_entries : forall y,
  ch_entries (m_cache (k_sm (y_core (worker_idle y)))) = ch_entries (m_cache (k_sm (y_core y))).
Proof.
  intros y.
  apply (SmFacts.worker_idle_keeps
           (fun k => ch_entries (m_cache (k_sm k)) = ch_entries (m_cache (k_sm (y_core y))))).
  - intros k b H. exact H.
  - reflexivity.
Qed.

Lemma ondisk_quiet : forall y sp i ld p,
  KInv (y_core y) sp -> journal_wf y -> PL y sp -> y_queue y = [] ->
  In (i, ld) (m_log (k_sm (y_core y))) -> In (ld_id ld, p) (sp_entries sp) ->
  ld_chunk ld <> ck_id (k_open (y_core y)) -> OnDisk y ld.
Proof.
  intros y sp i ld p (HR & [J1 J2] & Hk) JW HPL Hq Hl Hp Hne.
  pose proof (jw_inv _ JW) as Jv.
  assert (Hin : In (ld_chunk ld) (ids (logical y))).
  { rewrite (ji_ids _ _ _ Jv). unfold chunk_ids. apply in_or_app. right.
    specialize (J1 _ Hl). cbn [snd] in J1. exact J1. }
  destruct (HPL i ld p Hl Hp Hin) as (_ & pre & post & Ef & Eoff & Elen).
  split; [exact Hne|].
  assert (Ew : fst (wfinal y) = y_disk y) by (unfold wfinal; rewrite Hq; reflexivity).
  rewrite logical_eq, Ew in Ef, Hin.
  rewrite ids_append in Hin by apply (jw_sorted _ JW).
  rewrite fb_append_other in Ef by exact Hne.
  destruct (disk_get_Some_In _ _ Hin) as [f Hf]. exists f. split; [exact Hf|].
  unfold file_bytes in Ef. rewrite Hf in Ef. rewrite Ef, Eoff, Elen, rec_size_blen, !blen_app. lia.
Qed.

Lemma I7_idle : forall y sp, I7 y sp -> I7 (worker_idle y) sp.
Proof.
  intros y sp [HK JW HPL HC HEB HML].
  pose proof (JournalDisk.worker_idle_core y) as Ec.
  pose proof Ec as (E1 & E2 & E3 & E4 & E5 & E6 & E7).
  assert (HK' : KInv (y_core (worker_idle y)) sp) by (apply (KInv_eqj _ _ _ Ec HK)).
  assert (JW' : journal_wf (worker_idle y)) by (apply jw_idle; exact JW).
  assert (HPL' : PL (worker_idle y) sp).
  { assert (El : logical (worker_idle y) = logical y).
    { apply logical_core_eqj; [apply wfinal_idle|exact Ec]. }
    intros i ld p Hl Hp Hin. rewrite E7 in Hl. rewrite El in *. apply (HPL i ld p Hl Hp Hin). }
  assert (Hquiet : forall i ld p, In (i, ld) (m_log (k_sm (y_core y))) -> In (ld_id ld, p) (sp_entries sp) ->
            ld_chunk ld <> ck_id (k_open (y_core y)) -> OnDisk (worker_idle y) ld).
  { intros i ld p Hl Hp Hne.
    apply (ondisk_quiet (worker_idle y) sp i ld p HK' JW' HPL' (worker_idle_queue y)).
    - rewrite E7. exact Hl.
    - exact Hp.
    - rewrite E2. exact Hne. }
  destruct (idle_bounds y) as (pre & Efb & Hev).
  constructor; try assumption.
  - unfold CIs. rewrite E7.
    pose proof HC as [C1 C2 C3 C4 C5].
    constructor; rewrite ?idle_entries; try assumption.
    + intros i ld p Hl Hp. destruct (C4 i ld p Hl Hp) as [Hin|[Hne _]]; [left; exact Hin|right].
      apply (Hquiet i ld p Hl Hp Hne).
    + intros i ld p Hl Hp Hle. apply (Hquiet i ld p Hl Hp).
      fold (evb (worker_idle y)) in Hle. destruct Hev as [Hev|[fid Hev]].
      * rewrite Hev in Hle. destruct (C5 i ld p Hl Hp Hle) as [Hne _]. exact Hne.
      * pose proof (HEB fid _ i ld p Hev Hl Hp Hle) as Hlt.
        pose proof (jw_bound _ JW) as HB. rewrite Forall_forall in HB.
        specialize (HB fid (fbounds_mentioned _ _ _ Hev)). lia.
  - intros fid b i ld p Hb Hl Hp Hle. rewrite E7 in Hl.
    apply (HEB fid b i ld p); [rewrite Efb; apply in_or_app; right; exact Hb|exact Hl|exact Hp|exact Hle].
  - rewrite Efb, map_app in HML. apply ss_suffix in HML. exact HML.
Qed.

Definition op_c07 (s : spec) (o : op) : bool :=
  match o with
  | OW w => wop_legal s w
  | ORestart _ => false
  | _ => true
  end.
Fixpoint ops_c07 (s : spec) (ops : list op) : bool :=
  match ops with
  | [] => true
  | o :: r => op_c07 s o && ops_c07 (spec_op s o) r
  end.

Definition op_above_bounds (y : sys) (o : op) : bool :=
  match o with OW w => append_above_bounds y w | _ => true end.

Lemma I7_run_op : forall y sp o,
  I7 y sp -> op_c07 sp o = true -> op_wf o -> op_above_bounds y o = true ->
  exists y' r, run_op y o = (Some y', r) /\ I7 y' (spec_op sp o).
Proof.
  intros y sp o HI Hc Hw Hab.
  destruct o as [w|cb|from to| | | | | |cfg]; cbn [op_c07 op_wf op_above_bounds] in *;
    cbn [run_op spec_op]; try discriminate Hc.
  - destruct (NoPanic.C16_write_no_panic (y_core y) w (jw_open_nonempty y (i_jw _ _ HI)))
      as (k' & r & effs & Hd & _).
    rewrite Hd. eexists. eexists. split; [reflexivity|].
    apply (I7_do_write y sp w k' r effs HI Hw Hc Hab Hd).
  - pose proof (I7_flush y sp cb HI) as HF.
    destruct (do_flush (y_core y) cb) as [k effs]. eexists. eexists. split; [reflexivity|exact HF].
  - pose proof (JournalFacts.do_read_core (y_core y) (y_disk y) from to) as Ec.
    pose proof (do_read_sm_open (y_core y) (y_disk y) from to) as [Esm _].
    destruct (do_read (y_core y) (y_disk y) from to) as [k items]. cbn [fst] in Ec, Esm.
    eexists. eexists. split; [reflexivity|].
    apply I7_core; [exact HI|exact Ec|rewrite Esm; apply (i_ci _ _ HI)].
  - eexists. eexists. split; [reflexivity|exact HI].
  - eexists. eexists. split; [reflexivity|exact HI].
  - eexists. eexists. split; [reflexivity|exact HI].
  - eexists. eexists. split; [reflexivity|apply I7_idle; exact HI].
  - eexists. eexists. split; [reflexivity|].
    apply I7_core; [exact HI|apply core_eqj_cache|].
    unfold CIs. cbn [core_with_cache core_with_sm k_sm m_cache m_log]. apply CI_drain. apply (i_ci _ _ HI).
Qed.

(* no append at or below a boundary in force or pending installation, along the run *)
Fixpoint run_ok_c07b (y : sys) (ops : list op) : bool :=
  match ops with
  | [] => true
  | o :: r =>
    op_above_bounds y o &&
    match run_op y o with
    | (Some y', _) => run_ok_c07b y' r
    | (None, _) => true
    end
  end.

Lemma I7_run_ops : forall ops y sp res fin,
  I7 y sp -> ops_c07 sp ops = true -> Forall op_wf ops -> run_ok_c07b y ops = true ->
  run_ops y ops = (res, fin) ->
  exists y', fin = Some y' /\ I7 y' (spec_ops sp ops).
Proof.
  intros ops. induction ops as [|o r IH]; intros y sp res fin HI Hc Hw Hok Hrun.
  - cbn [run_ops] in Hrun. inversion Hrun. subst. exists y. split; [reflexivity|exact HI].
  - cbn [ops_c07] in Hc. apply andb_true_iff in Hc. destruct Hc as [Hc1 Hc2].
    inversion Hw as [|? ? Hw1 Hw2]; subst.
    cbn [run_ok_c07b] in Hok. apply andb_true_iff in Hok. destruct Hok as [Hok1 Hok2].
    destruct (I7_run_op y sp o HI Hc1 Hw1 Hok1) as (y' & r0 & Hop & HI').
    cbn [run_ops] in Hrun. rewrite Hop in Hrun, Hok2.
    destruct (run_ops y' r) as [rs fin'] eqn:Er. inversion Hrun. subst.
    cbn [spec_ops fold_left]. apply (IH y' (spec_op sp o) rs fin HI' Hc2 Hw2 Hok2 Er).
Qed.

Lemma I7_init : forall cfg, I7 (sys0 cfg) spec0.
Proof.
  intros cfg. constructor.
  - split; [|split].
    + destruct (R_init cfg) as [H1 H2 H3 H4 _ _ _]. constructor; assumption.
    + constructor; cbn [sys0 y_core k_sm sm_new m_log]; [intros e []|intros e c []].
    + split.
      * cbn [sys0 y_core k_open]. rewrite ck_id_push, ck_end_push. cbn [ck_id].
        replace (ck_end (mkChunk 0 [])) with 0 by reflexivity.
        pose proof (blen_enc_pos (RState rstate0)) as H. unfold blen in H. lia.
      * unfold tail_ids. cbn. repeat constructor.
  - apply jw_init.
  - intros i ld p [].
  - apply CI_init.
  - intros fid b i ld p _ [].
  - cbn. repeat constructor.
Qed.

(* ================================================================== reading *)
Lemma closed_get_in : forall id cl, In id (map cid cl) ->
  exists c, closed_get id cl = Some c /\ ck_id (cl_chunk c) = id.
Proof.
  intros id cl. induction cl as [|c r IH]; intros H; [destruct H|].
  cbn [closed_get]. destruct (N.eqb_spec id (ck_id (cl_chunk c))) as [E|E].
  - exists c. split; [reflexivity|symmetry; exact E].
  - destruct H as [H|H]; [exfalso; apply E; symmetry; exact H|]. apply IH. exact H.
Qed.

Lemma load_ok : forall y sp i ld p, I7 y sp ->
  In (i, ld) (m_log (k_sm (y_core y))) -> In (ld_id ld, p) (sp_entries sp) -> OnDisk y ld ->
  load_payload (k_closed (y_core y)) (y_disk y) ld = RIOk (ld_id ld) p.
Proof.
  intros y sp i ld p [(HR & [J1 J2] & Hk) JW HPL HC HEB HML] Hl Hp [Hne (f & Hf & Hlen)].
  pose proof (jw_inv _ JW) as Jv.
  assert (Hcl : In (ld_chunk ld) (map cid (k_closed (y_core y)))).
  { specialize (J1 _ Hl). cbn [snd] in J1. unfold tail_ids in J1.
    apply in_app_or in J1. destruct J1 as [J1|[J1|[]]]; [exact J1|exfalso; apply Hne; symmetry; exact J1]. }
  assert (Hin : In (ld_chunk ld) (ids (logical y))).
  { rewrite (ji_ids _ _ _ Jv). unfold chunk_ids. apply in_or_app. right. apply in_or_app. left. exact Hcl. }
  destruct (HPL i ld p Hl Hp Hin) as (Hwf & pre & post & Ef & Eoff & Elen).
  destruct (closed_get_in _ _ Hcl) as (c & Hc & Eid).
  destruct (C11_disk_is_prefix y _ f (jw_sorted _ JW) Hf Hin) as [tl Etl].
  assert (Eo : ld_off ld = ck_id (cl_chunk c) + blen pre) by (rewrite Eid; unfold blen in *; lia).
  rewrite <- Eid in Hf. rewrite Ef in Etl. symmetry in Etl.
  unfold load_payload. rewrite Hc, Eo, Elen, (read_record_at _ _ f tl pre _ post Hf Etl Hwf).
  rewrite rec_size_blen in Elen.
  destruct (N.ltb_spec (blen (f_data f)) (blen pre + rec_size (RAppend (ld_id ld) p))) as [L|_]; [|reflexivity].
  rewrite rec_size_blen in L. unfold blen in *. lia.
Qed.

Lemma read_items_c07 : forall ch cl d m es h ms,
  map f_log m = map g_ent es ->
  (forall i ld p, In (i, ld) m -> In (ld_id ld, p) es ->
     ent_get (ld_id ld) (ch_entries ch) = Some p \/
     (ent_get (ld_id ld) (ch_entries ch) = None /\ load_payload cl d ld = RIOk (ld_id ld) p)) ->
  fst (fst (read_items ch cl d m h ms)) = map (fun e => RIOk (fst e) (snd e)) es.
Proof.
  intros ch cl d m. induction m as [|[k ld] m IH]; intros [|[id p] es] h ms Hm Hh;
    cbn [map] in Hm; try discriminate Hm.
  - reflexivity.
  - injection Hm as H1 H2 H3. cbn [fst snd] in H1, H2.
    assert (Hh' : forall i ld0 p0, In (i, ld0) m -> In (ld_id ld0, p0) es ->
              ent_get (ld_id ld0) (ch_entries ch) = Some p0 \/
              (ent_get (ld_id ld0) (ch_entries ch) = None /\ load_payload cl d ld0 = RIOk (ld_id ld0) p0)).
    { intros i ld0 p0 Hi Hp0. apply (Hh i ld0 p0); right; assumption. }
    assert (Hhd : In (ld_id ld, p) ((id, p) :: es)) by (left; rewrite H2; reflexivity).
    cbn [read_items].
    destruct (Hh k ld p (or_introl eq_refl) Hhd) as [Hg|[Hg Hload]]; rewrite Hg.
    + specialize (IH es (h + 1) ms H3 Hh').
      destruct (read_items ch cl d m (h + 1) ms) as [[items h'] ms'].
      cbn [fst snd] in IH. cbn [fst snd map]. rewrite IH, H2. reflexivity.
    + specialize (IH es h (ms + 1) H3 Hh').
      destruct (read_items ch cl d m h (ms + 1)) as [[items h'] ms'].
      cbn [fst snd] in IH. cbn [fst snd map]. rewrite IH, Hload, H2. reflexivity.
Qed.

Lemma I7_item : forall y sp i ld p, I7 y sp ->
  In (i, ld) (m_log (k_sm (y_core y))) -> In (ld_id ld, p) (sp_entries sp) ->
  ent_get (ld_id ld) (ch_entries (m_cache (k_sm (y_core y)))) = Some p \/
  (ent_get (ld_id ld) (ch_entries (m_cache (k_sm (y_core y)))) = None /\
   load_payload (k_closed (y_core y)) (y_disk y) ld = RIOk (ld_id ld) p).
Proof.
  intros y sp i ld p HI Hl Hp. pose proof (i_ci _ _ HI) as [C1 C2 C3 C4 C5].
  destruct (ent_get (ld_id ld) (ch_entries (m_cache (k_sm (y_core y))))) as [p'|] eqn:Eg.
  - left. apply CacheFacts.ent_get_in in Eg. rewrite (C3 _ _ _ Hp Eg). reflexivity.
  - right. split; [reflexivity|].
    destruct (C4 i ld p Hl Hp) as [Hin|HQ].
    + apply (CacheFacts.ent_get_sorted _ _ _ (proj2 (sorted_keys_clt _) C1)) in Hin. rewrite Hin in Eg. discriminate Eg.
    + apply (load_ok y sp i ld p HI Hl Hp HQ).
Qed.

Lemma I7_observes : forall y sp, I7 y sp -> observes y sp.
Proof.
  intros y sp HI. pose proof (i_k _ _ HI) as (HR & _ & _).
  unfold observes. split; [apply (R0_rs _ _ HR)|]. split.
  - intros from to. unfold read_ok. rewrite do_read_items. apply read_items_c07.
    + apply lm_range_read, (R0_log _ _ HR).
    + intros i ld p Hl Hp. unfold lm_range in Hl. apply filter_In in Hl. destruct Hl as [Hl _].
      unfold spec_read in Hp. apply filter_In in Hp. destruct Hp as [Hp _].
      apply (I7_item y sp i ld p HI Hl Hp).
  - unfold read_ok. rewrite do_dump_iter_items. apply read_items_c07.
    + apply (R0_log _ _ HR).
    + intros i ld p Hl Hp. apply (I7_item y sp i ld p HI Hl Hp).
Qed.

(* ================================================================== C07 *)
(* The property without a restriction on the history is false for the code: a Raft-legal history
   whose last read returns an error for a live entry (finding F2). *)
Definition c07_cfg : config := mkConfig 0 0 4 100000 true.
Definition c07_ops : list op :=
  [OW (OAppend [((5, 0), []); ((5, 1), []); ((5, 2), [])]); OFlush true; OIdle;
   OW (OTruncate 0); OW (OAppend [((1, 0), [])]); ORead 0 1].

Theorem C07_refuted : exists cfg ops res fin,
  ops_plain spec0 ops = true /\ run_case cfg ops = (res, fin) /\
  exists items, In (ResRead items) res /\ exists k, In (RIErr k) items.
Proof.
  (* the results and the final state are given as the run itself, and only the result of the read is
     evaluated: the kernel's lazy machine, which coqchk uses for a [vm_compute] step, leaves the rest *)
  exists c07_cfg, c07_ops, (fst (run_case c07_cfg c07_ops)), (snd (run_case c07_cfg c07_ops)).
  split; [vm_compute; reflexivity|]. split; [apply surjective_pairing|].
  exists [RIErr KNotFound]. split; [|exists KNotFound; now left].
  apply (nth_error_In _ 5). vm_compute. reflexivity.
Qed.

(* the same witness, with the facts that make it a violation spelled out *)
Theorem C07_refuted_live : exists cfg ops res fin,
  ops_plain spec0 ops = true /\ run_case cfg ops = (res, fin) /\
  sp_entries (spec_ops spec0 ops) = [((1, 0), [])] /\
  res = [ResW (WOk 82 32); ResUnit; ResUnit; ResW (WOk 148 13); ResW (WOk 161 32);
         ResRead [RIErr KNotFound]] /\
  exists y, fin = Some y /\ ~ observes y (spec_ops spec0 ops).
Proof.
  set (r := run_case c07_cfg c07_ops).
  exists c07_cfg, c07_ops, (fst r), (snd r).
  split; [reflexivity|]. split; [apply surjective_pairing|]. split; [reflexivity|]. split; [vm_compute; reflexivity|].
  exists (match snd r with Some y => y | None => sys0 c07_cfg end). split.
  - assert (H : match snd r with Some _ => true | None => false end = true) by (vm_compute; reflexivity).
    destruct (snd r); [reflexivity|discriminate H].
  - intros (_ & Hread & _). specialize (Hread 0 1). vm_compute in Hread. discriminate Hread.
Qed.

(* A weaker restriction: only appends at or below the boundary IN FORCE are excluded. *)
Definition append_above_boundary (y : sys) (w : wop) : bool :=
  match w with
  | OAppend es => forallb (fun e => opair_ltb (ch_evictable (m_cache (k_sm (y_core y)))) (Some (fst e))) es
  | _ => true
  end.
Fixpoint run_ok_c07 (y : sys) (ops : list op) : bool :=
  match ops with
  | [] => true
  | o :: r =>
    match o with OW w => append_above_boundary y w | _ => true end &&
    match run_op y o with
    | (Some y', _) => run_ok_c07 y' r
    | (None, _) => true
    end
  end.

(* It is not enough (the statement of C07_reads_total_outside_known_partial with
   [run_ok_c07] in place of [run_ok_c07b] is refuted below): the boundary (5,2) is recorded
   at the rotation but installed by the worker only later; (1,0) is appended in between,
   into the open chunk, and evicted by the next insertion. *)
Definition c07b_cfg : config := mkConfig 0 0 100 114 true.
Definition c07b_ops : list op :=
  [OW (OAppend [((5, 0), []); ((5, 1), []); ((5, 2), [])]); OW (OTruncate 0);
   OW (OAppend [((1, 0), [])]); OFlush true; OIdle; OW (OAppend [((6, 1), [])]); ORead 0 2].

Theorem C07_reads_total_outside_known_refuted : exists cfg ops res fin,
  ops_c07 spec0 ops = true /\ Forall op_wf ops /\
  (match open_dir cfg [] with OpenOk y0 => run_ok_c07 y0 ops = true | _ => False end) /\
  run_case cfg ops = (res, fin) /\
  ~ (exists y, fin = Some y /\ observes y (spec_ops spec0 ops)).
Proof.
  set (r := run_case c07b_cfg c07b_ops).
  exists c07b_cfg, c07b_ops, (fst r), (snd r).
  split; [reflexivity|]. split.
  { unfold c07b_ops. repeat constructor; cbn; unfold wf_pair, wf_u64, wf_bytes; cbn; lia. }
  split; [vm_compute; reflexivity|]. split; [apply surjective_pairing|].
  intros (y & Hf & _ & Hread & _).
  assert (Ey : y = match snd r with Some y => y | None => sys0 c07b_cfg end) by (now rewrite Hf).
  rewrite Ey in Hread. specialize (Hread 0 2). vm_compute in Hread. discriminate Hread.
Qed.

(* Every append is above every boundary that is in force OR still pending installation
   ([run_ok_c07b], via [bounds]). Any cache limits. *)
Theorem C07_reads_total_outside_known_partial : forall cfg ops res fin,
  ops_c07 spec0 ops = true -> Forall op_wf ops ->
  (match open_dir cfg [] with OpenOk y0 => run_ok_c07b y0 ops = true | _ => False end) ->
  run_case cfg ops = (res, fin) ->
  exists y, fin = Some y /\ observes y (spec_ops spec0 ops).
Proof.
  intros cfg ops res fin Hc Hw Hok Hrun. unfold run_case in Hrun.
  rewrite JournalFacts.open_dir_nil in Hrun, Hok.
  destruct (I7_run_ops ops (sys0 cfg) spec0 res fin (I7_init cfg) Hc Hw Hok Hrun) as (y & Hf & HI).
  exists y. split; [exact Hf|apply I7_observes; exact HI].
Qed.

(* the hypotheses on the run (well-formedness of the operations apart) are satisfiable by a
   history with a zero-size cache that rotates, evicts, truncates, re-appends (above the
   boundaries), purges and drains *)
Example C07_hyps_inhabited :
  let cfg := mkConfig 0 0 3 100000 true in
  let ops := [OW (OAppend [((1, 0), [x01]); ((1, 1), []); ((1, 2), [])]); OFlush true; OIdle;
              OW (OTruncate 2); OW (OAppend [((2, 2), []); ((2, 3), [])]); ODrain; ORead 0 10;
              OW (OPurge (1, 0)); OFlush false; OIdle; ODumpIter] in
  ops_c07 spec0 ops = true /\
  (match open_dir cfg [] with OpenOk y0 => run_ok_c07b y0 ops = true | _ => False end) /\
  map fst (sp_entries (spec_ops spec0 ops)) = [(1, 1); (2, 2); (2, 3)].
Proof. cbv zeta. split; [vm_compute; reflexivity|]. split; vm_compute; reflexivity. Qed.

Print Assumptions C07_refuted.
Print Assumptions C07_refuted_live.
Print Assumptions C07_reads_total_outside_known_refuted.
Print Assumptions C07_reads_total_outside_known_partial.
