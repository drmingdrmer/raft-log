(* C15 and C11 with restarts: the payload-cache accounting invariant [CacheSys.cinv] holds along every
   history that may contain [ORestart] anywhere (any configuration, any cache limits), every write kind
   except [OUpdateState], flushes, reads, drains. The journal-side invariant [JI] is [journal_wf] (C11)
   plus a ghost description of the directory as a list of (chunk id, records) whose last file is split
   into the part handed to the worker ([rs1]) and the records still buffered in [k_pending] ([rs2]).
   A restart loses [rs2]; [Chain] makes the replay of the rest succeed, and [HK] (state records never
   lower last, RestartSim.v) is the premise of [replay_cinv]. *)
From Coq Require Import List NArith Lia.
From Coq.Strings Require Import Byte.
From RaftLog Require Import Base.Bytes Model.Types Model.Codec Model.Cache Model.Core Model.Recover Model.Run.
From RaftLog Require Import Proofs.SmFacts.
From RaftLog Require Import Proofs.CodecFacts Proofs.JournalDisk Proofs.JournalChunk Proofs.JournalFacts.
From RaftLog Require Import Proofs.RestartSim Proofs.RestartInv Proofs.RestartFacts.
From RaftLog Require Proofs.CacheFacts Proofs.CacheSys.
Import ListNotations.
Local Open Scope N_scope.

Definition op_c15 (o : op) : bool :=
  match o with OW (OUpdateState _) => false | _ => true end.

Lemma rs_run_app_some a b st cur : rs_run st (a ++ b) = Some cur ->
  exists mid, rs_run st a = Some mid /\ rs_run mid b = Some cur.
Proof.
  rewrite rs_run_app. destruct (rs_run st a) as [m|]; [|discriminate].
  intros H. exists m. split; [reflexivity|exact H].
Qed.

Lemma keeps_last_app_l : forall a st b, keeps_last st (a ++ b) -> keeps_last st a.
Proof.
  induction a as [|r a IH]; intros st b H; [exact I|].
  cbn [app keeps_last] in *. destruct H as [H1 H2]. split; [exact H1|].
  destruct (rs_apply st r) as [st1|e]; [|exact I]. eapply IH. exact H2.
Qed.

Definition ghost_ok (y : sys) (G0 : list jfile) (o : N) (rs1 rs2 : list record) : Prop :=
  GC y (G0 ++ [(o, rs1 ++ rs2)]) /\ rs1 <> [] /\ k_pending (y_core y) = encs rs2.

(* on the L1 system [sys]; CrashSteps.JI is the journal invariant of the small-step system *)
Record JI (y : sys) : Prop := mkJI {
  JI_jw : journal_wf y;
  JI_g : exists G0 o rs1 rs2, ghost_ok y G0 o rs1 rs2 }.

Lemma GJ_last y G0 o rs : journal_wf y -> GJ y (G0 ++ [(o, rs)]) ->
  o = ck_id (k_open (y_core y)) /\
  map fst G0 = k_removed (y_core y) ++ closed_ids (y_core y).
Proof.
  intros JW H. destruct (GJ_open _ _ JW H) as (G1 & rs1 & E & EG & _).
  apply app_inj_tail in E. destruct E as [-> E]. inversion E. auto.
Qed.

Lemma JI_frame y y' : JI y -> journal_wf y' -> logical y' = logical y ->
  core_eqj (y_core y) (y_core y') -> JI y'.
Proof.
  intros [JW (G0 & o & rs1 & rs2 & HG & Hne & Hp)] JW' El (E1 & E2 & E3 & E4 & E5 & E6 & E7).
  constructor; [exact JW'|]. exists G0, o, rs1, rs2.
  split; [apply (GC_frame y); assumption|]. split; [exact Hne|rewrite E3; exact Hp].
Qed.

Lemma JI_appended y r sm1 :
  JI y -> wf_record r ->
  rs_validate (m_rs (k_sm (y_core y))) r = None ->
  keep_rec (m_rs (k_sm (y_core y))) r ->
  sm_apply (k_sm (y_core y)) r (ck_id (k_open (y_core y)))
           (ck_end (k_open (y_core y)), rec_size r) = (sm1, None) ->
  JI (with_core y (JournalChunk.appended (y_core y) r sm1)).
Proof.
  intros [JW (G0 & o & rs1 & rs2 & HG & Hne & Hp)] Hr Hv Hkeep Hs.
  destruct (GJ_last _ _ _ _ JW (gc_gj _ _ HG)) as [-> _].
  constructor; [apply (jw_appended y r sm1 JW Hr Hv Hs)|].
  exists G0, (ck_id (k_open (y_core y))), rs1, (rs2 ++ [r]). unfold ghost_ok. rewrite app_assoc.
  split; [exact (GC_appended y G0 (rs1 ++ rs2) r sm1 JW HG Hr Hv Hkeep Hs)|]. split; [exact Hne|].
  cbn [with_core y_core JournalChunk.appended k_pending]. rewrite Hp, encs_app, encs_one. reflexivity.
Qed.

Lemma JI_rotated y1 :
  JI y1 -> JI (apply_effs (with_core y1 (rotated (y_core y1))) (rotate_effs (y_core y1))).
Proof.
  intros [JW (G0 & o & rs1 & rs2 & HG & Hne & Hp)].
  constructor; [apply (jw_rotated y1 JW)|].
  exists (G0 ++ [(o, rs1 ++ rs2)]), (ck_end (k_open (y_core y1))), [RState (m_rs (k_sm (y_core y1)))], [].
  split; [exact (GC_rotated y1 _ JW HG)|]. split; [discriminate|].
  rewrite apply_effs_core. reflexivity.
Qed.

Lemma JI_aaa y r k' w effs :
  JI y -> wf_record r -> keep_rec (m_rs (k_sm (y_core y))) r ->
  append_and_apply (y_core y) r = Ret (k', w, effs) ->
  JI (apply_effs (with_core y k') effs).
Proof.
  intros F Hr Hk Ha. apply append_and_apply_steps in Ha.
  destruct Ha as [(Ek & Ee & e & Ew)|(sm1 & Hv & Hs & Ew & Ht)].
  - subst k' effs. change (JI (commit y (y_core y) [])). rewrite commit_nil. exact F.
  - pose proof (JI_appended y r sm1 F Hr Hv Hk Hs) as F1.
    destruct Ht as [(_ & Ek & Ee)|(_ & Ek & Ee)]; subst k' effs.
    + exact F1.
    + apply (JI_rotated _ F1).
Qed.

Lemma JI_purged y upto rm rest :
  JI y -> pop_obsolete upto (k_closed (y_core y)) = (rm, rest) ->
  JI (with_core y (purged_core (y_core y) rm rest)).
Proof.
  intros [JW (G0 & o & rs1 & rs2 & HG & Hne & Hp)] Hpop.
  constructor; [apply (jw_purged y upto rm rest JW Hpop)|].
  exists G0, o, rs1, rs2. split; [apply GC_purged; exact HG|]. split; [exact Hne|exact Hp].
Qed.

Lemma JI_flush y cb :
  JI y ->
  JI (apply_effs (with_core y (fst (do_flush (y_core y) cb))) (snd (do_flush (y_core y) cb))).
Proof.
  intros [JW (G0 & o & rs1 & rs2 & HG & Hne & Hp)].
  set (y' := apply_effs _ _). destruct (jw_flush_ex y cb JW) as (JW' & _). fold y' in JW'.
  destruct (GC_flush y cb _ JW HG) as (G1 & G2 & EG & HG2). fold y' in HG2.
  destruct (GJ_open _ _ JW' (gc_gj _ _ HG2)) as (G0' & rs & -> & _).
  rewrite app_assoc in EG. apply app_inj_tail in EG. destruct EG as [_ Ex].
  injection Ex as _ Ers. subst rs.
  constructor; [exact JW'|]. exists G0', (ck_id (k_open (y_core y'))), (rs1 ++ rs2), [].
  unfold ghost_ok. rewrite app_nil_r.
  split; [exact HG2|]. split; [destruct rs1; [congruence|discriminate]|].
  unfold y'. rewrite apply_effs_core. reflexivity.
Qed.

(* RestartInv.issues_keep is the same fact for Raft-legal writes *)
Lemma issues_keep_no_update k w r : CacheSys.wop_no_update w = true -> issues k w r -> keep_rec (m_rs (k_sm k)) r.
Proof.
  intros Hnu Hi. destruct Hi; try exact I; [|discriminate Hnu].
  cbn [keep_rec rs_set_user r_last]. apply CacheFacts.opair_leb_refl.
Qed.

Lemma JI_run_op y o y' res :
  JI y -> op_c11 o = true -> op_c15 o = true -> op_wf o ->
  run_op y o = (Some y', res) -> JI y'.
Proof.
  intros F Hc Hu Hw.
  apply (run_op_sys JI (fun y r => wf_record r /\ keep_rec (m_rs (k_sm (y_core y))) r)); try assumption.
  - intros y0 r k1 res1 ef F0 [Wr Kr] Ha. exact (JI_aaa y0 r k1 res1 ef F0 Wr Kr Ha).
  - intros; eapply JI_purged; eassumption.
  - intros; apply JI_flush; assumption.
  - intros y0 k1 F0 Ec. apply (JI_frame y0); [exact F0|apply jw_with_core; [apply (JI_jw _ F0)|exact Ec]| |exact Ec].
    apply logical_core_eqj; [reflexivity|exact Ec].
  - intros y0 F0. apply (JI_frame y0); [exact F0|apply jw_idle, (JI_jw _ F0)| |apply JournalDisk.worker_idle_core].
    apply logical_core_eqj; [apply wfinal_idle|apply JournalDisk.worker_idle_core].
  - intros w y1 r -> F1 Hi. split; [exact (issues_wf _ _ _ (JI_jw _ F1) Hw Hi)|].
    apply (issues_keep_no_update _ w); [destruct w; try reflexivity; discriminate Hu|exact Hi].
Qed.

(* ================================================================== restart *)
Section ReplayCinv.
Import CacheFacts CacheSys.
(* Replay applies records without validating first, but stops at the first refused
   one, so a successful replay step is a validated step. The only way the invariant
   can break is a state record that lowers [last] below a resident key; [keeps_last]
   rules that out and mentions the RaftLogState only (not the cache), so it can be
   discharged from a theorem saying what states the chunk heads on disk carry. *)
Lemma sm_apply_cinv_replay s r ch seg s1 :
  cinv s -> rec_safe s r -> sm_apply s r ch seg = (s1, None) -> cinv s1.
Proof.
  intros Hinv Hsafe Ha. pose proof (sm_apply_None _ _ _ _ _ Ha) as Hr. unfold rs_apply in Hr.
  destruct (rs_validate (m_rs s) r) eqn:Ev; [discriminate Hr|].
  pose proof (proj1 (sm_apply_cinv s r ch seg Hinv Ev Hsafe)) as Hc. rewrite Ha in Hc. exact Hc.
Qed.

Lemma replay_cinv G t0 t :
  cinv t0 -> keeps_last (m_rs t0) (jall G) -> replay_files t0 G = (t, None) -> cinv t.
Proof.
  intros Hc Hk H. revert Hk. revert G t H.
  apply (replay_files_ind (fun G t => keeps_last (m_rs t0) (jall G) -> cinv t)).
  - intros _. exact Hc.
  - intros G id t IH _ Hk. rewrite jall_snoc, app_nil_r in Hk. exact (cinv_set_evictable t _ (IH Hk)).
  - intros G id rs r t t1 IH Hr Ha Hk. rewrite jall_snoc, app_assoc in Hk.
    pose proof (keeps_last_mid _ _ _ _ _ Hk Hr) as Hkr.
    apply keeps_last_app_l in Hk. rewrite <- (jall_snoc G id) in Hk.
    eapply sm_apply_cinv_replay; [exact (IH Hk)| |exact Ha].
    destruct r; try exact I. eapply keys_le_mono; [apply (IH Hk)|exact Hkr].
Qed.

End ReplayCinv.

Lemma replay_files_ok G t0 cur : Chain cur G -> G <> [] ->
  exists t, replay_files t0 G = (t, None) /\ m_rs t = cur.
Proof. intros HC Hne. apply replay_files_run, Chain_run; assumption. Qed.

Lemma Chain_cut : forall G0 o rs1 rs2 cur, rs1 <> [] ->
  Chain cur (G0 ++ [(o, rs1 ++ rs2)]) -> exists cur', Chain cur' (G0 ++ [(o, rs1)]).
Proof.
  intros G0 o rs1 rs2 cur Hne H. destruct (Chain_cur _ _ _ _ H) as (st & tl & E & Hr).
  destruct rs1 as [|r1 tl1]; [congruence|]. cbn [app] in E. inversion E; subst r1 tl.
  apply rs_run_app_some in Hr. destruct Hr as (mid & Hm & _). exists mid.
  apply Chain_app in H. apply Chain_app. split; [exact (proj1 H)|]. split; [|exact I]. exists st, tl1. auto.
Qed.

Lemma HK_cut G0 o rs1 rs2 : rs1 <> [] ->
  HK (G0 ++ [(o, rs1 ++ rs2)]) -> HK (G0 ++ [(o, rs1)]).
Proof.
  intros Hne H. unfold HK in *. apply Forall_app in H. destruct H as [H0 Hl].
  apply Forall_app. split; [exact H0|]. constructor; [|constructor].
  inversion Hl as [|? ? (st & tl & E & Hk) _]; subst. cbn [snd] in *.
  destruct rs1 as [|r1 tl1]; [congruence|]. cbn [app] in E. inversion E; subst.
  exists st, tl1. split; [reflexivity|]. eapply keeps_last_app_l. exact Hk.
Qed.

Definition log_ok (idl : list N) (fb : N -> bytes) (o : N) (lg : logmap) : Prop :=
  Forall (fun e => entry_ok idl fb o (snd e)) lg.

Lemma replay_files_log_ok idl fb o G t0 t :
  (forall g, In g G -> fb (fst g) = encs (snd g) /\ Forall wf_record (snd g) /\ fst g <= o) ->
  log_ok idl fb o (m_log t0) -> replay_files t0 G = (t, None) -> log_ok idl fb o (m_log t).
Proof.
  unfold log_ok. rewrite !Forall_forall. intros HG H0 H e He.
  destruct (replay_files_points _ _ _ H e He) as [Hi|(g & Hg & Hp)]; [exact (H0 e Hi)|].
  destruct (HG g Hg) as (A & B & C). destruct (points_at fb _ _ _ A B Hp) as (W & Ec & Hat).
  split; [exact W|]. split; [lia|]. intros _. exact Hat.
Qed.

Lemma wfinal_idle_state y : y_queue y = [] -> wfinal y = (y_disk y, y_files y).
Proof. intros Hq. unfold wfinal, wrun, wproj. rewrite Hq. reflexivity. Qed.

Lemma JI_reopen cfg' y :
  JI y -> y_queue y = [] ->
  exists y', open_dir cfg' (y_disk y) = OpenOk y' /\ JI y' /\ CacheSys.sys_cinv y'.
Proof.
  intros [JW (G0 & o' & rs1 & rs2 & [GJy HC HH] & Hne & Hp)] Hq.
  pose proof (jw_inv _ JW) as J.
  destruct (GJ_last _ _ _ _ JW GJy) as [Eo EG0]. subst o'.
  pose proof (jw_sorted _ JW) as Sd.
  pose proof (jw_ids_FD _ JW) as EidsFD.
  pose proof (jw_fb_open _ JW) as Hfo.
  assert (Hfother : forall j, j <> ck_id (k_open (y_core y)) ->
            file_bytes (logical y) j = file_bytes (fst (wfinal y)) j) by (apply jw_fb_other).
  rewrite (wfinal_idle_state y Hq) in EidsFD, Hfo, Hfother. cbn [fst] in EidsFD, Hfo, Hfother.
  set (k := y_core y) in *. set (o := ck_id (k_open k)) in *. set (d := y_disk y) in *.
  destruct GJy as [Gids Gfiles].
  assert (Hpre : forall j, In j (map fst G0) -> j < o).
  { intros j Hj. apply (ji_pre_lt _ _ _ J). fold k. rewrite <- EG0. exact Hj. }
  assert (Hids_d : ids d = map fst (G0 ++ [(o, rs1)])).
  { rewrite <- EidsFD, <- Gids, !map_app. reflexivity. }
  pose proof Gfiles as Gfiles'. apply Forall_app in Gfiles'. destruct Gfiles' as [Gf0 Gfl].
  inversion Gfl as [|? ? (Fo1 & Fo2 & Fo3) _]; subst. cbn [fst snd] in Fo1, Fo2, Fo3.
  apply Forall_app in Fo2. destruct Fo2 as [Fo2 _].
  assert (Hhead : exists st tl1, rs1 = RState st :: tl1).
  { destruct Fo3 as (st & tl & E). destruct rs1 as [|r1 tl1]; [congruence|].
    cbn [app] in E. inversion E; subst. eauto. }
  assert (Hfo_d : file_bytes d o = encs rs1).
  { rewrite Fo1, Hp, encs_app in Hfo. apply app_inv_tail in Hfo. symmetry. exact Hfo. }
  assert (Hfok : Forall (file_ok (file_bytes d)) (G0 ++ [(o, rs1)])).
  { apply Forall_app. split.
    - apply (files_ok_ext (file_bytes (logical y))); [|exact Gf0]. intros g Hg.
      symmetry. apply Hfother. assert (Hl : fst g < o) by (apply Hpre, in_map, Hg). lia.
    - constructor; [|constructor]. unfold file_ok. cbn [fst snd].
      split; [exact Hfo_d|]. split; [exact Fo2|exact Hhead]. }
  assert (Hab : abut (file_bytes d) (ids d)).
  { rewrite Hids_d. pose proof (ji_abut _ _ _ J) as A. rewrite <- Gids in A. rewrite map_app in A |- *.
    cbn [map fst] in A |- *. eapply abut_change_last; [|exact A].
    intros j Hj. symmetry. apply Hfother. specialize (Hpre j Hj). lia. }
  destruct (Chain_cut G0 o rs1 rs2 _ Hne HC) as (cur' & HC').
  pose proof (HK_cut G0 o rs1 rs2 Hne HH) as HH'.
  destruct (replay_files_ok (G0 ++ [(o, rs1)]) (sm_new cfg') cur' HC') as (t & Hrep & Hrs');
    [destruct G0; discriminate|].
  destruct (ghost_opens cfg' d G0 o rs1 t cur' Sd Hids_d Hfok Hab Hrep HC') as (Hopen & JW' & El').
  { destruct (Chain_cur _ _ _ _ HC') as (st & tl & E & Hrun).
    rewrite E in Fo2. apply Forall_cons_iff in Fo2. destruct Fo2 as [Hw1 Hw2].
    rewrite Hrs'. apply (rs_run_wf tl st cur' Hw1 Hw2 Hrun). }
  { apply (replay_files_log_ok (ids d) (file_bytes d) o (G0 ++ [(o, rs1)]) (sm_new cfg') t);
      [| constructor | exact Hrep].
    intros g Hg. rewrite Forall_forall in Hfok. destruct (Hfok g Hg) as (A & B & _).
    split; [exact A|]. split; [exact B|].
    apply in_app_or in Hg. destruct Hg as [Hg|[Hg|[]]].
    - assert (Hl : fst g < o) by (apply Hpre, in_map, Hg). lia.
    - subst g. cbn [fst]. lia. }
  eexists. split; [exact Hopen|]. split.
  - constructor; [exact JW'|]. exists G0, o, rs1, []. unfold ghost_ok. rewrite app_nil_r.
    split; [|split; [exact Hne|reflexivity]]. constructor; [|cbn [y_core k_sm]; rewrite Hrs'; exact HC'|exact HH'].
    constructor; rewrite El'; [symmetry; exact Hids_d|exact Hfok].
  - unfold CacheSys.sys_cinv. cbn [y_core k_sm].
    apply (replay_cinv (G0 ++ [(o, rs1)]) _ _ (CacheSys.cinv_new cfg')); [|exact Hrep].
    apply (HK_keeps _ _ cur' HH' HC'). clear. destruct G0; cbn [app sm_new m_rs rstate0 r_last]; apply CacheFacts.opair_leb_None.
Qed.

Lemma JI_restart cfg' y :
  JI y ->
  exists y', open_dir cfg' (y_disk (worker_idle y)) = OpenOk y' /\ JI y' /\ CacheSys.sys_cinv y'.
Proof.
  intros F. apply JI_reopen; [|apply worker_idle_queue].
  apply (JI_frame y); [exact F|apply jw_idle, (JI_jw _ F)| |apply worker_idle_core].
  apply logical_core_eqj; [apply wfinal_idle|apply worker_idle_core].
Qed.

(* the journal invariant with the cache invariant of C15: what a restart under any configuration keeps *)
Definition JIC (y : sys) : Prop := JI y /\ CacheSys.sys_cinv y.

Lemma JIC_run_op y o y' res :
  JIC y -> op_c15 o = true -> op_wf o -> run_op y o = (Some y', res) -> JIC y'.
Proof.
  intros [F C] Hc Hw H.
  destruct o as [w|cb|from to| | | | | |cfg'].
  1-8: match type of H with run_op _ ?o = _ =>
         split; [apply (JI_run_op y o y' res F (eq_refl true) Hc Hw H)
                |apply (CacheSys.run_op_cinv y o y' res Hc C H)] end.
  cbn [run_op] in H. destruct (JI_restart cfg' y F) as (y2 & Ho & F2 & C2).
  rewrite Ho in H. inversion H; subst. split; assumption.
Qed.

Lemma JIC_restart_opens y cfg' :
  JIC y -> exists y', run_op y (ORestart cfg') = (Some y', ResOpened) /\ JIC y'.
Proof.
  intros [F C]. destruct (JI_restart cfg' y F) as (y2 & Ho & F2 & C2).
  exists y2. cbn [run_op]. rewrite Ho. split; [reflexivity|split; assumption].
Qed.

Lemma JIC_init cfg : JIC (sys0 cfg).
Proof.
  split.
  - constructor; [apply jw_init|]. exists [], 0, [RState rstate0], []. unfold ghost_ok.
    split; [apply GC_init|split; [discriminate|reflexivity]].
  - apply (CacheSys.open_dir_empty_cinv cfg). apply open_dir_nil.
Qed.

Lemma JIC_run_case cfg ops res y :
  forallb op_c15 ops = true -> Forall op_wf ops ->
  run_case cfg ops = (res, Some y) -> JIC y.
Proof.
  intros Hc Hw. apply (run_case_inv JIC (fun o => op_c15 o = true /\ op_wf o)).
  - intros y0 o y' r F [Ho Hwf]. apply JIC_run_op; assumption.
  - intros y0 E. rewrite JournalFacts.open_dir_nil in E. inversion E. apply JIC_init.
  - rewrite forallb_forall in Hc. rewrite Forall_forall in *. intros o Ho. split; [apply Hc|apply Hw]; exact Ho.
Qed.

(* ================================================================== C15 with restarts *)
Theorem C15_counts_exact_restarts : forall cfg ops res y,
  forallb op_c15 ops = true -> Forall op_wf ops ->
  run_case cfg ops = (res, Some y) ->
  CacheFacts.cache_ok (m_cache (k_sm (y_core y))).
Proof. intros cfg ops res y Hc Hw H. apply (JIC_run_case cfg ops res y Hc Hw H). Qed.

Theorem C15_keys_le_last_restarts : forall cfg ops res y,
  forallb op_c15 ops = true -> Forall op_wf ops ->
  run_case cfg ops = (res, Some y) ->
  CacheFacts.keys_le (m_cache (k_sm (y_core y))) (r_last (m_rs (k_sm (y_core y)))).
Proof. intros cfg ops res y Hc Hw H. apply (JIC_run_case cfg ops res y Hc Hw H). Qed.

(* what stat() reports *)
Theorem C15_stat_exact_restarts : forall cfg ops res y,
  forallb op_c15 ops = true -> Forall op_wf ops ->
  run_case cfg ops = (res, Some y) ->
  let es := ch_entries (m_cache (k_sm (y_core y))) in
  st_items (do_stat (y_core y)) = N.of_nat (length es) /\
  st_size (do_stat (y_core y)) = CacheFacts.total es /\
  NoDup (map fst es).
Proof.
  intros cfg ops res y Hc Hw H. exact (CacheSys.cinv_stat_exact y (proj2 (JIC_run_case _ _ _ _ Hc Hw H))).
Qed.

(* after drain_cache_evictable nothing resident is at or below the boundary *)
Theorem C15_drain_restarts : forall cfg ops res y y' r,
  forallb op_c15 ops = true -> Forall op_wf ops ->
  run_case cfg ops = (res, Some y) ->
  run_op y ODrain = (Some y', r) ->
  let c' := m_cache (k_sm (y_core y')) in
  ch_evictable c' = ch_evictable (m_cache (k_sm (y_core y))) /\
  forall id p, In (id, p) (ch_entries c') -> opair_leb (Some id) (ch_evictable c') = false.
Proof.
  intros cfg ops res y y' r Hc Hw H. exact (CacheSys.cinv_drain_above y y' r (proj2 (JIC_run_case _ _ _ _ Hc Hw H))).
Qed.

(* over a limit after an accepted append: everything resident is pinned *)
Theorem C15_over_limit_pinned_restarts : forall cfg ops res y es y' o l,
  forallb op_c15 ops = true -> Forall op_wf ops ->
  run_case cfg ops = (res, Some y) ->
  es <> [] ->
  run_op y (OW (OAppend es)) = (Some y', ResW (WOk o l)) ->
  let c := m_cache (k_sm (y_core y)) in
  let c' := m_cache (k_sm (y_core y')) in
  need_evict c' (length (ch_entries c')) (ch_size c') = true ->
  forall id p, In (id, p) (ch_entries c') -> opair_leb (Some id) (ch_evictable c) = false.
Proof.
  intros cfg ops res y es y' o l Hc Hw H.
  exact (CacheSys.cinv_over_limit_pinned y es y' o l (proj2 (JIC_run_case _ _ _ _ Hc Hw H))).
Qed.

(* on these histories a restart always succeeds (whatever was left unflushed) *)
Theorem C15_restart_always_opens : forall cfg ops res y cfg',
  forallb op_c15 ops = true -> Forall op_wf ops ->
  run_case cfg ops = (res, Some y) ->
  exists y', run_op y (ORestart cfg') = (Some y', ResOpened).
Proof.
  intros cfg ops res y cfg' Hc Hw Hrun.
  destruct (JIC_restart_opens y cfg' (JIC_run_case _ _ _ _ Hc Hw Hrun)) as (y' & H & _).
  exists y'. exact H.
Qed.

(* the hypotheses are satisfiable on a history with tiny caches, an unflushed tail
   (an append and a user-data write) lost at the first restart, a Raft-illegal purge
   that removes chunk files, and a second restart *)
Example C15_restarts_inhabited :
  let cfg := mkConfig 1 4 100 10000 true in
  let cfg1 := mkConfig 0 0 3 1000 false in
  let cfg2 := mkConfig 2 1 1 50 true in
  let ops := [OW (OVote (1, 1)); OW (OAppend [((1, 0), [x01; x02; x03]%byte); ((1, 1), [x04]%byte)]);
              OFlush true; OW (OAppend [((1, 2), [x05; x06]%byte)]); OW (OUser (Some [x07]%byte));
              ORestart cfg1; OStat;
              OW (OAppend [((1, 2), [x08]%byte); ((1, 3), [x09]%byte)]);
              OW (OPurge (5, 0)); OW (OTruncate 3); OFlush false; ODrain;
              OW (OAppend [((1, 3), [x0a]%byte)]);
              ORestart cfg2; ORead 0 10; OW (OCommit (1, 3)); OStat] in
  forallb op_c15 ops = true /\ Forall op_wf ops /\
  exists res y, run_case cfg ops = (res, Some y) /\
    r_user (m_rs (k_sm (y_core y))) = None /\
    ch_entries (m_cache (k_sm (y_core y))) = [((1, 3), [x0a]%byte)] /\
    map f_id (y_disk y) = [258; 386; 480].
Proof.
  cbv zeta. split; [reflexivity|]. split.
  - repeat constructor; vm_compute; reflexivity.
  - (* only what is claimed of [y] is evaluated: the kernel's lazy machine, which coqchk uses for a
       [vm_compute] step, does not normalise the rest of the state *)
    set (r := run_case _ _).
    assert (H : match snd r with
                | Some y => Some (r_user (m_rs (k_sm (y_core y))), ch_entries (m_cache (k_sm (y_core y))),
                                  map f_id (y_disk y))
                | None => None
                end = Some (None, [((1, 3), [x0a]%byte)], [258; 386; 480])) by (vm_compute; reflexivity).
    clearbody r. destruct r as [res [y|]]; [|discriminate H]. injection H as H1 H2 H3.
    exists res, y. auto.
Qed.

Print Assumptions replay_cinv.
Print Assumptions C15_counts_exact_restarts.
Print Assumptions C15_keys_le_last_restarts.
Print Assumptions C15_stat_exact_restarts.
Print Assumptions C15_drain_restarts.
Print Assumptions C15_over_limit_pinned_restarts.
Print Assumptions C15_restart_always_opens.

(* ================================================================== C11 with restarts *)
(* the structural journal invariant of C11 holds in every state reachable by any history of
   well-formed operations WITH restarts anywhere (any configuration at each restart, unflushed
   bytes lost, cache limits arbitrary); update_state excluded *)
Theorem C11_invariant_restarts : forall cfg ops res y,
  forallb op_c15 ops = true -> Forall op_wf ops ->
  run_case cfg ops = (res, Some y) -> journal_wf y.
Proof.
  intros cfg ops res y Hc Hw H. exact (JI_jw _ (proj1 (JIC_run_case cfg ops res y Hc Hw H))).
Qed.
