(* The shape of the state that [open_dir] builds from ANY directory that opens
   (not only from directories left by an earlier run): which files exist afterwards,
   how they relate to the chunk list of the new core, and which files are completely
   synced. Used by RestartSys.v to start the L2 invariants at [zinit cfg d]. *)
From Coq Require Import List NArith Lia.
From RaftLog Require Import Model.Types Model.Codec Model.Core Model.Recover.
From RaftLog Require Import Proofs.CodecFacts Proofs.NoPanic Proofs.ScanFacts Proofs.RecoverFacts
  Proofs.AckFacts Proofs.Opens.
From RaftLog Require Proofs.AckDurable Proofs.JournalDisk.
Import ListNotations.
Local Open Scope N_scope.
Local Arguments enc_record : simpl never.

Module AD := AckDurable.
Notation fend := AD.fend.
Notation full_synced := AD.full_synced.
Notation contig := AD.contig.

Lemma list_rev_case {A} (l : list A) : l = [] \/ exists l0 x, l = l0 ++ [x].
Proof.
  destruct l as [|a l] using rev_ind; [now left|]. right. eauto.
Qed.

Lemma split_last_spec {A} (l : list A) : forall i x, split_last l = Some (i, x) -> l = i ++ [x].
Proof.
  induction l as [|a l IH]; intros i x H; cbn [split_last] in H; [discriminate|].
  destruct l as [|b l'].
  - inversion H; subst. reflexivity.
  - destruct (split_last (b :: l')) as [[i' z]|] eqn:E; [|discriminate].
    inversion H; subst. cbn [app]. f_equal. now apply IH.
Qed.

Lemma split_last_none {A} (l : list A) : split_last l = None -> l = [].
Proof.
  destruct (list_rev_case l) as [->|(l0 & x & ->)]; [reflexivity|].
  rewrite split_last_app. discriminate.
Qed.

Lemma Forall_removelast {A} (P : A -> Prop) (l : list A) : Forall P l -> Forall P (removelast l).
Proof.
  destruct (list_rev_case l) as [->|(l0 & x & ->)]; [auto|].
  rewrite removelast_last, Forall_app. tauto.
Qed.

Lemma contig_snoc' l g : contig l ->
  (forall l0 f, l = l0 ++ [f] -> fend f = f_id g) -> contig (l ++ [g]).
Proof.
  intros Hc Hl. destruct (list_rev_case l) as [->|(l0 & f & ->)].
  - simpl. auto.
  - apply AD.contig_snoc; [exact Hc|]. eapply Hl; reflexivity.
Qed.

Lemma encs_pos rs : rs <> [] -> 0 < N.of_nat (length (encs rs)).
Proof.
  destruct rs as [|r rs]; [congruence|]. intros _.
  pose proof (encs_nonempty r rs) as H. destruct (encs (r :: rs)); [congruence|]. simpl. lia.
Qed.

(* the file of a closed chunk after the loop; the last clause mirrors [Chunk::open] (chunk/mod.rs), which
   cuts a torn tail by [set_len] and then calls [sync_all]: a truncated file is completely synced *)
Definition frel (p : file) (c : closed) : Prop :=
  f_id p = ck_id (cl_chunk c) /\ fend p = ck_end (cl_chunk c) /\ f_id p < fend p /\
  (cl_truncated c = true -> full_synced p).

Lemma frel_cids P cl : Forall2 frel P cl -> map f_id P = cids cl.
Proof.
  induction 1 as [|p c P cl H _ IH]; [reflexivity|]. unfold cids in *. cbn [map].
  destruct H as (H & _). now rewrite H, IH.
Qed.

Section Loop.
(* [Q]: what is known of every file but the newest; [S]: what is known of every file;
   both hold of a file that has just been truncated and synced *)
Variables Q S : file -> Prop.
Hypothesis HQ : forall id data, Q (mkFile id data (N.of_nat (length data))).
Hypothesis HS : forall id data, S (mkFile id data (N.of_nat (length data))).

Lemma Q_full f : full_synced f -> Q f.
Proof. destruct f as [id data syn]. unfold AD.full_synced. cbn [f_synced f_data]. intros ->. apply HQ. Qed.

Lemma loaded_shape cfg t0 pe0 d D cl t pe : loaded cfg t0 pe0 d D cl t pe ->
  (Forall S d -> Forall S D) /\ (Forall Q d -> Forall Q D) /\
  (Forall Q (removelast d) -> Forall Q (removelast D)) /\
  Forall2 frel D cl /\ contig D /\ (forall P0 pl, D = P0 ++ [pl] -> pe = Some (fend pl)).
Proof.
  induction 1 as [|d D cl t pe f rs tl t1 _ (IS & IQ & _ & Irel & Ic & Ip) R Hne Hpe _].
  - repeat split; auto; try constructor. intros [|] ? E; discriminate E.
  - set (p := left_as f rs tl).
    assert (Hp : forall X : file -> Prop, (forall id data, X (mkFile id data (N.of_nat (length data)))) -> X f -> X p).
    { intros X HX Hf. unfold p. now destruct (left_as_cases f rs tl) as [[_ ->]|[_ ->]]. }
    assert (Hend : fend p = f_id f + N.of_nat (length (encs rs))).
    { unfold AD.fend, p. now rewrite left_as_id, (left_as_data _ _ _ _ R). }
    rewrite !removelast_last, !Forall_app. split; [|split; [|split; [exact IQ|split; [|split]]]].
    + intros [H1 H2]. inversion H2; subst. split; [|constructor; [apply Hp|]]; auto.
    + intros [H1 H2]. inversion H2; subst. split; [|constructor; [apply Hp|]]; auto.
    + apply Forall2_app; [exact Irel|]. constructor; [|constructor]. unfold frel. cbn [cl_chunk cl_truncated].
      rewrite Hend, ck_end_chunk_of. unfold p at 1 2. rewrite left_as_id. repeat split.
      * pose proof (encs_pos _ Hne). lia.
      * unfold p. destruct (left_as_cases f rs tl) as [[-> _]|[_ ->]]; [discriminate|reflexivity].
    + apply contig_snoc'; [exact Ic|]. intros l0 g E. unfold p. rewrite left_as_id. now apply Hpe, (Ip l0).
    + intros P0 pl E. apply app_inj_tail in E. destruct E as [_ <-]. now rewrite Hend.
Qed.
End Loop.

Record opened (S : file -> Prop) (y : sys) (old : list file) (fc : file) : Prop := {
  o_disk : y_disk y = old ++ [fc];
  o_sorted : disk_sorted (y_disk y);
  o_le : Forall S (y_disk y);
  o_contig : contig (old ++ [fc]);
  o_closed : map f_id old = cids (k_closed (y_core y));
  o_id : f_id fc = ck_id (k_open (y_core y));
  o_end : fend fc = ck_end (k_open (y_core y));
  o_pos : f_id fc < fend fc;
  o_pending : k_pending (y_core y) = [];
  o_removed : k_removed (y_core y) = [];
  o_cb : k_next_cb (y_core y) = 0;
  o_queue : y_queue y = [];
  o_acks : y_acks y = [];
  o_files : exists pl, y_files y = [mkWF (f_id fc) pl] }.

Lemma opened_fresh S y old fc : opened S y old fc -> AD.fresh S y old fc.
Proof. intros []. constructor; assumption. Qed.

Lemma reusable_some l init lastc : reusable l = Some (init, lastc) ->
  l = init ++ [lastc] /\ cl_truncated lastc = false.
Proof.
  unfold reusable. destruct (split_last l) as [[i x]|] eqn:E; [|discriminate].
  destruct (cl_truncated x) eqn:Et; [discriminate|]. intros H. inversion H; subst.
  split; [now apply split_last_spec|exact Et].
Qed.

Lemma reusable_none l : reusable l = None ->
  l = [] \/ exists init lastc, l = init ++ [lastc] /\ cl_truncated lastc = true.
Proof.
  unfold reusable. destruct (split_last l) as [[i x]|] eqn:E.
  - destruct (cl_truncated x) eqn:Et; [|discriminate]. intros _. right. exists i, x.
    split; [now apply split_last_spec|exact Et].
  - intros _. left. now apply split_last_none.
Qed.

Section Shape.
Variables Q S : file -> Prop.
Hypothesis HQ : forall id data, Q (mkFile id data (N.of_nat (length data))).
Hypothesis HS : forall id data, S (mkFile id data (N.of_nat (length data))).
Hypothesis HS0 : forall id data, S (mkFile id data 0).

Theorem open_dir_shape cfg d y :
  open_dir cfg d = OpenOk y -> disk_sorted d -> Forall S d -> Forall Q (removelast d) ->
  exists old fc, opened S y old fc /\ Forall Q old.
Proof.
  intros H Hs Hle HQd. apply open_dir_inv in H as (a & El & H).
  apply (open_loop_opens _ _ _ Hs) in El as (d0 & hl & pe & -> & L & _ & E).
  destruct (loaded_shape Q S HQ HS _ _ _ _ _ _ _ _ L) as (LS & LQ & LQr & Hrel & Hc & Hp).
  pose proof (proj1 (JournalDisk.fsorted_app_inv _ _ Hs)) as Hs'.
  apply (JournalDisk.fsorted_ids _ _ (proj1 (loaded_ids _ _ _ _ _ _ _ _ L))) in Hs'.
  assert (Hle' : Forall S (oa_disk a)) by (apply LS; rewrite Forall_app in Hle; tauto).
  assert (HQ' : Forall Q (removelast (oa_disk a))).
  { destruct E; [rewrite app_nil_r in HQd; auto|]. rewrite removelast_last in HQd. auto using Forall_removelast. }
  assert (Hprev : forall P0 pl, oa_disk a = P0 ++ [pl] -> oa_prev_end a = Some (fend pl)).
  { intros P0 pl Ed. specialize (Hp _ _ Ed). destruct E as [|h tl _ Hh]; [exact Hp|]. now rewrite (Hh _ Hp). }
  clear LS LQ LQr Hp E L.
  destruct H as [(init & lastc & Er & ->)|(id & Eid & Er & Eg & ->)].
  - apply reusable_some in Er. destruct Er as [Ecl Etr].
    rewrite Ecl in Hrel. apply Forall2_app_inv_r in Hrel.
    destruct Hrel as (old & l2 & Hr1 & Hr2 & ED). inversion Hr2 as [|fc ? ? ? Hfc Hnil]; subst.
    inversion Hnil; subst. destruct Hfc as (Hid & Hend & Hpos & _).
    exists old, fc. rewrite ED in *. rewrite removelast_last in HQ'. split; [|exact HQ'].
    constructor; cbn [y_disk y_core y_queue y_acks y_files k_closed k_open k_pending k_removed k_next_cb];
      try assumption; try reflexivity.
    + now apply frel_cids.
    + rewrite Hid. eauto.
  - apply reusable_none in Er.
    set (head := enc_record (RState (m_rs (oa_sm a)))) in *.
    set (nf := mkFile id head 0).
    assert (Hhead : 0 < N.of_nat (length head)).
    { pose proof (enc_record_min_len (RState (m_rs (oa_sm a)))). unfold head. lia. }
    assert (Hlt : AD.ids_lt (oa_disk a) id).
    { destruct (list_rev_case (oa_disk a)) as [E|(P0 & pl & E)]; [rewrite E; constructor|].
      pose proof (Hprev _ _ E) as Hp. rewrite Eid, Hp.
      assert (Hpl : f_id pl < fend pl).
      { rewrite E in Hrel. apply Forall2_app_inv_l in Hrel.
        destruct Hrel as (c1 & c2 & _ & Hr2 & _). inversion Hr2 as [|? c ? ? Hf _]; subst. apply Hf. }
      rewrite E in Hs' |- *. apply JournalDisk.fsorted_app_inv in Hs'. destruct Hs' as (_ & _ & Hlt).
      unfold AD.ids_lt. rewrite Forall_app. split.
      - rewrite Forall_forall. intros f Hf. specialize (Hlt f pl Hf (or_introl eq_refl)). lia.
      - constructor; [exact Hpl|constructor]. }
    assert (Hput : disk_put nf (oa_disk a) = oa_disk a ++ [nf]) by (apply JournalDisk.disk_put_end; exact Hlt).
    exists (oa_disk a), nf. split.
    + constructor; cbn [y_disk y_core y_queue y_acks y_files k_closed k_open k_pending k_removed k_next_cb].
      * exact Hput.
      * apply disk_put_sorted. exact Hs'.
      * apply JournalDisk.disk_put_Forall; [|exact Hle']. apply HS0.
      * apply contig_snoc'; [exact Hc|]. intros l0 f E. cbn [f_id nf]. rewrite Eid.
        now rewrite (Hprev _ _ E).
      * now apply frel_cids.
      * reflexivity.
      * rewrite JournalChunk.ck_end_push. reflexivity.
      * unfold AD.fend, nf. cbn [f_id f_data]. lia.
      * reflexivity.
      * reflexivity.
      * reflexivity.
      * reflexivity.
      * reflexivity.
      * eauto.
    + destruct Er as [Ecl|(init & lastc & Ecl & Etr)].
      * rewrite Ecl in Hrel. inversion Hrel. constructor.
      * rewrite Ecl in Hrel. apply Forall2_app_inv_r in Hrel.
        destruct Hrel as (old & l2 & Hr1 & Hr2 & ED). inversion Hr2 as [|fc ? ? ? Hfc Hnil]; subst.
        inversion Hnil; subst. destruct Hfc as (_ & _ & _ & Hfull).
        rewrite ED in *. rewrite removelast_last in HQ'. rewrite Forall_app. split; [exact HQ'|].
        constructor; [|constructor]. apply (Q_full Q HQ). now apply Hfull.
Qed.
End Shape.

Print Assumptions open_dir_shape.
