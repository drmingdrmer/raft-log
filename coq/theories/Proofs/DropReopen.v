(* C14, end to end: after the caller has dropped the store and the worker has finished
   (fault-free run), the directory itself opens again and shows everything journalled before
   the last flush call.  The directory of a reachable state is one of its own crash images, so
   [image_reopens] applies to it.  While the worker is alive and has nothing left to do, every
   file holds whole records and ends where the next begins ([idle_records], [AD.idle_shape]): the
   directory lies outside gap_class.  [SE] puts every recorded flush offset at or below what the
   caller has handed over, which at such a state is what the newest file holds: the directory
   keeps every flush offset, and the lower bound [acked] becomes [flushed_recs]. *)
From Coq Require Import List NArith Lia Arith Sorting.Sorted.
From RaftLog Require Import Model.Codec Model.Core Model.Recover Model.Run
  Model.Sys Spec.Spec Spec.Durable.
From RaftLog Require Import Proofs.CodecFacts Proofs.NoPanic Proofs.ScanFacts Proofs.RecoverFacts
  Proofs.OrderFacts Proofs.Refine.
From RaftLog Require Proofs.JournalDisk Proofs.JournalChunk Proofs.RestartSys.
From RaftLog Require Import Proofs.CrashBase Proofs.CrashJournal Proofs.CrashSteps Proofs.CrashRecover
  Proofs.CrashSpec Proofs.CrashPrefix Proofs.CrashFacts.
Import ListNotations.
Local Open Scope N_scope.
Local Arguments enc_record : simpl never.

Lemma ff_reach cfg z : zreach_ff cfg z -> zreach cfg z.
Proof. exact (RestartSys.zreach_from_ff_reach cfg [] z). Qed.

(* while the worker is alive and has nothing left to do, every file holds whole records of the
   journal (the newest one together with the caller's buffer) *)
Lemma idle_records z G : AD.full z -> w_alive (z_w z) = true -> JI z G -> worker_idle2 z ->
  forall f, In f (z_disk z) -> exists rs, Forall wf_record rs /\
    f_data f ++ (if N.eqb (ck_id (k_open (z_core z))) (f_id f) then k_pending (z_core z) else [])
    = encs rs.
Proof.
  intros F Hal J Hi f Hf.
  pose proof (ji_e _ _ J Hal) as HE. rewrite (AD.idle_stream _ Hi) in HE.
  pose proof (ei_E _ _ _ _ _ HE (f_id f)) as H. cbn [pw creates AD.creates flat_map] in H.
  rewrite (data_of_in _ _ (AD.b_sorted _ (AD.f_b _ F)) Hf), app_nil_r in H. cbn [app] in H. rewrite (H (in_map f_id _ _ Hf)).
  unfold gbytes. destruct (glook (f_id f) G) as [rs|] eqn:El; [|exists []; split; [constructor|reflexivity]].
  exists rs. split; [|reflexivity].
  apply glook_In in El. pose proof (gi_ok _ _ _ _ (ji_gi _ _ J)) as Hok.
  rewrite Forall_forall in Hok. apply (Hok _ El).
Qed.

Lemma idle_no_gap z G : AD.full z -> w_alive (z_w z) = true -> JI z G -> worker_idle2 z ->
  ~ gap_class (z_disk z).
Proof.
  intros F Hal J Hi (pre & f & g & post & Ed & Hne).
  pose proof (AD.b_sorted _ (AD.f_b _ F)) as Hsd. pose proof (AD.b_dle _ (AD.f_b _ F)) as Hdle.
  destruct (AD.idle_shape z (proj2 (AD.f_a _ F Hal)) Hi) as (_ & _ & _ & _ & _ & _ & Hcg & _).
  rewrite Ed in Hsd, Hdle, Hcg. apply AD.contig_mid in Hcg.
  destruct (idle_records z G F Hal J Hi f) as (rs & Hwf & E); [rewrite Ed; apply in_elt|].
  (* [f] is not the newest file *)
  apply JournalDisk.fsorted_app_inv in Hsd. destruct Hsd as (_ & Hsd & _).
  inversion Hsd as [|? ? _ Hall]; subst. pose proof (Forall_inv Hall) as Hlt.
  apply Forall_app in Hdle. destruct Hdle as [_ Hdle]. pose proof (Forall_inv (Forall_inv_tail Hdle)) as Hgle.
  unfold file_lt in Hlt. cbn beta in Hgle. destruct (N.eqb_spec (ck_id (k_open (z_core z))) (f_id f)) as [E0|_]; [lia|].
  rewrite app_nil_r in E. apply Hne. rewrite <- Hcg, E.
  pose proof (vlen_shape _ _ Hwf TS_none) as Hv. rewrite app_nil_r in Hv. rewrite Hv, <- E. reflexivity.
Qed.

(* the journal end offset of every flush call lies at or below the end of what the
   caller has handed over (everything journalled except [k_pending]) *)
Definition se (k : core) (U : N) : Prop :=
  U + N.of_nat (length (k_pending k)) <= ck_end (k_open k).
Definition SE (z : sys2) : Prop := Forall (se (z_core z)) (AD.flushed_us z).

Lemma se_aa_res k k' effs U : AF.aa_res k k' effs -> se k U -> se k' U.
Proof.
  unfold se. intros H Hs. destruct H as [|k' data _ Ho Hp _ _ _|k' data head prev st _ _ Ho Hp _ _ _].
  - exact Hs.
  - rewrite Ho, Hp, JournalChunk.ck_end_push, app_length. lia.
  - rewrite Ho, Hp, JournalChunk.ck_end_push, AD.ck_end_empty. cbn [length]. lia.
Qed.

Lemma se_aa_chain k k' effs U : AF.aa_chain k k' effs -> se k U -> se k' U.
Proof. induction 1 as [|k k1 k2 e1 e2 H1 _ IH]; intros Hs; [exact Hs|]. eapply IH, se_aa_res; eauto. Qed.

Lemma se_same k k' U : k_open k' = k_open k -> k_pending k' = k_pending k -> se k U -> se k' U.
Proof. unfold se. intros -> ->. auto. Qed.

Lemma SE_same z z' : k_open (z_core z') = k_open (z_core z) -> k_pending (z_core z') = k_pending (z_core z) ->
  g_flushed (z_ghost z') = g_flushed (z_ghost z) -> SE z -> SE z'.
Proof.
  unfold SE, AD.flushed_us. intros Ho Hp ->. apply Forall_impl. intros U. now apply se_same.
Qed.

Lemma SE_step z e z' v : SE z -> zstep z e = Some (z', v) -> SE z'.
Proof.
  intros S H. destruct e as [o| |k nf|ok|]; cbn [zstep] in H.
  - apply AF.zcall_inv in H. destruct H as (_ & _ & H).
    destruct H as [w k r effs E|cb k effs E|from to k items E| |o r _]; [| | | |exact S].
    + destruct (AF.do_write_chain _ _ _ _ _ E) as (k1 & Hch & (Ho & Hp & _)).
      unfold SE, AD.flushed_us in *. cbn [z_core z_ghost set_ghost set_todo set_core g_flushed].
      eapply Forall_impl; [|exact S]. intros U HU.
      eapply se_same; [exact Ho|exact Hp|]. eapply se_aa_chain; eauto.
    + rewrite AF.do_flush_eq in E. injection E as <- _.
      unfold SE, AD.flushed_us, AF.flush_ghost in *.
      cbn [z_core z_ghost set_ghost set_todo set_core g_flushed].
      rewrite map_app, Forall_app. split.
      * eapply Forall_impl; [|exact S]. unfold se. cbn [k_open k_pending length]. intros U HU. lia.
      * constructor; [|constructor]. unfold se. cbn [k_open k_pending length fst snd]. lia.
    + pose proof (AF.do_read_fields (z_core z) (z_disk z) from to) as Hf. rewrite E in Hf.
      cbn [fst] in Hf. destruct Hf as (Ho & Hp & _).
      eapply SE_same; [| | |exact S]; cbn [z_core z_ghost set_core]; auto.
    + eapply SE_same; [| | |exact S]; reflexivity.
  - apply AF.zeff_inv in H. destruct H; (eapply SE_same; [| | |exact S]; reflexivity).
  - destruct (AD.zrecv_frame _ _ _ _ _ H) as (_ & Hg & Hc & _).
    eapply SE_same; [| | |exact S]; rewrite ?Hc, ?Hg; reflexivity.
  - destruct (AD.zwork_frame _ _ _ _ H) as (_ & Hg & _ & (Ho & Hp & _) & _).
    eapply SE_same; [exact Ho|exact Hp|now rewrite Hg|exact S].
  - apply AF.zdrop_inv in H. destruct H as (_ & _ & ->). exact S.
Qed.

Lemma SE_from cfg d z : RestartSys.zreach_from cfg d z -> SE z.
Proof.
  revert z. apply (AF.reach_ind SE); [constructor|]. intros; eapply SE_step; eauto.
Qed.

Lemma idle_whole z G : AD.full z -> w_alive (z_w z) = true -> JI z G -> worker_idle2 z ->
  k_pending (z_core z) = [] -> whole_newest (z_disk z).
Proof.
  intros F Hal J Hi Hp pre f Ed.
  destruct (idle_records z G F Hal J Hi f) as (rs & Hwf & E); [rewrite Ed; apply in_elt|].
  exists rs. split; [exact Hwf|]. rewrite <- E, Hp. destruct (N.eqb _ _); now rewrite app_nil_r.
Qed.

(* number of records journalled before the last flush call (with or without callback) *)
Definition flushed_recs (z : sys2) : nat :=
  match rev (g_flushed (z_ghost z)) with
  | [] => 0%nat
  | (_, _, n) :: _ => length (htrace spec0 (firstn n (PL.hist z)))
  end.

(* the flush calls are recorded in call order; this makes [flushed_recs] at least [acked] *)
Definition FM (z : sys2) : Prop :=
  StronglySorted le (map (fun p : option N * N * nat => snd p) (g_flushed (z_ghost z)) ++
                     [length (g_writes (z_ghost z))]).

Lemma FM_same z z' : g_flushed (z_ghost z') = g_flushed (z_ghost z) ->
  g_writes (z_ghost z') = g_writes (z_ghost z) -> FM z -> FM z'.
Proof. unfold FM. intros -> ->. auto. Qed.

Lemma ss_le_last (l : list nat) a b : (a <= b)%nat -> StronglySorted le (l ++ [a]) -> StronglySorted le (l ++ [b]).
Proof.
  rewrite !OrderFacts.SS_app_iff. intros Hab (H1 & _ & H3). split; [exact H1|]. split; [repeat constructor|].
  intros x y Hx [<-|[]]. specialize (H3 x a Hx (or_introl eq_refl)). lia.
Qed.

Lemma ss_le_dup (l : list nat) a : StronglySorted le (l ++ [a]) -> StronglySorted le ((l ++ [a]) ++ [a]).
Proof.
  intros H. apply OrderFacts.SS_app_iff. split; [exact H|]. split; [repeat constructor|].
  intros x y Hx [<-|[]]. apply OrderFacts.SS_app_iff in H. destruct H as (_ & _ & H).
  apply in_app_or in Hx. destruct Hx as [Hx|[<-|[]]]; [|lia]. apply (H x a Hx). now left.
Qed.

Lemma FM_step z e z' v : FM z -> zstep z e = Some (z', v) -> FM z'.
Proof.
  intros S H. destruct e as [o| |k nf|ok|]; cbn [zstep] in H.
  - apply AF.zcall_inv in H. destruct H as (_ & _ & H).
    destruct H as [w k r effs E|cb k effs E|from to k items E| |o r _]; try exact S; unfold FM in *;
      cbn [z_ghost set_ghost set_todo set_core g_flushed g_writes AF.flush_ghost].
    + rewrite app_length. cbn [length]. eapply ss_le_last; [|exact S]. lia.
    + rewrite map_app. cbn [map snd]. now apply ss_le_dup.
  - apply AF.zeff_inv in H. destruct H; exact S.
  - destruct (AD.zrecv_frame _ _ _ _ _ H) as (_ & Hg & _). unfold FM in *. now rewrite Hg.
  - destruct (AD.zwork_frame _ _ _ _ H) as (_ & Hg & _). unfold FM in *. now rewrite Hg.
  - apply AF.zdrop_inv in H. destruct H as (_ & _ & ->). exact S.
Qed.

Lemma FM_from cfg d z : RestartSys.zreach_from cfg d z -> FM z.
Proof.
  revert z. apply (AF.reach_ind FM); [repeat constructor|]. intros; eapply FM_step; eauto.
Qed.

Lemma htrace_firstn_mono s (h : list wop) a b : (a <= b)%nat ->
  (length (htrace s (firstn a h)) <= length (htrace s (firstn b h)))%nat.
Proof.
  intros Hab. replace (firstn a h) with (firstn a (firstn b h)).
  - rewrite <- (firstn_skipn a (firstn b h)) at 2. rewrite htrace_app, app_length. lia.
  - rewrite firstn_firstn. f_equal. lia.
Qed.

Lemma acked_le_flushed_recs cfg z : zreach cfg z -> (acked z <= flushed_recs z)%nat.
Proof.
  intros Hr. apply (acked_le cfg z _ Hr). intros c Ue ne He _.
  pose proof (FM_from cfg [] z Hr) as HF. unfold FM in HF.
  apply OrderFacts.SS_app_iff in HF. destruct HF as (HF & _).
  unfold flushed_recs. rewrite <- (rev_involutive (g_flushed (z_ghost z))) in He, HF.
  destruct (rev (g_flushed (z_ghost z))) as [|[[cb U] n] rest]; [destruct He|].
  cbn [rev] in He, HF. rewrite map_app in HF. apply OrderFacts.SS_app_iff in HF. destruct HF as (_ & _ & HF).
  apply htrace_firstn_mono. apply in_app_or in He. destruct He as [He|[He|[]]].
  - apply (HF ne n); [|now left]. apply in_map_iff. exists (Some c, Ue, ne). auto.
  - inversion He; subst. lia.
Qed.

(* The directory of a state whose worker is alive and has nothing left to do is one of its own crash
   images, outside the gap class, and keeps every flush offset.  Sync failures may have happened. *)
Lemma reopen_gen : forall cfg cfg' z,
  zreach cfg z -> w_alive (z_w z) = true -> hist_wf z -> PL.hist_legal z -> worker_idle2 z ->
  c_truncate cfg' = true \/ k_pending (z_core z) = [] ->
  exists y' k sp, open_dir cfg' (z_disk z) = OpenOk y' /\
    (flushed_recs z <= k)%nat /\ (k <= issued z)%nat /\
    nth_error (ref_states (PL.hist z)) k = Some sp /\
    m_rs (k_sm (y_core y')) = spec_state sp /\
    map f_log (m_log (k_sm (y_core y'))) = map g_ent (sp_entries sp).
Proof.
  intros cfg cfg' z Hr Hal Hw Hl Hi Ht0.
  pose proof (AD.zreach_full cfg z Hr) as F. destruct (L2_journal cfg z Hr Hw) as [G J].
  destruct (image_reopens cfg cfg' z (z_disk z) Hr Hw Hl (crash_image_self z (AF.C04_synced_le_written cfg z Hr)) (idle_no_gap z G F Hal J Hi))
    as (y' & k & sp & Ho & Hk & H).
  { destruct Ht0 as [Ht0|Ht0]; [now left|right]. apply (idle_whole z G F Hal J Hi Ht0). }
  exists y', k, sp. split; [exact Ho|]. split; [|exact H].
  unfold flushed_recs. destruct (rev (g_flushed (z_ghost z))) as [|[[cb U] n] rest] eqn:Erev; [lia|].
  assert (He : In (cb, U, n) (g_flushed (z_ghost z))) by (apply in_rev; rewrite Erev; now left).
  apply (Hk _ _ _ He), kept_self. intros pre f Ed.
  (* the flush call lies at or below what the caller has handed over ([SE]), and at an idle
     state that is what the newest file holds *)
  destruct (AD.idle_shape z (proj2 (AD.f_a _ F Hal)) Hi) as (old & tin & fc & Ed2 & _ & _ & _ & Hend).
  rewrite Ed2, !app_assoc in Ed. apply app_inj_tail in Ed. destruct Ed as [_ <-].
  pose proof (SE_from cfg [] z Hr) as HSE. unfold SE in HSE. rewrite Forall_forall in HSE.
  assert (HUse : se (z_core z) U).
  { apply HSE. unfold AD.flushed_us. apply in_map_iff. exists (cb, U, n). split; [reflexivity|exact He]. }
  unfold se in HUse. unfold AD.fend in Hend. lia.
Qed.

(* A store that was dropped after a run without I/O failures and whose worker has finished
   (C14_drain_terminates: it always does; C14_quiescent: nothing changes the directory
   afterwards): its directory opens again (with truncation of incomplete records enabled)
   and the new instance shows exactly the k-th state of the reference log, where k is at
   least the number of records journalled before the LAST flush call, acknowledged or not,
   with or without callback (flushed_recs z), and at most the number journalled so far
   (issued z). *)
Theorem C14_reopen_after_drop : forall cfg cfg' z,
  zreach_ff cfg z -> hist_wf z -> PL.hist_legal z ->
  z_dropped z = true -> worker_idle2 z -> c_truncate cfg' = true ->
  exists y' k sp, open_dir cfg' (z_disk z) = OpenOk y' /\
    (flushed_recs z <= k)%nat /\ (k <= issued z)%nat /\
    nth_error (ref_states (PL.hist z)) k = Some sp /\
    m_rs (k_sm (y_core y')) = spec_state sp /\
    map f_log (m_log (k_sm (y_core y'))) = map g_ent (sp_entries sp).
Proof.
  intros cfg cfg' z Hff Hw Hl _ Hi Ht. apply (reopen_gen cfg cfg' z (ff_reach _ _ Hff) (RestartSys.ff_alive_from cfg [] z Hff) Hw Hl Hi). now left.
Qed.

(* The same WITHOUT truncation (any cfg'), when the last call before the drop was a flush
   (nothing journalled after it: the caller's buffer is empty): the drained directory holds
   whole records only, so nothing has to be cut. *)
Theorem C14_reopen_after_drop_no_truncate : forall cfg cfg' z,
  zreach_ff cfg z -> hist_wf z -> PL.hist_legal z ->
  z_dropped z = true -> worker_idle2 z -> k_pending (z_core z) = [] ->
  exists y' k sp, open_dir cfg' (z_disk z) = OpenOk y' /\
    (flushed_recs z <= k)%nat /\ (k <= issued z)%nat /\
    nth_error (ref_states (PL.hist z)) k = Some sp /\
    m_rs (k_sm (y_core y')) = spec_state sp /\
    map f_log (m_log (k_sm (y_core y'))) = map g_ent (sp_entries sp).
Proof.
  intros cfg cfg' z Hff Hw Hl _ Hi Hp. apply (reopen_gen cfg cfg' z (ff_reach _ _ Hff) (RestartSys.ff_alive_from cfg [] z Hff) Hw Hl Hi). now right.
Qed.

Print Assumptions C14_reopen_after_drop.
Print Assumptions C14_reopen_after_drop_no_truncate.

Print Assumptions acked_le_flushed_recs.

(* the weaker lower bound of C03_prefix, as a corollary *)
Corollary C14_reopen_after_drop_acked : forall cfg cfg' z,
  zreach_ff cfg z -> hist_wf z -> PL.hist_legal z ->
  z_dropped z = true -> worker_idle2 z -> c_truncate cfg' = true ->
  exists y' k sp, open_dir cfg' (z_disk z) = OpenOk y' /\
    (acked z <= k)%nat /\ (k <= issued z)%nat /\
    nth_error (ref_states (PL.hist z)) k = Some sp /\
    m_rs (k_sm (y_core y')) = spec_state sp /\
    map f_log (m_log (k_sm (y_core y'))) = map g_ent (sp_entries sp).
Proof.
  intros cfg cfg' z Hff Hw Hl Hd Hi Ht.
  destruct (C14_reopen_after_drop cfg cfg' z Hff Hw Hl Hd Hi Ht) as (y' & k & sp & Ho & Hk & H).
  exists y', k, sp. split; [exact Ho|]. split; [|exact H].
  eapply Nat.le_trans; [apply (acked_le_flushed_recs cfg z (ff_reach _ _ Hff))|exact Hk].
Qed.

Print Assumptions C14_reopen_after_drop_acked.

(* three appends fill chunk 0 (four records with its head snapshot): rotation to chunk
   114 (create, head, tail of chunk 0, AppendFile); a vote; a flush with callback; a
   commit that is journalled but never flushed; the caller drops the store while the
   rotation and the flush are still queued; the worker drains the queue (two batches),
   acknowledges the flush and stops *)
Definition dr_cfg : config := mkConfig 10 1000 4 1000 true.
Definition dr_events : list zev :=
  let W := ZWork true in
  [ZCall (OW (OAppend [((1, 0), [])])); ZCall (OW (OAppend [((1, 1), [])]));
   ZCall (OW (OAppend [((1, 2), [])])); ZEff; ZEff; ZEff; ZEff;
   ZCall (OW (OVote (2, 2))); ZCall (OFlush true); ZEff;
   ZCall (OW (OCommit (1, 1))); ZDrop;
   ZRecv 0 true; W; W; W; W; W; W; W; W; W; W;
   ZRecv 0 false; W; W; W; W; W; W; W; W; W; W; W].

Definition dr_z : sys2 :=
  match zrun (AF.zstart dr_cfg) dr_events with Some (z, _) => z | None => AF.zstart dr_cfg end.

(* the run is evaluated once; everything below is read off this *)
Lemma dr_facts :
  let r := zrun (AF.zstart dr_cfg) dr_events in
  let z := match r with Some (z, _) => z | None => AF.zstart dr_cfg end in
  (match r with Some _ => true | None => false end) = true /\
  PL.hist z =
    [OAppend [((1, 0), [])]; OAppend [((1, 1), [])]; OAppend [((1, 2), [])]; OVote (2, 2); OCommit (1, 1)] /\
  z_dropped z = true /\ worker_idle2 z /\
  flushed_recs z = 4%nat /\ acked z = 4%nat /\ issued z = 5%nat /\
  z_acks z = [(0, true)] /\
  map (fun f => (f_id f, length (f_data f))) (z_disk z) = [(0, 114%nat); (114, 62%nat)] /\
  length (k_pending (z_core z)) = 28%nat.
Proof. vm_compute. repeat split. Qed.

Example C14_reopen_nonvacuous :
  zreach_ff dr_cfg dr_z /\ hist_wf dr_z /\ PL.hist_legal dr_z /\
  z_dropped dr_z = true /\ worker_idle2 dr_z /\ c_truncate dr_cfg = true /\
  flushed_recs dr_z = 4%nat /\ acked dr_z = 4%nat /\ issued dr_z = 5%nat /\
  z_acks dr_z = [(0, true)] /\
  map (fun f => (f_id f, length (f_data f))) (z_disk dr_z) = [(0, 114%nat); (114, 62%nat)] /\
  length (k_pending (z_core dr_z)) = 28%nat.
Proof.
  destruct dr_facts as (Fr & Fh & Fd & Fi & Fl & Fa & Fis & Fk & Fm & Fp). unfold dr_z.
  split; [exact (run_reach_ff dr_cfg dr_events eq_refl Fr)|].
  split. { unfold hist_wf. unfold PL.hist in Fh. rewrite Fh. repeat constructor; vm_compute; reflexivity. }
  split. { unfold PL.hist_legal. rewrite Fh. vm_compute. reflexivity. }
  auto 15.
Qed.

Example C14_reopen_example : exists y' k sp, open_dir dr_cfg (z_disk dr_z) = OpenOk y' /\
  (4 <= k)%nat /\ (k <= 5)%nat /\ nth_error (ref_states (PL.hist dr_z)) k = Some sp /\
  m_rs (k_sm (y_core y')) = spec_state sp /\
  map f_log (m_log (k_sm (y_core y'))) = map g_ent (sp_entries sp).
Proof.
  destruct C14_reopen_nonvacuous as (H1 & H2 & H3 & H4 & H5 & H6 & H7 & _ & H9 & _).
  destruct (C14_reopen_after_drop dr_cfg dr_cfg dr_z H1 H2 H3 H4 H5 H6)
    as (y' & k & sp & Ho & Ha & Hi & Hn & Hrs & Hlg).
  exists y', k, sp. rewrite H7 in Ha. rewrite H9 in Hi. auto 10.
Qed.

Print Assumptions C14_reopen_nonvacuous.
Print Assumptions C14_reopen_example.

(* the same run without the last commit: the last call before the drop is the flush, the
   caller's buffer is empty, and the directory is reopened with truncation disabled *)
Definition dr_cfg_nt : config := mkConfig 10 1000 4 1000 false.
Definition dr2_events : list zev :=
  let W := ZWork true in
  [ZCall (OW (OAppend [((1, 0), [])])); ZCall (OW (OAppend [((1, 1), [])]));
   ZCall (OW (OAppend [((1, 2), [])])); ZEff; ZEff; ZEff; ZEff;
   ZCall (OW (OVote (2, 2))); ZCall (OFlush true); ZEff; ZDrop;
   ZRecv 0 true; W; W; W; W; W; W; W; W; W; W;
   ZRecv 0 false; W; W; W; W; W; W; W; W; W; W; W].

Definition dr2_z : sys2 :=
  match zrun (AF.zstart dr_cfg) dr2_events with Some (z, _) => z | None => AF.zstart dr_cfg end.

Lemma dr2_facts :
  let r := zrun (AF.zstart dr_cfg) dr2_events in
  let z := match r with Some (z, _) => z | None => AF.zstart dr_cfg end in
  (match r with Some _ => true | None => false end) = true /\
  PL.hist z = [OAppend [((1, 0), [])]; OAppend [((1, 1), [])]; OAppend [((1, 2), [])]; OVote (2, 2)] /\
  z_dropped z = true /\ worker_idle2 z /\ k_pending (z_core z) = [] /\
  flushed_recs z = 4%nat /\ issued z = 4%nat /\ z_acks z = [(0, true)] /\
  map (fun f => (f_id f, length (f_data f))) (z_disk z) = [(0, 114%nat); (114, 62%nat)].
Proof. vm_compute. repeat split. Qed.

Example C14_reopen_no_truncate_nonvacuous :
  zreach_ff dr_cfg dr2_z /\ hist_wf dr2_z /\ PL.hist_legal dr2_z /\
  z_dropped dr2_z = true /\ worker_idle2 dr2_z /\ k_pending (z_core dr2_z) = [] /\
  c_truncate dr_cfg_nt = false /\
  flushed_recs dr2_z = 4%nat /\ issued dr2_z = 4%nat /\ z_acks dr2_z = [(0, true)] /\
  map (fun f => (f_id f, length (f_data f))) (z_disk dr2_z) = [(0, 114%nat); (114, 62%nat)].
Proof.
  destruct dr2_facts as (Fr & Fh & Fd & Fi & Fp & Fl & Fis & Fk & Fm). unfold dr2_z.
  split; [exact (run_reach_ff dr_cfg dr2_events eq_refl Fr)|].
  split. { unfold hist_wf. unfold PL.hist in Fh. rewrite Fh. repeat constructor; vm_compute; reflexivity. }
  split. { unfold PL.hist_legal. rewrite Fh. vm_compute. reflexivity. }
  auto 15.
Qed.

Example C14_reopen_no_truncate_example : exists y' sp,
  open_dir dr_cfg_nt (z_disk dr2_z) = OpenOk y' /\
  nth_error (ref_states (PL.hist dr2_z)) 4 = Some sp /\
  m_rs (k_sm (y_core y')) = spec_state sp /\
  map f_log (m_log (k_sm (y_core y'))) = map g_ent (sp_entries sp).
Proof.
  destruct C14_reopen_no_truncate_nonvacuous as (H1 & H2 & H3 & H4 & H5 & H6 & _ & H7 & H8 & _).
  destruct (C14_reopen_after_drop_no_truncate dr_cfg dr_cfg_nt dr2_z H1 H2 H3 H4 H5 H6)
    as (y' & k & sp & Ho & Ha & Hi & Hn & Hrs & Hlg).
  rewrite H7 in Ha. rewrite H8 in Hi. assert (k = 4%nat) by lia. subst k.
  exists y', sp. auto.
Qed.

Print Assumptions C14_reopen_no_truncate_nonvacuous.
Print Assumptions C14_reopen_no_truncate_example.
