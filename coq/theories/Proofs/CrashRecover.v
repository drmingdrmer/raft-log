(* C05, stage B: recovery of crash images of the L2 system. Every file of a crash image is the complete
   records of its journal file followed by nothing, a torn record, or zeros from a record boundary, so no
   partially written record becomes visible. [gap_class] is the known failure class (finding F3): an
   older file whose complete records do not reach the name of the next file. Outside it the image opens
   (C05_recovers_outside_known); inside it C05 is false (C05_refuted_gap). *)
From Coq Require Import List NArith Lia Arith Sorting.Sorted.
From RaftLog Require Import Base.Bytes Model.Types Model.Codec Model.Core
  Model.Recover Model.Run Model.Sys Spec.Durable.
From RaftLog Require Import Proofs.CodecFacts Proofs.NoPanic Proofs.ScanFacts Proofs.RecoverFacts.
From RaftLog Require Proofs.CorruptFacts Proofs.PurgeFacts.
From RaftLog Require Import Proofs.CrashBase Proofs.CrashJournal Proofs.CrashSteps.
Import ListNotations.
Local Open Scope N_scope.
Local Arguments enc_record : simpl never.

Lemma encs_firstn_skipn j rs : encs rs = encs (firstn j rs) ++ encs (skipn j rs).
Proof. rewrite <- encs_app, firstn_skipn. reflexivity. Qed.

Lemma encs_firstn_full j rs :
  length (encs (firstn j rs)) = length (encs rs) -> firstn j rs = rs.
Proof.
  intros H. rewrite (encs_firstn_skipn j rs), app_length in H.
  destruct (skipn j rs) as [|r l] eqn:E.
  - rewrite <- (firstn_skipn j rs) at 2. rewrite E. now rewrite app_nil_r.
  - pose proof (CorruptFacts.encs_length_pos (r :: l) ltac:(discriminate)). lia.
Qed.

Lemma encs_firstn_le j rs : (length (encs (firstn j rs)) <= length (encs rs))%nat.
Proof. rewrite (encs_firstn_skipn j rs), app_length. lia. Qed.

Lemma scan_tail_shape rs tl : Forall wf_record rs -> tail_shape tl ->
  exists e, scan_file (encs rs ++ tl) = (sized rs, tl, e).
Proof.
  intros Hrs Ht. destruct Ht as [|r q Hr Hq Hne|k Hk].
  - exists SEnd. rewrite app_nil_r. now apply scan_encs.
  - exists SEof. eapply scan_torn; eauto.
  - destruct (Nat.ltb_spec k 28).
    + exists SEof. apply scan_zero_tail_short; auto.
    + exists SInvalid. apply scan_zero_tail_long; auto.
Qed.

(* the length of the complete records at the start of a file *)
Definition vlen (data : bytes) : nat := length data - length (snd (fst (scan_file data))).

Lemma vlen_shape rs tl : Forall wf_record rs -> tail_shape tl ->
  vlen (encs rs ++ tl) = length (encs rs).
Proof.
  intros Hrs Ht. destruct (scan_tail_shape rs tl Hrs Ht) as [e E].
  unfold vlen. rewrite E. simpl. rewrite app_length. lia.
Qed.

Lemma whole_records_wf bs : whole_records bs -> exists rs, Forall wf_record rs /\ bs = encs rs.
Proof.
  intros (rs & E & H). exists rs. split; [|exact E].
  eapply Forall_impl; [|exact H]. simpl. intros r Hr. apply dec_record_canonical in Hr. tauto.
Qed.

Definition image_of (data data' : bytes) (syn : N) : Prop :=
  exists n k : nat, syn <= N.of_nat n /\ (n + k <= length data)%nat /\
    data' = firstn n data ++ zeros k /\ (k = 0%nat \/ whole_records (firstn n data)).

Lemma file_image_of f f' : file_image f f' ->
  f_id f' = f_id f /\ image_of (f_data f) (f_data f') (f_synced f).
Proof. intros [H1 H2]. split; [exact H1|exact H2]. Qed.

Lemma torn_not_zero_ok r q : wf_record r -> pprefix q (enc_record r) -> q <> [] -> tail_shape q.
Proof. intros. eapply TS_torn; eauto. Qed.

Lemma image_shape recs data data' syn :
  Forall wf_record recs -> bprefix data (encs recs) -> image_of data data' syn ->
  exists j tl, data' = encs (firstn j recs) ++ tl /\ tail_shape tl /\
    Forall wf_record (firstn j recs) /\
    (length data' <= length data)%nat.
Proof.
  intros Hw Hp (n & k & Hs & Hl & E & Hk).
  assert (Hn : (n <= length data)%nat) by lia.
  assert (Efn : firstn n data = firstn n (encs recs)).
  { destruct Hp as [t ->]. rewrite firstn_app. replace (n - length data)%nat with 0%nat by lia.
    simpl. now rewrite app_nil_r. }
  assert (Hle : (n <= length (encs recs))%nat).
  { apply bprefix_length in Hp. lia. }
  destruct (cut_tail_shape recs n Hw Hle) as (j & q & Eq & Hwj & Hq).
  assert (Hlen : (length data' <= length data)%nat).
  { rewrite E, app_length, firstn_length, zeros_length. lia. }
  destruct k as [|k].
  - exists j, q. simpl in E. rewrite app_nil_r in E. rewrite <- Efn in Eq. rewrite <- E in Eq.
    repeat (split; [assumption|]). assumption.
  - destruct Hk as [Hk|Hk]; [discriminate|].
    assert (Eq0 : q = []).
    { destruct Hq as [|r q Hr Hpq Hne|z Hz]; [reflexivity| |].
      - rewrite Efn, Eq in Hk.
        destruct (scan_tail_shape (firstn j recs) q Hwj (TS_torn r q Hr Hpq Hne)) as [e Es].
        apply whole_records_wf in Hk. destruct Hk as (rs' & Hw' & E').
        rewrite E', (scan_encs rs' Hw') in Es. inversion Es; subst. congruence.
      - rewrite Efn, Eq in Hk.
        destruct (scan_tail_shape (firstn j recs) (zeros z) Hwj (TS_zero z Hz)) as [e Es].
        apply whole_records_wf in Hk. destruct Hk as (rs' & Hw' & E').
        rewrite E', (scan_encs rs' Hw') in Es. inversion Es; subst.
        destruct z; [lia|discriminate]. }
    subst q. rewrite app_nil_r in Eq.
    exists j, (zeros (S k)). split; [rewrite E, Efn, Eq; reflexivity|]. split; [constructor; lia|].
    repeat (split; [assumption|]). assumption.
Qed.

Definition runs (g : jfile) : Prop :=
  exists st tl st', snd g = RState st :: tl /\ RS.rs_run st tl = Some st'.

Lemma Chain_runs : forall G cur, RS.Chain cur G -> Forall runs G.
Proof.
  induction G as [|g G IH]; intros cur H; [constructor|].
  cbn [RS.Chain] in H. destruct H as [(st & tl & E1 & E2) H2]. constructor; [|eapply IH; eauto].
  exists st, tl. eexists. eauto.
Qed.

Lemma rs_run_firstn st tl st' j : RS.rs_run st tl = Some st' ->
  exists st'', RS.rs_run st (firstn j tl) = Some st''.
Proof.
  intros H. rewrite <- (firstn_skipn j tl), RS.rs_run_app in H.
  destruct (RS.rs_run st (firstn j tl)) as [s|]; [eauto|discriminate].
Qed.

Lemma chunk_replay_prefix g j t : runs g ->
  exists t1, RS.chunk_replay t (fst g, firstn j (snd g)) = (t1, None).
Proof.
  intros (st & tl & st' & E & Hr).
  destruct (rs_run_firstn (m_rs t) (snd g) st' j) as [x Hx]; [rewrite E; exact Hr|].
  destruct (RS.rapply_run _ (RS.chunk_pre t) (fst g) (fst g) x Hx) as (t1 & H & _). eauto.
Qed.

Lemma chunk_replay_full g t : runs g -> exists t1, RS.chunk_replay t g = (t1, None).
Proof.
  intros H. destruct (chunk_replay_prefix g (length (snd g)) t H) as [t1 E].
  rewrite firstn_all in E. destruct g. eauto.
Qed.

Lemma replay_files_ok : forall G t, Forall runs G -> exists t1, RS.replay_files t G = (t1, None).
Proof.
  induction G as [|g G IH]; intros t H; [simpl; eauto|].
  inversion H as [|? ? Hg HG]; subst. cbn [RS.replay_files].
  destruct (chunk_replay_full g t Hg) as [t1 E]. rewrite E. apply IH, HG.
Qed.

Lemma Abut_app (A B : list jfile) : RF.Abut (A ++ B) -> RF.Abut A /\ RF.Abut B.
Proof.
  induction A as [|a A IH]; intros H; simpl in *; [auto|].
  destruct H as [H1 H2]. destruct (IH H2) as [HA HB]. split; [|exact HB]. split; [|exact HA].
  destruct A as [|a' A']; simpl in *; [exact I|exact H1].
Qed.

Lemma map_split3 {A B} (f : A -> B) l a b c : map f l = a ++ b ++ c ->
  exists la lb lc, l = la ++ lb ++ lc /\ map f la = a /\ map f lb = b /\ map f lc = c.
Proof.
  intros H. apply map_eq_app in H. destruct H as (la & l2 & -> & Ha & H).
  apply map_eq_app in H. destruct H as (lb & lc & -> & Hb & Hc). exists la, lb, lc. auto.
Qed.

Lemma glook_sorted G id rs : StronglySorted N.lt (map fst G) -> In (id, rs) G -> glook id G = Some rs.
Proof.
  intros Hs Hin. destruct (in_split _ _ Hin) as (A & B & ->).
  rewrite map_app in Hs. simpl in Hs. apply JournalDisk.ss_nodup_app in Hs. destruct Hs as [Hs _].
  rewrite glook_app, (glook_notin _ _ Hs). simpl. now rewrite N.eqb_refl.
Qed.

Lemma Forall2_compose {A B C} (P : A -> B -> Prop) (Q : A -> C -> Prop) (R : B -> C -> Prop) :
  (forall a b c, P a b -> Q a c -> R b c) ->
  forall la lb lc, Forall2 P la lb -> Forall2 Q la lc -> Forall2 R lb lc.
Proof.
  intros H la. induction la as [|a la IH]; intros lb lc H1 H2; inversion H1; inversion H2; subst.
  - constructor.
  - constructor; eauto.
Qed.

Lemma Forall2_map_eq {A B C} (f : A -> C) (g : B -> C) la lb :
  map f la = map g lb -> Forall2 (fun a b => f a = g b) la lb.
Proof.
  revert lb. induction la as [|a la IH]; intros [|b lb] H; try discriminate; constructor.
  - now inversion H.
  - apply IH. now inversion H.
Qed.

Lemma Forall2_and {A B} (P Q : A -> B -> Prop) la lb :
  Forall2 P la lb -> (forall a b, In a la -> In b lb -> P a b -> Q a b) -> Forall2 (fun a b => P a b /\ Q a b) la lb.
Proof.
  induction 1 as [|a b la lb Hab H IH]; intros HQ; constructor.
  - split; [exact Hab|]. apply HQ; simpl; auto.
  - apply IH. intros; apply HQ; simpl; auto.
Qed.

(* a file of a crash image against its journal file: [j] whole records, then nothing, a torn record
   or zeros ([tail_shape]); [image_facts]: the journal files [Gd] of the files present, between those
   removed ([A]) and those still to be created ([C]), each present file a prefix, each image file
   [img_rel] *)
Definition img_rel (f' : file) (g : jfile) : Prop :=
  f_id f' = fst g /\
  exists j tl, f_data f' = encs (firstn j (snd g)) ++ tl /\ tail_shape tl /\
               Forall wf_record (firstn j (snd g)) /\
               (length (f_data f') <= length (encs (snd g)))%nat.

Record image_facts (z : sys2) (d' : disk) (G Gd : list jfile) : Prop := {
  if_ji : JI z G;
  if_sub : exists A C, G = A ++ Gd ++ C /\ map fst C = creates (z_todo z);
  if_ids : map fst Gd = map f_id (z_disk z);
  if_pre : Forall2 (fun f g => f_id f = fst g /\ bprefix (f_data f) (encs (snd g))) (z_disk z) Gd;
  if_img : Forall2 img_rel d' Gd }.

Lemma inv_sorted z : PurgeFacts.Inv z -> disk_sorted (z_disk z).
Proof.
  intros (gone & rmw & keep & Hci). apply JournalDisk.dsorted_iff. exact (PurgeFacts.cinv_dsorted _ _ _ _ Hci).
Qed.

Lemma image_analysis_inv z d' G : PurgeFacts.Inv z -> JI z G -> crash_image z d' ->
  exists Gd, image_facts z d' G Gd.
Proof.
  intros Hinv J Hc. pose proof (inv_sorted z Hinv) as Hsd.
  destruct Hinv as (gone & rmw & keep & Hci).
  pose proof (PurgeFacts.ci_created _ _ _ _ Hci) as Hcr. unfold JournalDisk.ids in Hcr.
  pose proof (gi_ids _ _ _ _ (ji_gi _ _ J)) as Hi. rewrite Hcr, <- !app_assoc in Hi.
  apply map_split3 in Hi. destruct Hi as (A & Gd & C & EG & _ & Hd & HC).
  pose proof (gi_sorted _ _ _ _ (ji_gi _ _ J)) as Hs.
  pose proof (gi_ok _ _ _ _ (ji_gi _ _ J)) as Hok.
  assert (Hpre : Forall2 (fun f g => f_id f = fst g /\ bprefix (f_data f) (encs (snd g))) (z_disk z) Gd).
  { apply Forall2_and; [apply Forall2_map_eq; now symmetry|].
    intros f g Hf Hg Eid. pose proof (ji_hw _ _ J (f_id f)) as H.
    rewrite (data_of_in _ _ Hsd Hf) in H.
    assert (Hg' : In (fst g, snd g) G).
    { rewrite EG. apply in_or_app. right. apply in_or_app. left. now destruct g. }
    unfold gbytes in H. rewrite Eid, (glook_sorted G _ _ Hs Hg') in H.
    eapply bprefix_trans; [apply bprefix_app|]. apply H. apply in_or_app. left.
    rewrite <- Eid. now apply in_map. }
  cut (Forall2 img_rel d' Gd).
  { intros Himg. exists Gd. constructor; [exact J|eauto|exact Hd|exact Hpre|exact Himg]. }
  assert (Hokd : Forall gfile_ok Gd).
  { rewrite EG, !Forall_app in Hok. tauto. }
  assert (Hpre' : Forall2 (fun f g => (f_id f = fst g /\ bprefix (f_data f) (encs (snd g))) /\ gfile_ok g)
                          (z_disk z) Gd).
  { apply Forall2_and; [exact Hpre|]. intros f g _ Hg _. rewrite Forall_forall in Hokd. now apply Hokd. }
  eapply Forall2_compose; [|exact Hc|exact Hpre'].
  intros f f' g Hi [[Eid Hp] [Hwf _]]. apply file_image_of in Hi. destruct Hi as [Ei Him].
  split; [congruence|].
  destruct (image_shape (snd g) (f_data f) (f_data f') (f_synced f) Hwf Hp Him)
    as (j & tl & E & Ht & Hwj & Hl).
  exists j, tl. repeat (split; [assumption|]). apply bprefix_length in Hp. lia.
Qed.

Lemma image_analysis cfg z d' G : zreach cfg z -> JI z G -> crash_image z d' ->
  exists Gd, image_facts z d' G Gd.
Proof. intros Hr. apply image_analysis_inv, (PurgeFacts.zreach_Inv cfg z Hr). Qed.

(* an older file (not the newest) whose complete records do not reach the name of the
   next file: it was cut short (or zero-filled) by the crash, or its tail had not been
   written yet when the next chunk file was created *)
Definition gap_class (d' : disk) : Prop :=
  exists pre f g post, d' = pre ++ f :: g :: post /\
                       f_id f + N.of_nat (vlen (f_data f)) <> f_id g.

Lemma gap_class_tail f l : ~ gap_class (f :: l) -> ~ gap_class l.
Proof.
  intros H (pre & a & b & post & E & Hne). apply H. exists (f :: pre), a, b, post.
  split; [simpl; now rewrite E|exact Hne].
Qed.

Lemma Forall2_last_inv {A B} (R : A -> B -> Prop) la a lb b :
  Forall2 R (la ++ [a]) (lb ++ [b]) -> Forall2 R la lb /\ R a b.
Proof.
  intros H. apply Forall2_app_inv_l in H. destruct H as (l1 & l2 & H1 & H2 & E).
  inversion H2 as [|? y ? l2' Hab H3]; subst. inversion H3; subst.
  apply app_inj_tail in E. destruct E as [-> ->]. auto.
Qed.

Lemma older_complete : forall older' Go nf' gl,
  Forall2 img_rel (older' ++ [nf']) (Go ++ [gl]) -> RF.Abut (Go ++ [gl]) ->
  ~ gap_class (older' ++ [nf']) -> Forall2 RF.file_match older' Go.
Proof.
  induction older' as [|f' rest IH]; intros Go nf' gl HF Hab Hng.
  - apply JournalDisk.Forall2_length in HF. rewrite !app_length in HF. simpl in HF.
    destruct Go; [constructor|simpl in HF; lia].
  - destruct Go as [|g Gr].
    { apply JournalDisk.Forall2_length in HF. rewrite !app_length in HF. simpl in HF. lia. }
    simpl in HF. inversion HF as [|? ? ? ? Hfg HF']; subst. simpl in Hab. destruct Hab as [Hab1 Hab2].
    constructor; [|eapply IH; eauto; eapply gap_class_tail; eauto].
    destruct (rest ++ [nf']) as [|n' l'] eqn:El; [destruct rest; discriminate|].
    destruct (Gr ++ [gl]) as [|gn lg] eqn:Eg; [destruct Gr; discriminate|].
    inversion HF' as [|? ? ? ? Hn _]; subst.
    destruct Hfg as (Eid & j & tl & Ed & Ht & Hwj & Hl). destruct Hn as (Eidn & _).
    assert (Hv : f_id f' + N.of_nat (vlen (f_data f')) = f_id n').
    { destruct (N.eq_dec (f_id f' + N.of_nat (vlen (f_data f'))) (f_id n')) as [E|E]; [exact E|].
      exfalso. apply Hng. exists [], f', n', l'. split; [simpl; now rewrite El|exact E]. }
    rewrite Ed, (vlen_shape _ _ Hwj Ht), Eid, Eidn, Hab1 in Hv. unfold RF.glen in Hv.
    assert (Hlen : length (encs (firstn j (snd g))) = length (encs (snd g))) by lia.
    apply encs_firstn_full in Hlen. rewrite Hlen in Ed.
    assert (tl = []).
    { rewrite Ed, app_length in Hl. destruct tl; [reflexivity|simpl in Hl; lia]. }
    subst tl. rewrite app_nil_r in Ed. split; assumption.
Qed.

Lemma image_split z d' G : PurgeFacts.Inv z -> JI z G -> crash_image z d' ->
  ~ gap_class d' -> d' <> [] ->
  exists Go o recs j older' nf' tl,
    image_facts z d' G (Go ++ [(o, recs)]) /\ d' = older' ++ [nf'] /\
    Forall2 RF.file_match older' Go /\ f_id nf' = o /\
    f_data nf' = encs (firstn j recs) ++ tl /\ tail_shape tl /\ Forall wf_record (firstn j recs).
Proof.
  intros Hinv J0 Hc Hng Hne.
  destruct (image_analysis_inv z d' G Hinv J0 Hc) as (Gd & IF).
  pose proof IF as [J (A & C & EG & _) _ _ Himg].
  destruct (exists_last Hne) as (older' & nf' & Ed). subst d'.
  assert (HGd : Gd <> []).
  { intros ->. apply JournalDisk.Forall2_length in Himg. rewrite app_length in Himg. simpl in Himg. lia. }
  destruct (exists_last HGd) as (Go & [o recs] & EGd). subst Gd.
  pose proof (gi_abut _ _ _ _ (ji_gi _ _ J)) as Hab. rewrite EG in Hab.
  apply Abut_app in Hab. destruct Hab as [_ Hab]. apply Abut_app in Hab. destruct Hab as [Hab _].
  pose proof (older_complete _ _ _ _ Himg Hab Hng) as Hfm.
  destruct (Forall2_last_inv _ _ _ _ _ Himg) as [_ (Eid & j & tl & Edat & Htl & Hwj & _)].
  exists Go, o, recs, j, older', nf', tl. auto 10.
Qed.

(* with truncation disabled the newest file must be intact *)
Definition whole_newest (d' : disk) : Prop :=
  forall pre f, d' = pre ++ [f] -> exists rs, Forall wf_record rs /\ f_data f = encs rs.

Lemma image_opens cfg' z d' G Go o recs j older' nf' tl :
  image_facts z d' G (Go ++ [(o, recs)]) -> d' = older' ++ [nf'] ->
  Forall2 RF.file_match older' Go -> f_id nf' = o ->
  f_data nf' = encs (firstn j recs) ++ tl -> tail_shape tl -> Forall wf_record (firstn j recs) ->
  c_truncate cfg' = true \/ whole_newest d' ->
  exists y' s1, open_dir cfg' d' = OpenOk y' /\
    RS.replay_files (sm_new cfg') (Go ++ [(o, firstn j recs)]) = (s1, None) /\
    m_rs (k_sm (y_core y')) = m_rs s1 /\ m_log (k_sm (y_core y')) = m_log s1.
Proof.
  intros [J (A & C & EG & _) _ _ _] -> Hfm Eid Edat Htl Hwj Ht.
  pose proof (gi_sorted _ _ _ _ (ji_gi _ _ J)) as Hs.
  pose proof (gi_ok _ _ _ _ (ji_gi _ _ J)) as Hok.
  pose proof (gi_abut _ _ _ _ (ji_gi _ _ J)) as Hab.
  pose proof (Chain_runs _ _ (gi_chain _ _ _ _ (ji_gi _ _ J))) as Hrun.
  rewrite EG in Hs, Hok, Hab, Hrun. rewrite !map_app in Hs.
  rewrite !Forall_app in Hok, Hrun.
  destruct Hok as (_ & [Hoko _] & _). destruct Hrun as (_ & [Hruno Hrunl] & _).
  apply Abut_app in Hab. destruct Hab as [_ Hab]. apply Abut_app in Hab. destruct Hab as [Hab _].
  assert (Hsd : StronglySorted N.lt (map fst (Go ++ [(o, recs)]))).
  { rewrite map_app. eapply JournalDisk.ss_sub. exact Hs. }
  destruct (replay_files_ok Go (sm_new cfg') Hruno) as [t Hrep].
  assert (Hjok : Forall RF.jfile_ok Go).
  { eapply Forall_impl; [|exact Hoko]. intros g [Hg1 (st & tl0 & E)]. split; [exact Hg1|].
    rewrite E. discriminate. }
  destruct (RF.files_loaded cfg' older' Go (o, recs) (sm_new cfg') None t Hfm Hjok Hab) as (pe & L & Hgap);
    [discriminate|exact Hrep|].
  assert (Hsn : disk_sorted (older' ++ [nf'])).
  { apply JournalDisk.dsorted_iff. unfold JournalDisk.dsorted, JournalDisk.ids. rewrite map_app.
    cbn [map]. rewrite (RF.fm_ids _ _ Hfm), Eid. rewrite map_app in Hsd. exact Hsd. }
  pose proof (Opens.loaded_open_older _ _ _ _ _ _ _ _ L [nf'] Hsn) as Ho.
  set (a' := mkOA t _ pe _ _) in Ho.
  pose proof (Forall_inv Hrunl) as Hrl.
  destruct (chunk_replay_prefix (o, recs) j t Hrl) as [s1 Hs1]. simpl in Hs1.
  assert (Hidlt : Forall (fun g => f_id g < o) older').
  { pose proof (RF.fm_ids _ _ Hfm) as Hm. rewrite map_app in Hsd. simpl in Hsd. apply JournalDisk.ss_app_inv in Hsd.
    destruct Hsd as (_ & _ & Hlt). rewrite Forall_forall. intros g Hg.
    apply Hlt; [|now left]. rewrite <- Hm. now apply in_map. }
  assert (Hor : c_truncate cfg' = true \/ tl = []).
  { destruct Ht as [Ht|Hwh]; [now left|right].
    destruct (Hwh older' nf' eq_refl) as (rs' & Hw' & E').
    destruct (scan_tail_shape (firstn j recs) tl Hwj Htl) as [e Es].
    rewrite <- Edat, E', (scan_encs rs' Hw') in Es. inversion Es; subst. reflexivity. }
  destruct nf' as [nid ndata nsyn]. simpl in Eid, Edat. subst nid ndata.
  assert (Hrep1 : replay (sm_pre a') o o (firstn j recs)
                         (ends_from o (map rec_size (firstn j recs))) = (s1, None)).
  { rewrite (Opens.sm_pre_chunk_pre a') by reflexivity. exact Hs1. }
  destruct (C10_longest_prefix_open cfg' older' o nsyn (firstn j recs) tl a' Ho Hidlt
              (Opens.loaded_end _ _ _ _ _ _ _ o L Hgap) Hwj Htl s1
              Hor Hrep1) as (y' & Hopen & Hrs & Hlog & _).
  exists y', s1. split; [exact Hopen|]. split; [|split; assumption].
  eapply RS.replay_files_snoc; [exact Hrep|exact Hs1].
Qed.

(* the image is [older' ++ [nf']] against [Go ++ [(o, recs)]]: the older files whole, the newest cut
   after [j] records with tail [tl]; it opens to [y'], whose state is the replay [s1] of those files *)
Lemma crash_open_general cfg' z d' G : PurgeFacts.Inv z -> JI z G -> crash_image z d' ->
  ~ gap_class d' -> c_truncate cfg' = true \/ whole_newest d' -> d' <> [] ->
  exists Gd Go o recs j older' nf' tl y' s1,
    image_facts z d' G Gd /\ Gd = Go ++ [(o, recs)] /\
    d' = older' ++ [nf'] /\ Forall2 RF.file_match older' Go /\ f_id nf' = o /\
    f_data nf' = encs (firstn j recs) ++ tl /\ tail_shape tl /\
    open_dir cfg' d' = OpenOk y' /\
    RS.replay_files (sm_new cfg') (Go ++ [(o, firstn j recs)]) = (s1, None) /\
    m_rs (k_sm (y_core y')) = m_rs s1 /\ m_log (k_sm (y_core y')) = m_log s1.
Proof.
  intros Hinv J Hc Hng Ht Hne.
  destruct (image_split z d' G Hinv J Hc Hng Hne)
    as (Go & o & recs & j & older' & nf' & tl & IF & Ed & Hfm & Eid & Edat & Htl & Hwj).
  destruct (image_opens cfg' z d' G Go o recs j older' nf' tl IF Ed Hfm Eid Edat Htl Hwj Ht)
    as (y' & s1 & Hopen).
  exists (Go ++ [(o, recs)]), Go, o, recs, j, older', nf', tl, y', s1. auto 10.
Qed.

Lemma crash_open cfg cfg' z d' G : zreach cfg z -> JI z G -> crash_image z d' ->
  ~ gap_class d' -> c_truncate cfg' = true -> d' <> [] ->
  exists Gd Go o recs j older' nf' tl y' s1,
    image_facts z d' G Gd /\ Gd = Go ++ [(o, recs)] /\
    d' = older' ++ [nf'] /\ Forall2 RF.file_match older' Go /\ f_id nf' = o /\
    f_data nf' = encs (firstn j recs) ++ tl /\ tail_shape tl /\
    open_dir cfg' d' = OpenOk y' /\
    RS.replay_files (sm_new cfg') (Go ++ [(o, firstn j recs)]) = (s1, None) /\
    m_rs (k_sm (y_core y')) = m_rs s1 /\ m_log (k_sm (y_core y')) = m_log s1.
Proof.
  intros Hr J Hc Hng Ht. apply crash_open_general; auto. apply (PurgeFacts.zreach_Inv cfg z Hr).
Qed.

Lemma crash_image_ids z d' : crash_image z d' -> map f_id d' = map f_id (z_disk z).
Proof.
  unfold crash_image. induction 1 as [|f f' l l' [E _] _ IH]; simpl; [reflexivity|]. now rewrite E, IH.
Qed.

Lemma crash_image_sorted z d' : PurgeFacts.Inv z -> crash_image z d' -> disk_sorted d'.
Proof. intros Hinv Hc. eapply JournalDisk.fsorted_ids; [apply crash_image_ids, Hc|apply inv_sorted, Hinv]. Qed.

(* All that the analysis of crash images uses of a state: which files exist (the purge
   invariant) and what they hold (the journal invariant), not how the state was reached. *)
Definition journalled (z : sys2) : Prop := PurgeFacts.Inv z /\ exists G, JI z G.

Lemma journalled_reach cfg z : zreach cfg z -> hist_wf z -> journalled z.
Proof. intros Hr Hw. split; [exact (PurgeFacts.zreach_Inv cfg z Hr)|exact (L2_journal cfg z Hr Hw)]. Qed.

(* [open_dir] itself cannot panic: its result type [open_res] has only OpenOk and OpenErr *)
Lemma image_recovers cfg' z d' : journalled z -> crash_image z d' ->
  ~ gap_class d' -> c_truncate cfg' = true ->
  exists y', open_dir cfg' d' = OpenOk y' /\ sys_ok y' /\
             (forall ops res fin, run_ops y' ops = (res, fin) -> ~ In ResPanic res).
Proof.
  intros [Hinv [G J]] Hc Hng Ht.
  assert (Hex : exists y', open_dir cfg' d' = OpenOk y').
  { destruct d' as [|f0 l0] eqn:Ed; [eexists; reflexivity|]. rewrite <- Ed in *.
    destruct (crash_open_general cfg' z d' G Hinv J Hc Hng (or_introl Ht)) as
      (Gd & Go & o & recs & j & older' & nf' & tl & y' & s1 & _ & _ & _ & _ & _ & _ & _ & Ho & _);
      [rewrite Ed; discriminate|eauto]. }
  destruct Hex as [y' Ho]. exists y'. split; [exact Ho|].
  pose proof (open_dir_ok cfg' d' y' (crash_image_sorted z d' Hinv Hc) Ho) as Hok.
  split; [exact Hok|]. intros ops res fin Hrun. apply (run_ops_ok ops y' res fin Hok Hrun).
Qed.

(* C05, outside the known class: after a crash at ANY moment (any reachable state of
   the two threads, any crash image of it), if no older file lost its tail (gap_class,
   finding F3) and truncation of incomplete records is enabled in the configuration
   used for reopening, the directory opens. *)
Theorem C05_recovers_outside_known : forall cfg cfg' z d',
  zreach cfg z -> hist_wf z -> crash_image z d' ->
  ~ gap_class d' -> c_truncate cfg' = true ->
  exists y', open_dir cfg' d' = OpenOk y' /\ sys_ok y' /\
             (forall ops res fin, run_ops y' ops = (res, fin) -> ~ In ResPanic res).
Proof. intros cfg cfg' z d' Hr Hw. apply image_recovers, (journalled_reach cfg z Hr Hw). Qed.

Lemma crash_image_map z (h : file -> file) :
  (forall f, f_id (h f) = f_id f /\ f_data (h f) = f_data f) ->
  Forall AF.synced_le (z_disk z) -> crash_image z (map h (z_disk z)).
Proof.
  intros Hh Hs. unfold crash_image. induction Hs as [|f l Hf _ IH]; cbn [map]; constructor; [|exact IH].
  destruct (Hh f) as [Ei Ed]. split; [exact Ei|]. exists (length (f_data f)), 0%nat.
  split; [exact Hf|]. split; [lia|]. split; [|now left].
  cbn [zeros]. now rewrite firstn_all, app_nil_r.
Qed.

Lemma crash_image_self z : Forall AF.synced_le (z_disk z) -> crash_image z (z_disk z).
Proof.
  intros Hs. pose proof (crash_image_map z id (fun f => conj eq_refl eq_refl) Hs) as H.
  now rewrite map_id in H.
Qed.

Lemma process_crash_is_image cfg z : zreach cfg z -> crash_image z (process_crash_image z).
Proof.
  intros Hr. apply crash_image_map; [now split|]. apply (AF.C04_synced_le_written cfg z Hr).
Qed.

Lemma run_reach_ff cfg es : forallb ev_fault_free es = true ->
  (match zrun (AF.zstart cfg) es with Some _ => true | None => false end) = true ->
  zreach_ff cfg match zrun (AF.zstart cfg) es with Some (z, _) => z | None => AF.zstart cfg end.
Proof.
  intros Hff H. destruct (zrun (AF.zstart cfg) es) as [[z vis]|] eqn:E; [|discriminate H].
  exists (AF.zstart cfg), es, vis. split; [apply AF.zinit_eq|]. split; assumption.
Qed.

(* C05 is false in the known class: a rotation creates the new file and writes its
   head on the caller thread before the old chunk's tail has reached the worker *)
Definition gap_cfg : config := mkConfig 10 1000 2 1000 true.
Definition gap_events : list zev := [ZCall (OW (OVote (1, 2))); ZEff; ZEff].

Theorem C05_refuted_gap :
  exists z d', zreach gap_cfg z /\ hist_wf z /\ crash_image z d' /\ gap_class d' /\
               exists dd, open_dir gap_cfg d' = OpenErr EGap dd.
Proof.
  (* the run, evaluated once, and what is read off its last state *)
  assert (R : exists z vis, zrun (AF.zstart gap_cfg) gap_events = Some (z, vis) /\ hist_wf z /\
                gap_class (process_crash_image z) /\
                exists dd, open_dir gap_cfg (process_crash_image z) = OpenErr EGap dd).
  { eexists _, _. split; [vm_compute; reflexivity|]. split; [|split].
    - unfold hist_wf. simpl. repeat constructor; vm_compute; reflexivity.
    - eexists [], _, _, []. split; [vm_compute; reflexivity|]. vm_compute. discriminate.
    - eexists. vm_compute. reflexivity. }
  destruct R as (z & vis & E & Hw & Hg & Ho).
  assert (Hr : zreach gap_cfg z).
  { exists (AF.zstart gap_cfg), gap_events, vis. split; [apply AF.zinit_eq|exact E]. }
  exists z, (process_crash_image z). split; [exact Hr|]. split; [exact Hw|].
  split; [now apply (process_crash_is_image gap_cfg)|]. split; [exact Hg|exact Ho].
Qed.

Print Assumptions C05_recovers_outside_known.
Print Assumptions C05_refuted_gap.
