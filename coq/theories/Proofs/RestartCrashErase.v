(* The synced marks of the start directory do not matter for crash recoverability: a run
   from [d] is matched step by step by a run from [reboot d] (all files marked synced)
   whose states differ in the marks only; the journal invariant does not read the marks. *)
From Coq Require Import List NArith.
From RaftLog Require Import Model.Codec Model.Core Model.Recover Model.Run Model.Sys.
From RaftLog Require Import Proofs.NoPanic.
From RaftLog Require Import Proofs.CrashBase Proofs.CrashSteps.
From RaftLog Require Import Proofs.CrashRecover.
From RaftLog Require Proofs.AckFacts Proofs.RestartSys Proofs.RestartCrash Proofs.RestartChain
  Proofs.RestartCrashIter.
Local Open Scope N_scope.
Local Arguments enc_record : simpl never.
Module RC := RestartCrash.
Module RSy := RestartSys.
Module RCh := RestartChain.
Notation deq := RCh.deq.

Lemma deq_ids d1 d2 : deq d1 d2 -> map f_id d1 = map f_id d2.
Proof. induction 1 as [|a b l1 l2 [E _] _ IH]; cbn [map]; [reflexivity|]. now rewrite E, IH. Qed.

Lemma deq_data d1 d2 id : deq d1 d2 -> data_of d1 id = data_of d2 id.
Proof.
  intros H. pose proof (RCh.deq_get id _ _ H) as Hg. unfold data_of.
  destruct (disk_get id d1); destruct (disk_get id d2); try contradiction; [apply Hg|reflexivity].
Qed.

Lemma deq_append id data d1 d2 : deq d1 d2 -> deq (disk_append id data d1) (disk_append id data d2).
Proof.
  intros H. pose proof (RCh.deq_get id _ _ H) as Hg. unfold disk_append.
  destruct (disk_get id d1); destruct (disk_get id d2); try contradiction; [|exact H].
  apply RCh.deq_put; [|exact H]. destruct Hg as [_ Hg]. split; cbn [f_id f_data]; [reflexivity|now rewrite Hg].
Qed.

Lemma deq_sync id d1 d2 : deq d1 d2 -> deq (disk_sync id d1) (disk_sync id d2).
Proof.
  intros H. pose proof (RCh.deq_get id _ _ H) as Hg. unfold disk_sync.
  destruct (disk_get id d1); destruct (disk_get id d2); try contradiction; [|exact H].
  apply RCh.deq_put; [|exact H]. destruct Hg as [_ Hg]. split; cbn [f_id f_data]; [reflexivity|exact Hg].
Qed.

Lemma read_record_deq d1 d2 c off len : deq d1 d2 -> read_record d1 c off len = read_record d2 c off len.
Proof.
  intros H. pose proof (RCh.deq_get (ck_id c) _ _ H) as Hg. unfold read_record.
  destruct (disk_get (ck_id c) d1); destruct (disk_get (ck_id c) d2); try contradiction; [|reflexivity].
  destruct Hg as [_ Hg]. now rewrite Hg.
Qed.

Definition with_disk (z : sys2) (d : disk) : sys2 :=
  mkSys2 (z_core z) (z_todo z) d (z_queue z) (z_w z) (z_acks z) (z_dropped z) (z_ghost z).

Lemma deq_dapply o d1 d2 : deq d1 d2 -> deq (AckFacts.dapply o d1) (AckFacts.dapply o d2).
Proof.
  destruct o; cbn [AckFacts.dapply]; auto using deq_append, deq_sync, RCh.deq_remove.
  intros H. apply RCh.deq_put; [split; reflexivity|exact H].
Qed.

(* no transition reads [f_synced]: a step applies one operation to the directory and reads records
   only ([AckFacts.zstep_local]; [with_disk] is [set_disk]), the operations keep [deq], and [deq]
   directories hold the same records *)
Lemma zstep_sim z e z' v d2 : deq (z_disk z) d2 -> zstep z e = Some (z', v) ->
  exists d2', zstep (with_disk z d2) e = Some (with_disk z' d2', v) /\ deq (z_disk z') d2'.
Proof.
  intros Hd H. destruct (AckFacts.zstep_local _ _ _ _ H) as (o & Hm & Hs). exists (AckFacts.dapply o d2).
  split; [exact (Hs d2 (fun c off len => read_record_deq _ _ c off len Hd))|]. rewrite Hm. now apply deq_dapply.
Qed.

Lemma zrun_sim es : forall z z' v d2, deq (z_disk z) d2 -> zrun z es = Some (z', v) ->
  exists d2', zrun (with_disk z d2) es = Some (with_disk z' d2', v) /\ deq (z_disk z') d2'.
Proof.
  induction es as [|e es IH]; intros z z' v d2 Hd H; cbn [zrun] in *.
  - inversion H; subst. eauto.
  - destruct (zstep z e) as [[z1 v1]|] eqn:E; [|discriminate].
    destruct (zrun z1 es) as [[z2 v2]|] eqn:E2; [|discriminate]. inversion H; subst.
    destruct (zstep_sim _ _ _ _ _ Hd E) as (d1' & S1 & Hd1).
    destruct (IH _ _ _ _ Hd1 E2) as (d2' & S2 & Hd2).
    exists d2'. rewrite S1, S2. auto.
Qed.

Lemma zinit_sim cfg d z0 : zinit cfg d = Some z0 ->
  exists d2, zinit cfg (RCh.reboot d) = Some (with_disk z0 d2) /\ deq (z_disk z0) d2.
Proof.
  unfold zinit. intros H. pose proof (RCh.open_dir_deq cfg d (RCh.reboot d) (RCh.deq_reboot d)) as Hq.
  destruct (open_dir cfg d) as [y1|e1 r1]; [|discriminate].
  destruct (open_dir cfg (RCh.reboot d)) as [y2|e2 r2]; [|contradiction].
  destruct Hq as (Hc & Hqu & Hf & Ha & Hd). inversion H; subst z0. exists (y_disk y2).
  split; [|exact Hd]. unfold sys2_of, with_disk.
  cbn [z_core z_todo z_disk z_queue z_w z_acks z_dropped z_ghost].
  rewrite Hc, Hqu, Hf, Ha, (deq_ids _ _ Hd). reflexivity.
Qed.

Lemma JI_deq z d2 G : deq (z_disk z) d2 -> JI (with_disk z d2) G -> JI z G.
Proof.
  intros Hd [Gi Ti Hw He]. unfold with_disk in *.
  cbn [z_core z_todo z_disk z_queue z_w z_acks z_dropped z_ghost] in *.
  pose proof (deq_ids _ _ Hd) as Hi.
  constructor; try assumption.
  - intros id Hin. rewrite (deq_data _ _ id Hd). apply Hw. rewrite <- Hi. exact Hin.
  - intros Hal. specialize (He Hal). unfold cur0, AD.stream in *.
    cbn [z_core z_todo z_disk z_queue z_w z_acks z_dropped z_ghost] in *.
    destruct He as [E1 E2 E3 E4]. constructor; try assumption.
    intros id Hin. rewrite (deq_data _ _ id Hd). apply E2. rewrite <- Hi. exact Hin.
Qed.

Lemma journalled_any cfg d z : disk_sorted d -> RC.dir_chained d -> RSy.zreach_from cfg d z ->
  hist_wf z -> journalled z.
Proof.
  intros Hs Hch Hr Hw. split; [exact (RSy.Inv_from cfg d z Hs Hr)|].
  destruct Hr as (z0 & es & vis & H0 & Hrun).
  destruct (zinit_sim _ _ _ H0) as (d0 & H0' & Hd0).
  destruct (zrun_sim es _ _ _ _ Hd0 Hrun) as (d2 & Hrun' & Hd2).
  assert (Hr' : RSy.zreach_from cfg (RCh.reboot d) (with_disk z d2)) by (eexists _, es, vis; eauto).
  (* [RestartCrashIter.reboot] and [RCh.reboot] have the same body: [reboot_ok] speaks of the first *)
  destruct (RC.L2_journal_from cfg _ _ (RestartCrashIter.reboot_ok d Hs Hch) Hr' Hw) as [G J].
  exists G. eapply JI_deq; eauto.
Qed.

Theorem C05_recovers_outside_known_from_any_marks : forall cfg cfg' d z d',
  disk_sorted d -> RC.dir_chained d -> RSy.zreach_from cfg d z -> hist_wf z -> crash_image z d' ->
  ~ gap_class d' -> c_truncate cfg' = true ->
  exists y', open_dir cfg' d' = OpenOk y' /\ sys_ok y' /\
             (forall ops res fin, run_ops y' ops = (res, fin) -> ~ In ResPanic res).
Proof.
  intros cfg cfg' d z d' Hs Hch Hr Hw. apply image_recovers, (journalled_any cfg d z Hs Hch Hr Hw).
Qed.

Print Assumptions C05_recovers_outside_known_from_any_marks.
