(* C03: crash safety of the L2 system, including crash images in which older chunk
   files have already been removed after a purge (C03_prefix, proved as C03_recovers in
   CrashFacts.v), and a reachable state with a removed chunk file that meets its
   hypotheses. *)
From Coq Require Import List NArith Lia Sorting.Sorted.
From RaftLog Require Import Model.Core
  Model.Recover Model.Run Model.Sys Spec.Spec Spec.Durable.
From RaftLog Require Import Proofs.Refine.
From RaftLog Require Import Proofs.CrashBase Proofs.CrashSteps Proofs.CrashRecover
  Proofs.CrashSpec Proofs.CrashPrefix Proofs.CrashFacts Proofs.CrashSuffix Proofs.CrashRemoved.
Import ListNotations.
Local Open Scope N_scope.

(* The journal is the files [A] (already unlinked), [Go] and the newest one, of which the image keeps the first
   [j] records: replaying what is left gives the reference state after all those records, provided the purge
   that made [A] obsolete is among them (last hypothesis). *)
Lemma recovered cfg' A Go o recs j s1 :
  files_ok spec0 (A ++ Go ++ [(o, recs)]) ->
  StronglySorted N.lt (map fst (A ++ Go ++ [(o, recs)])) ->
  RS.replay_files (sm_new cfg') (Go ++ [(o, firstn j recs)]) = (s1, None) ->
  (A <> [] -> (Go <> [] \/ (1 <= j)%nat) /\
     ple (sp_last (run_recs spec0 (jrecs A)))
         (sp_purged (run_recs spec0 (jrecs (A ++ Go ++ [(o, firstn j recs)]))))) ->
  PL.R0 s1 (run_recs spec0 (jrecs (A ++ Go ++ [(o, firstn j recs)]))).
Proof. exact (recovered_cut cfg' A Go o recs j s1). Qed.

(* After a crash at ANY reachable state of the two threads and for ANY crash image d'
   (every file keeps at least its synced prefix, at most what was written, possibly
   zero-filled from a record boundary; chunk files already unlinked are absent):
   outside the known failure class gap_class of C05, reopening (with truncation of
   incomplete records enabled) succeeds and the recovered store shows exactly the k-th
   state of the reference log, where the reference states are listed one per journalled
   record (ref_states), k is at least the number of records journalled before any flush
   whose callback reported success (acked z) and at most the number journalled so far
   (issued z): the Raft state equals that reference state and the index map lists
   exactly its entries (index, log id).  No partially written record is visible, and
   removing obsolete chunk files after a purge loses nothing. *)
Theorem C03_prefix : forall cfg cfg' z d',
  zreach cfg z -> hist_wf z -> PL.hist_legal z -> crash_image z d' ->
  ~ gap_class d' -> c_truncate cfg' = true ->
  exists y' k sp, open_dir cfg' d' = OpenOk y' /\
    (acked z <= k)%nat /\ (k <= issued z)%nat /\
    nth_error (ref_states (PL.hist z)) k = Some sp /\
    m_rs (k_sm (y_core y')) = spec_state sp /\
    map f_log (m_log (k_sm (y_core y'))) = map g_ent (sp_entries sp).
Proof. exact C03_recovers. Qed.

Print Assumptions C03_prefix.

(* three appends fill chunk 0 (four records with its head snapshot): rotation to chunk
   114; purge up to (1,2) makes chunk 0 obsolete; flush with callback; the worker writes,
   syncs, acknowledges and UNLINKS chunk 0; then a vote is journalled and written but not
   synced *)
Definition pex_cfg : config := mkConfig 10 1000 4 1000 true.
Definition pex_events : list zev :=
  let W := ZWork true in
  [ZCall (OW (OAppend [((1, 0), [])])); ZCall (OW (OAppend [((1, 1), [])]));
   ZCall (OW (OAppend [((1, 2), [])])); ZEff; ZEff; ZEff; ZEff;
   ZCall (OW (OPurge (1, 2))); ZCall (OFlush true); ZEff; ZEff;
   ZRecv 0 true; W; W; W; W; W; W; W; W; W; W;
   ZRecv 0 true; W; W; W; W; W; W; W; W; W; W; W; W; W;
   ZCall (OW (OVote (2, 2))); ZCall (OFlush false); ZEff; ZRecv 0 false; W].

Definition pex_z : sys2 :=
  match zrun (AF.zstart pex_cfg) pex_events with Some (z, _) => z | None => AF.zstart pex_cfg end.
(* the crash cuts the last record: the only file loses its last 3 bytes *)
Definition pex_d : disk := cut_last (z_disk pex_z) 87.

(* coqchk re-evaluates a [vm_compute] step with the kernel's lazy machine, several times slower than the VM:
   the run is evaluated in one lemma, against a constant holding its normal form, and every fact is read off the
   constant; otherwise every [vm_compute; reflexivity] about the state would run the whole run again. *)
Definition pex_z_nf : sys2 := Eval vm_compute in pex_z.
Definition pex_vis_nf : list vis :=
  Eval vm_compute in match zrun (AF.zstart pex_cfg) pex_events with Some (_, v) => v | None => [] end.
Lemma pex_run_eq : zrun (AF.zstart pex_cfg) pex_events = Some (pex_z_nf, pex_vis_nf).
Proof. vm_compute. reflexivity. Qed.
Lemma pex_z_eq : pex_z = pex_z_nf.
Proof. unfold pex_z. rewrite pex_run_eq. reflexivity. Qed.

Definition pex_d_nf : disk := Eval vm_compute in pex_d.
Lemma pex_d_eq : pex_d = pex_d_nf.
Proof. unfold pex_d. rewrite pex_z_eq. vm_compute. reflexivity. Qed.

Lemma pex_reach : zreach pex_cfg pex_z_nf.
Proof. exists (AF.zstart pex_cfg), pex_events, pex_vis_nf. split; [apply AF.zinit_eq|exact pex_run_eq]. Qed.

Lemma pex_hist : PL.hist pex_z_nf =
  [OAppend [((1, 0), [])]; OAppend [((1, 1), [])]; OAppend [((1, 2), [])]; OPurge (1, 2); OVote (2, 2)].
Proof. vm_compute. reflexivity. Qed.

(* a reachable state in which chunk file 0 was created and HAS been unlinked (the only
   file left is chunk 114), with an acknowledged flush behind four journalled records
   and five journalled records in all, and a crash image that cuts the last record:
   all hypotheses of C03_prefix hold *)
Example C03_prefix_nonvacuous_purged :
  zreach pex_cfg pex_z /\ hist_wf pex_z /\ PL.hist_legal pex_z /\ crash_image pex_z pex_d /\
  ~ gap_class pex_d /\ c_truncate pex_cfg = true /\
  In 0 (g_created (z_ghost pex_z)) /\ map f_id (z_disk pex_z) = [114] /\ map f_id pex_d = [114] /\
  acked pex_z = 4%nat /\ issued pex_z = 5%nat /\
  map (fun f => length (f_data f)) (z_disk pex_z) = [90]%nat /\
  map (fun f => length (f_data f)) pex_d = [87]%nat.
Proof.
  rewrite pex_d_eq, pex_z_eq.
  split; [apply pex_reach|].
  split. { unfold hist_wf. change (map fst (g_writes (z_ghost pex_z_nf))) with (PL.hist pex_z_nf).
           rewrite pex_hist. repeat constructor; vm_compute; reflexivity. }
  split. { unfold PL.hist_legal. rewrite pex_hist. vm_compute. reflexivity. }
  split.
  { apply (cut_last_image pex_cfg pex_z_nf 87 (removelast (z_disk pex_z_nf)) (last (z_disk pex_z_nf) (mkFile 0 [] 0))).
    - apply pex_reach.
    - vm_compute. reflexivity.
    - vm_compute. discriminate.
    - vm_compute. lia. }
  split.
  { intros (pre & f & g & post & Eq & _).
    assert (Hl : length pex_d_nf = 1%nat) by (vm_compute; reflexivity).
    rewrite Eq, app_length in Hl. simpl in Hl. lia. }
  split; [reflexivity|]. split; [vm_compute; tauto|].
  split; [vm_compute; reflexivity|]. split; [vm_compute; reflexivity|].
  split; [vm_compute; reflexivity|]. split; [vm_compute; reflexivity|].
  split; vm_compute; reflexivity.
Qed.

(* the conclusion of C03_prefix for this image: the reopened store shows the reference
   state after k records with 4 <= k <= 5 *)
Example C03_prefix_example : exists y' k sp, open_dir pex_cfg pex_d = OpenOk y' /\
  (4 <= k)%nat /\ (k <= 5)%nat /\ nth_error (ref_states (PL.hist pex_z)) k = Some sp /\
  m_rs (k_sm (y_core y')) = spec_state sp /\
  map f_log (m_log (k_sm (y_core y'))) = map g_ent (sp_entries sp).
Proof.
  destruct C03_prefix_nonvacuous_purged as (H1 & H2 & H3 & H4 & H5 & H6 & _ & _ & _ & H8 & H9 & _).
  destruct (C03_prefix pex_cfg pex_cfg pex_z pex_d H1 H2 H3 H4 H5 H6)
    as (y' & k & sp & Ho & Ha & Hi & Hn & Hrs & Hlg).
  exists y', k, sp. rewrite H8 in Ha. rewrite H9 in Hi. auto 10.
Qed.

Print Assumptions C03_prefix_nonvacuous_purged.
