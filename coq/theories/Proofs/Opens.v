(* What a successful [open_dir] on a sorted directory is, said once: the files taken in one after
   the other ([loaded]: per file the complete records, the discarded tail, the file as it is left,
   the closed chunk, the replayed state machine), possibly followed by a newest file without a
   complete record, which is removed; then [open_finish]. [open_loop_opens] analyses a successful
   loop into this form, [loaded_open_loop] computes the loop on files that are taken in. *)
From Coq Require Import List NArith Bool Lia.
From RaftLog Require Import Base.Bytes Model.Types Model.Codec Model.Core Model.Recover.
From RaftLog Require Import Proofs.CodecFacts Proofs.ScanFacts Proofs.RecoverFacts Proofs.RestartSim Proofs.JournalDisk.
Import ListNotations.
Local Open Scope N_scope.

Lemma sm_pre_chunk_pre a : oa_last a = r_last (m_rs (oa_sm a)) -> sm_pre a = chunk_pre (oa_sm a).
Proof. intros H. unfold sm_pre, chunk_pre. rewrite H. reflexivity. Qed.

(* [Chunk::open] reads [f] as the complete records [rs] and discards the tail [tl] *)
Record reads (cfg : config) (f : file) (rs : list record) (tl : bytes) : Prop := {
  rd_open : chunk_open cfg (f_id f) (f_data f) =
            inl (mkOC (chunk_of (f_id f) rs) rs (negb (is_nil tl)) (encs rs));
  rd_data : f_data f = encs rs ++ tl;
  rd_wf : Forall wf_record rs;
  rd_trunc : tl = [] \/ c_truncate cfg = true }.

Lemma chunk_open_reads cfg f oc : chunk_open cfg (f_id f) (f_data f) = inl oc ->
  exists rs tl, reads cfg f rs tl /\ oc = mkOC (chunk_of (f_id f) rs) rs (negb (is_nil tl)) (encs rs).
Proof.
  intros H. destruct (chunk_open_inv _ _ _ _ H) as (rs & tl & e & _ & Ed & W & _ & -> & T).
  exists rs, tl. split; [|reflexivity]. constructor; assumption.
Qed.

Lemma reads_complete cfg id rs syn : Forall wf_record rs -> reads cfg (mkFile id (encs rs) syn) rs [].
Proof.
  intros W. constructor; cbn [f_id f_data is_nil negb]; [now apply chunk_open_complete|now rewrite app_nil_r|exact W|now left].
Qed.

(* the file as the loop leaves it: untouched, or cut after its last complete record and synced *)
Definition left_as (f : file) (rs : list record) (tl : bytes) : file :=
  if is_nil tl then f else mkFile (f_id f) (encs rs) (N.of_nat (length (encs rs))).

Lemma left_as_id f rs tl : f_id (left_as f rs tl) = f_id f.
Proof. unfold left_as. now destruct (is_nil tl). Qed.

Lemma left_as_data cfg f rs tl : reads cfg f rs tl -> f_data (left_as f rs tl) = encs rs.
Proof.
  intros R. unfold left_as. destruct tl; [|reflexivity]. cbn [is_nil]. rewrite (rd_data _ _ _ _ R). apply app_nil_r.
Qed.

Lemma left_as_cases f rs tl :
  (tl = [] /\ left_as f rs tl = f) \/
  (tl <> [] /\ left_as f rs tl = mkFile (f_id f) (encs rs) (N.of_nat (length (encs rs)))).
Proof. destruct tl; [now left|right]. split; [discriminate|reflexivity]. Qed.

Lemma left_as_put rs tl P f rest : fsorted (P ++ f :: rest) ->
  (if negb (is_nil tl)
   then disk_put (mkFile (f_id f) (encs rs) (N.of_nat (length (encs rs)))) (P ++ f :: rest)
   else P ++ f :: rest) = P ++ left_as f rs tl :: rest.
Proof.
  intros Hs. unfold left_as. destruct (is_nil tl); [reflexivity|].
  cbn [negb]. apply disk_put_mid; [reflexivity|exact Hs].
Qed.

Lemma trunc_disk_left id rs tl P f rest : id = f_id f -> fsorted (P ++ f :: rest) ->
  trunc_disk id (mkOC (chunk_of id rs) rs (negb (is_nil tl)) (encs rs)) (P ++ f :: rest) =
  P ++ left_as f rs tl :: rest.
Proof. intros ->. apply left_as_put. Qed.

Lemma sorted_left P f rs tl rest : fsorted (P ++ f :: rest) -> fsorted (P ++ left_as f rs tl :: rest).
Proof. apply fsorted_ids. unfold ids. rewrite !map_app. cbn [map]. now rewrite left_as_id. Qed.

Lemma disk_remove_left P f rs tl : fsorted (P ++ [f]) -> disk_remove (f_id f) (P ++ [left_as f rs tl]) = P.
Proof. intros Hs. rewrite <- (left_as_id f rs tl). apply disk_remove_last, sorted_left, Hs. Qed.

(* from the state machine [t0] and the end offset [pe0] of the chunk before: the files [d] are
   taken in, in this order; they are left as [D]; [cl] are their closed chunks, [t] is the state
   machine after their records, [pe] the end offset of the last one *)
Inductive loaded (cfg : config) (t0 : sm) (pe0 : option N) :
  list file -> list file -> list closed -> sm -> option N -> Prop :=
| ld_nil : loaded cfg t0 pe0 [] [] [] t0 pe0
| ld_snoc d D cl t pe f rs tl t1 :
    loaded cfg t0 pe0 d D cl t pe -> reads cfg f rs tl -> rs <> [] ->
    (forall p, pe = Some p -> p = f_id f) ->
    chunk_replay t (f_id f, rs) = (t1, None) ->
    loaded cfg t0 pe0 (d ++ [f]) (D ++ [left_as f rs tl])
      (cl ++ [mkClosed (chunk_of (f_id f) rs) (m_rs t1) (negb (is_nil tl))]) t1
      (Some (f_id f + N.of_nat (length (encs rs)))).

Lemma loaded_cons cfg t0 pe0 f rs tl t1 d D cl t pe :
  reads cfg f rs tl -> rs <> [] -> (forall p, pe0 = Some p -> p = f_id f) ->
  chunk_replay t0 (f_id f, rs) = (t1, None) ->
  loaded cfg t1 (Some (f_id f + N.of_nat (length (encs rs)))) d D cl t pe ->
  loaded cfg t0 pe0 (f :: d) (left_as f rs tl :: D)
    (mkClosed (chunk_of (f_id f) rs) (m_rs t1) (negb (is_nil tl)) :: cl) t pe.
Proof.
  intros R Hne Hpe Erep. induction 1 as [|d D cl t pe g rs' tl' t2 _ IH R' Hne' Hpe' Erep'].
  - exact (ld_snoc cfg t0 pe0 [] [] [] _ _ f rs tl t1 (ld_nil _ _ _) R Hne Hpe Erep).
  - exact (ld_snoc cfg t0 pe0 (f :: d) (_ :: D) (_ :: cl) _ _ g rs' tl' t2 IH R' Hne' Hpe' Erep').
Qed.

Lemma loaded_ids cfg t0 pe0 d D cl t pe : loaded cfg t0 pe0 d D cl t pe ->
  map f_id D = map f_id d /\ map (fun c => ck_id (cl_chunk c)) cl = map f_id d.
Proof.
  induction 1 as [|d D cl t pe f rs tl t1 _ [E1 E2] _ _ _ _]; [now split|].
  rewrite !map_app, E1, E2. cbn [map cl_chunk chunk_of ck_id]. now rewrite left_as_id.
Qed.

Lemma loaded_keeps cfg t0 pe0 d D cl t pe : loaded cfg t0 pe0 d D cl t pe -> Forall (keeps cfg) d.
Proof.
  induction 1 as [|d D cl t pe f rs tl t1 _ IH R Hne _ _]; [constructor|].
  apply Forall_app. split; [exact IH|]. constructor; [|constructor].
  intros oc E. rewrite (rd_open _ _ _ _ R) in E. injection E as <-. now apply chunk_of_ends_nonempty.
Qed.

Lemma gap_at_false a id : gap_at a id = false <-> forall p, oa_prev_end a = Some p -> p = id.
Proof.
  unfold gap_at. destruct (oa_prev_end a) as [p|]; [|split; [discriminate|reflexivity]].
  rewrite negb_false_iff, N.eqb_eq. split; [now intros -> ? [= <-]|auto].
Qed.

Lemma loaded_end cfg t0 d D cl t pe id : loaded cfg t0 None d D cl t pe ->
  (forall p, pe = Some p -> p = id) -> pe = Some id \/ d = [].
Proof. intros L H. destruct L; [now right|left]. now rewrite (H _ eq_refl). Qed.

Lemma loaded_closed_lt cfg t0 pe0 d D cl t pe f rest : loaded cfg t0 pe0 d D cl t pe ->
  fsorted (D ++ f :: rest) -> Forall (fun c => ck_id (cl_chunk c) < f_id f) cl.
Proof.
  intros L Hs. destruct (loaded_ids _ _ _ _ _ _ _ _ L) as [E1 E2].
  apply fsorted_app_inv in Hs. destruct Hs as (_ & _ & Hlt).
  apply (proj1 (Forall_map _ (fun i => i < f_id f) cl)). rewrite E2, <- E1.
  apply Forall_map, Forall_forall. intros x Hx. apply Hlt; [exact Hx|now left].
Qed.

(* how the loop ends: all files taken in, or the newest one removed for want of a record *)
Inductive loop_end (cfg : config) (pe : option N) : list file -> option N -> Prop :=
| le_all : loop_end cfg pe [] pe
| le_headless h tl : reads cfg h [] tl -> (forall p, pe = Some p -> p = f_id h) ->
    loop_end cfg pe [h] (Some (f_id h)).

Lemma open_loop_loaded cfg t0 pe0 : forall files d D a a',
  open_loop cfg files a = inl a' ->
  loaded cfg t0 pe0 d D (oa_closed a) (oa_sm a) (oa_prev_end a) ->
  oa_last a = r_last (m_rs (oa_sm a)) -> oa_disk a = D ++ files -> fsorted (D ++ files) ->
  exists d1 hl pe, files = d1 ++ hl /\
    loaded cfg t0 pe0 (d ++ d1) (oa_disk a') (oa_closed a') (oa_sm a') pe /\
    oa_last a' = r_last (m_rs (oa_sm a')) /\ loop_end cfg pe hl (oa_prev_end a').
Proof.
  induction files as [|f rest IH]; intros d D a a' H L Hla Hd Hs.
  - injection H as <-. exists [], [], (oa_prev_end a). rewrite !app_nil_r in *. rewrite Hd.
    repeat split; try assumption. constructor.
  - apply open_loop_inl in H as [(oc & -> & Eg & Eoc & Ee & ->)|(a1 & E1 & H & Hrec)].
    + apply chunk_open_reads in Eoc as (rs & tl & R & ->). apply chunk_of_ends_nil in Ee. subst rs.
      exists [], [f], (oa_prev_end a). cbn [oa_disk oa_closed oa_sm oa_last oa_prev_end].
      rewrite Hd, trunc_disk_left, app_nil_r by (reflexivity || exact Hs).
      rewrite disk_remove_left by exact Hs.
      repeat split; try assumption. econstructor; [exact R|]. now apply gap_at_false.
    + apply open_step_inl in E1 as (oc & s1 & Eg & Eoc & Erep & ->).
      apply chunk_open_reads in Eoc as (rs & tl & R & ->). cbn [oc_chunk oc_records oc_truncated] in *.
      rewrite Hd, trunc_disk_left in H by (reflexivity || exact Hs).
      pose proof (sorted_left _ _ rs tl _ Hs) as Hs1.
      (* the file holds a record: otherwise the next file, which starts where this one
         ends, would bear the same name *)
      assert (Hne : rs <> []).
      { intros ->. destruct rest as [|g rest']; [now apply (Hrec eq_refl _ (rd_open _ _ _ _ R))|].
        apply open_loop_cons_gap in H. unfold gap_at in H. cbn [oa_prev_end] in H.
        rewrite ck_end_chunk_of in H. apply negb_false_iff, N.eqb_eq in H.
        apply fsorted_app_inv in Hs. destruct Hs as (_ & Hs & _).
        inversion Hs as [|? ? _ Hf]; subst. inversion Hf as [|? ? Hlt _]; subst.
        cbn in H. lia. }
      rewrite JournalChunk.closed_insert_last, ck_end_chunk_of in H by exact (loaded_closed_lt _ _ _ _ _ _ _ _ f rest L Hs).
      eapply (IH (d ++ [f]) (D ++ [left_as f rs tl])) in H; cbn [oa_disk oa_closed oa_sm oa_last oa_prev_end];
        [| |reflexivity|now rewrite <- app_assoc|now rewrite <- app_assoc].
      * destruct H as (d1 & hl & pe & -> & H). exists (f :: d1), hl, pe. rewrite <- app_assoc in H.
        split; [reflexivity|exact H].
      * apply (ld_snoc cfg t0 pe0 d D _ _ _ f rs tl s1 L R Hne); [now apply gap_at_false|].
        unfold chunk_replay. rewrite <- sm_pre_chunk_pre by exact Hla. exact Erep.
Qed.

(* the converse: the result of the loop on files that are taken in *)
Lemma loaded_open_older cfg t0 pe0 d D cl t pe : loaded cfg t0 pe0 d D cl t pe ->
  forall rest, fsorted (d ++ rest) ->
  open_older cfg d (mkOA t0 [] pe0 (r_last (m_rs t0)) (d ++ rest)) =
  inl (mkOA t cl pe (r_last (m_rs t)) (D ++ rest)).
Proof.
  induction 1 as [|d D cl t pe f rs tl t1 L IH R Hne Hpe Erep]; intros rest Hs; [reflexivity|].
  rewrite <- app_assoc in *. cbn [app] in *. rewrite open_older_app, (IH _ Hs). cbn [obind open_older].
  assert (Hs1 : fsorted (D ++ f :: rest)).
  { eapply fsorted_ids; [|exact Hs]. unfold ids. rewrite !map_app. now rewrite (proj1 (loaded_ids _ _ _ _ _ _ _ _ L)). }
  destruct f as [id data syn]. cbn [f_id] in *.
  rewrite (open_step_records cfg _ id data syn rs (negb (is_nil tl)) t1); cbn [oa_closed oa_disk oa_prev_end].
  - do 2 f_equal. rewrite <- app_assoc. exact (left_as_put rs tl D (mkFile id data syn) rest Hs1).
  - now apply gap_at_false.
  - exact (loaded_closed_lt _ _ _ _ _ _ _ _ _ rest L Hs1).
  - exact (rd_open _ _ _ _ R).
  - rewrite sm_pre_chunk_pre by reflexivity. exact Erep.
Qed.

Lemma loaded_open_loop cfg d D cl t pe :
  loaded cfg (sm_new cfg) None d D cl t pe -> fsorted d ->
  open_loop cfg d (acc0 cfg d) = inl (mkOA t cl pe (r_last (m_rs t)) D).
Proof.
  intros L Hs. rewrite <- (app_nil_r d) in Hs. pose proof (loaded_open_older _ _ _ _ _ _ _ _ L [] Hs) as O.
  rewrite !app_nil_r in O. rewrite open_loop_older; [exact O|]. eapply loaded_keeps, L.
Qed.

Theorem open_loop_opens cfg d a : fsorted d -> open_loop cfg d (acc0 cfg d) = inl a ->
  exists d0 hl pe, d = d0 ++ hl /\ loaded cfg (sm_new cfg) None d0 (oa_disk a) (oa_closed a) (oa_sm a) pe /\
    oa_last a = r_last (m_rs (oa_sm a)) /\ loop_end cfg pe hl (oa_prev_end a).
Proof.
  intros Hs H. apply (open_loop_loaded cfg (sm_new cfg) None d [] [] _ _ H); try reflexivity; [constructor|exact Hs].
Qed.

(* the newest file is complete: it is reopened for appending *)
Theorem opens_reuse cfg d D cl t pe f rs t1 :
  loaded cfg (sm_new cfg) None d D cl t pe -> reads cfg f rs [] -> rs <> [] ->
  (forall p, pe = Some p -> p = f_id f) -> chunk_replay t (f_id f, rs) = (t1, None) ->
  fsorted (d ++ [f]) ->
  open_dir cfg (d ++ [f]) =
  OpenOk (mkSys (mkCore cfg t1 (chunk_of (f_id f) rs) [] cl [] 0 0 0) (D ++ [f]) []
                [mkWF (f_id f) (prev_last_of cl)] []).
Proof.
  intros L R Hne Hpe Erep Hs. pose proof (ld_snoc _ _ _ _ _ _ _ _ _ _ _ _ L R Hne Hpe Erep) as L1.
  rewrite open_dir_eq, (loaded_open_loop _ _ _ _ _ _ L1 Hs). unfold open_finish, reusable. cbn [oa_closed]. rewrite split_last_app. reflexivity.
Qed.
