(* C13: mutual exclusion of directory owners, on Model/Lock.v. *)
From Coq Require Import List Arith.
From RaftLog Require Import Model.Lock.
Import ListNotations.

Definition linv (s : lstate) : Prop :=
  (forall c, l_cs s c = COwner <-> l_holder s = Some c) /\
  (forall c h, In (c, h) (l_touches s) -> h = true).

Lemma upd_same f c v : upd f c v c = v.
Proof. unfold upd. now rewrite Nat.eqb_refl. Qed.
Lemma upd_other f c v x : x <> c -> upd f c v x = f x.
Proof. intros H. unfold upd. destruct (Nat.eqb x c) eqn:E; [apply Nat.eqb_eq in E; contradiction|reflexivity]. Qed.

Lemma linv_init : linv l_init.
Proof. split; cbn; [intros c; split; discriminate|intros c h []]. Qed.

Lemma linv_step s e s' : linv s -> lstep s e = Some s' -> linv s'.
Proof.
  intros [Hown Ht] Hs. destruct e as [c|c|c|c]; cbn in Hs.
  - destruct (l_cs s c) eqn:Ec; try discriminate. inversion Hs; subst; clear Hs. split; cbn; [|exact Ht].
    intros x. destruct (Nat.eq_dec x c) as [->|Nx].
    + rewrite upd_same. split; [discriminate|]. intros Hh. apply Hown in Hh. congruence.
    + rewrite upd_other by exact Nx. apply Hown.
  - destruct (l_cs s c) eqn:Ec; try discriminate.
    destruct (l_holder s) as [h|] eqn:Eh; inversion Hs; subst; clear Hs; split; cbn; try exact Ht.
    + intros x. destruct (Nat.eq_dec x c) as [->|Nx].
      * rewrite upd_same. split; [discriminate|]. intros Hh.
        assert (l_cs s c = COwner) by (apply Hown; congruence). congruence.
      * rewrite upd_other by exact Nx. split.
        -- intros Ho. apply Hown in Ho. congruence.
        -- intros Hh. apply Hown. congruence.
    + intros x. destruct (Nat.eq_dec x c) as [->|Nx].
      * rewrite upd_same. split; reflexivity.
      * rewrite upd_other by exact Nx. split.
        -- intros Ho. apply Hown in Ho. congruence.
        -- intros Hh. inversion Hh; subst. contradiction.
  - destruct (l_cs s c) eqn:Ec; try discriminate. inversion Hs; subst; clear Hs. split; cbn; [exact Hown|].
    intros x h Hin. apply in_app_or in Hin as [Hin|[Hin|[]]]; [eapply Ht; exact Hin|].
    inversion Hin; subst. unfold holder_is. apply Hown in Ec. rewrite Ec. apply Nat.eqb_refl.
  - destruct (l_cs s c) eqn:Ec; try discriminate. inversion Hs; subst; clear Hs. split; cbn; [|exact Ht].
    intros x. destruct (Nat.eq_dec x c) as [->|Nx].
    + rewrite upd_same. split; discriminate.
    + rewrite upd_other by exact Nx. split; [|discriminate].
      intros Ho. apply Hown in Ho. apply Hown in Ec. congruence.
Qed.

Lemma linv_run es : forall s s', linv s -> lrun s es = Some s' -> linv s'.
Proof.
  induction es as [|e r IH]; intros s s' Hi Hr; cbn in Hr.
  - inversion Hr; subst; exact Hi.
  - destruct (lstep s e) as [s1|] eqn:E; [|discriminate]. eapply IH; [eapply linv_step; eauto|exact Hr].
Qed.

(* at most one owner, in every interleaving of any number of contenders *)
Theorem C13_mutex : forall es s a b,
  lrun l_init es = Some s -> l_cs s a = COwner -> l_cs s b = COwner -> a = b.
Proof.
  intros es s a b Hr Ha Hb. destruct (linv_run es _ _ linv_init Hr) as [Hown _].
  apply Hown in Ha. apply Hown in Hb. congruence.
Qed.

(* every access to a chunk file is made by the contender that holds the lock at that moment *)
Theorem C13_touch_only_owner : forall es s c h,
  lrun l_init es = Some s -> In (c, h) (l_touches s) -> h = true.
Proof. intros es s c h Hr. destruct (linv_run es _ _ linv_init Hr) as [_ Ht]. apply Ht. Qed.

(* a refused attempt: while someone else owns the directory, TryLock leaves the contender
   idle, and it cannot touch a chunk file (no LTouch step is enabled for it) *)
Theorem C13_refused_is_inert : forall es s c o s',
  lrun l_init es = Some s -> l_cs s o = COwner -> l_cs s c = CLockFileOpen ->
  lstep s (LTryLock c) = Some s' ->
  l_cs s' c = CIdle /\ l_holder s' = Some o /\ l_touches s' = l_touches s /\ lstep s' (LTouch c) = None.
Proof.
  intros es s c o s' Hr Ho Hc Hs. destruct (linv_run es _ _ linv_init Hr) as [Hown _].
  apply Hown in Ho. cbn in Hs. rewrite Hc, Ho in Hs. inversion Hs; subst; clear Hs. cbn.
  rewrite upd_same. split; [reflexivity|]. split; [reflexivity|]. split; [reflexivity|]. reflexivity.
Qed.

Theorem C13_reacquire : forall es s o s1 c s2,
  lrun l_init es = Some s -> l_cs s o = COwner -> lstep s (LDrop o) = Some s1 ->
  l_cs s1 c = CLockFileOpen -> lstep s1 (LTryLock c) = Some s2 -> l_cs s2 c = COwner.
Proof.
  intros es s o s1 c s2 Hr Ho Hd Hc Ht. cbn in Hd. rewrite Ho in Hd. inversion Hd; subst; clear Hd.
  cbn in Ht. cbn in Hc. rewrite Hc in Ht. inversion Ht; subst; clear Ht. cbn. apply upd_same.
Qed.

(* non-vacuity: two contenders race; one wins, the other is refused, then gets in after the drop *)
Example C13_race :
  exists s, lrun l_init [LOpenLockFile 0; LOpenLockFile 1; LTryLock 1; LTryLock 0; LTouch 1; LDrop 1;
                          LOpenLockFile 0; LTryLock 0; LTouch 0] = Some s /\ l_cs s 0 = COwner /\ l_cs s 1 = CIdle.
Proof. eexists. split; [vm_compute; reflexivity|]. split; reflexivity. Qed.
