(* C11 (sequential part): the on-disk journal is an exact, gap-free record of the accepted writes.
   [logical y] is the directory as it will be once the worker has processed its queue and the caller's buffered
   bytes are flushed. [journal_wf y]: this directory consists of the files removed ++ closed ++ [open], strictly
   increasing and abutting; every live chunk file is a concatenation of well-formed records that starts with a
   state snapshot and matches the chunk's offset table ([JournalChunk.jinv]); the worker's newest file (after
   the queue) is the open chunk; every index-map entry points at the encoding of its own Append record. *)
From Coq Require Import List NArith Lia Arith Sorting.Sorted.
From RaftLog Require Import Model.Types Model.Codec Model.Core Model.Recover Model.Run.
From RaftLog Require Import Proofs.CodecFacts Proofs.SmFacts Proofs.JournalDisk Proofs.JournalChunk.
Import ListNotations.
Local Open Scope N_scope.
Local Arguments N.add : simpl never.
Local Arguments N.sub : simpl never.
Local Arguments N.mul : simpl never.
Local Arguments N.eqb : simpl never.
Local Arguments N.ltb : simpl never.
Local Arguments N.leb : simpl never.
Local Arguments N.compare : simpl never.
Local Arguments N.of_nat : simpl never.
Local Arguments enc_record : simpl never.

Definition logical (y : sys) : disk :=
  disk_append (ck_id (k_open (y_core y))) (k_pending (y_core y)) (y_disk (worker_idle y)).

Record journal_wf (y : sys) : Prop := mkJW {
  jw_sorted : dsorted (y_disk y);
  jw_inv : jinv (y_core y) (ids (logical y)) (file_bytes (logical y));
  jw_newest : exists older pl,
      snd (wfinal y) = older ++ [mkWF (ck_id (k_open (y_core y))) pl];
  jw_bound : Forall (fun i => i <= ck_id (k_open (y_core y)))
                    (mentioned (y_files y) (y_queue y)) }.

Lemma wfinal_send y r : wfinal (apply_eff y (ESend r)) = wstep (wfinal y) r.
Proof. unfold wfinal, wrun. simpl. rewrite fold_left_app. reflexivity. Qed.

Lemma wfinal_idle y : wfinal (worker_idle y) = wfinal y.
Proof. unfold wfinal at 1. rewrite worker_idle_queue, worker_idle_proj. reflexivity. Qed.

Lemma mentioned_snoc fs q r : mentioned fs (q ++ [r]) = mentioned fs q ++ req_ids r.
Proof. unfold mentioned. rewrite flat_map_app. simpl. rewrite app_nil_r, app_assoc. reflexivity. Qed.

Lemma wrun_files_mentioned q : forall s j,
  In j (map wf_id (snd (wrun q s))) -> In j (mentioned (snd s) q).
Proof.
  unfold wrun, mentioned. induction q as [|r q IH]; intros s j H; simpl in *.
  - rewrite app_nil_r. assumption.
  - apply IH in H. rewrite !in_app_iff in *. destruct H as [H|H]; [|tauto].
    apply wstep_files_ids in H. tauto.
Qed.

Lemma logical_eq y :
  logical y = disk_append (ck_id (k_open (y_core y))) (k_pending (y_core y)) (fst (wfinal y)).
Proof. unfold logical. rewrite worker_idle_disk. reflexivity. Qed.

Lemma wfinal_sorted y : dsorted (y_disk y) -> dsorted (fst (wfinal y)).
Proof. intros S. unfold wfinal. apply wrun_sorted. exact S. Qed.

Section JWFacts.
Variable y : sys.
Hypothesis JW : journal_wf y.
Let k := y_core y.
Let o := ck_id (k_open k).
Let FD := fst (wfinal y).

Lemma jw_FD_sorted : dsorted FD.
Proof. apply wfinal_sorted, (jw_sorted _ JW). Qed.

Lemma jw_ids_FD : ids (logical y) = ids FD.
Proof. rewrite logical_eq. apply ids_append, jw_FD_sorted. Qed.

Lemma jw_fb_open : file_bytes (logical y) o = file_bytes FD o ++ k_pending k.
Proof. rewrite logical_eq. apply fb_append_same. rewrite <- jw_ids_FD. apply (ji_open_in _ _ _ (jw_inv _ JW)). Qed.

Lemma jw_fb_other j : j <> o -> file_bytes (logical y) j = file_bytes FD j.
Proof. intros H. rewrite logical_eq. apply fb_append_other, H. Qed.

Lemma jw_logical_sorted : dsorted (logical y).
Proof. rewrite logical_eq. apply dsorted_append, jw_FD_sorted. Qed.
End JWFacts.

(* [journal_wf] reads [wfinal] only up to [weq], and [logical] is then a directory [D] *)
Lemma logical_weq y s : weq (wfinal y) s ->
  let D := disk_append (ck_id (k_open (y_core y))) (k_pending (y_core y)) (fst s) in
  ids (logical y) = ids D /\ forall j, file_bytes (logical y) j = file_bytes D j.
Proof.
  intros [S1 S2 Hi Hf _]. rewrite logical_eq. split; [rewrite !ids_append by assumption; exact Hi|].
  intros j. rewrite !fb_append_gen. rewrite Hi, !Hf. reflexivity.
Qed.

Lemma logical_weq_nil y D fs : weq (wfinal y) (D, fs) -> k_pending (y_core y) = [] ->
  ids (logical y) = ids D /\ forall j, file_bytes (logical y) j = file_bytes D j.
Proof.
  intros Hw Ep. destruct (logical_weq y _ Hw) as [Hi Hf]. pose proof (we_s2 _ _ Hw) as S.
  rewrite Ep in Hi, Hf. cbn [fst] in Hi, Hf, S. rewrite (disk_append_nil _ _ S) in Hi, Hf. auto.
Qed.

Lemma jw_make y' D :
  dsorted (y_disk y') ->
  ids (logical y') = ids D -> (forall j, file_bytes (logical y') j = file_bytes D j) ->
  jinv (y_core y') (ids D) (file_bytes D) ->
  (exists pl, newest_of (snd (wfinal y')) = Some (mkWF (ck_id (k_open (y_core y'))) pl)) ->
  Forall (fun i => i <= ck_id (k_open (y_core y'))) (mentioned (y_files y') (y_queue y')) ->
  journal_wf y'.
Proof.
  intros S Hi Hf J (pl & Hn) Hb. constructor; [exact S| | |exact Hb].
  - rewrite Hi. apply (jinv_ext_on _ _ (file_bytes D)); auto.
  - destruct (newest_of_last _ _ Hn) as [older E]. eauto.
Qed.

Lemma jw_newest_of y : journal_wf y ->
  exists pl, newest_of (snd (wfinal y)) = Some (mkWF (ck_id (k_open (y_core y))) pl).
Proof. intros JW. destruct (jw_newest _ JW) as (older & pl & E). exists pl. rewrite E. apply newest_of_snoc. Qed.

Lemma logical_core_eqj y y' : wfinal y' = wfinal y -> core_eqj (y_core y) (y_core y') ->
  logical y' = logical y.
Proof.
  intros Ew (E1 & E2 & E3 & E4 & E5 & E6 & E7). rewrite !logical_eq, Ew, E2, E3. reflexivity.
Qed.

(* [journal_wf] moves along [weq] of the worker's final state *)
Lemma jw_transfer y y' : journal_wf y -> core_eqj (y_core y) (y_core y') -> dsorted (y_disk y') ->
  weq (wfinal y') (wfinal y) ->
  incl (mentioned (y_files y') (y_queue y')) (mentioned (y_files y) (y_queue y)) ->
  journal_wf y' /\ ids (logical y') = ids (logical y) /\
  forall j, file_bytes (logical y') j = file_bytes (logical y) j.
Proof.
  intros JW Ec Sd Hw Hm. pose proof Ec as (E1 & E2 & E3 & E4 & E5 & E6 & E7).
  destruct (logical_weq y' _ Hw) as [Hi Hf]. rewrite E2, E3, <- logical_eq in Hi, Hf.
  split; [|split; assumption]. apply (jw_make y' (logical y) Sd Hi Hf); rewrite ?E2.
  - apply jinv_core_eqj with (k := y_core y); [apply (jw_inv _ JW)|exact Ec].
  - rewrite (we_nw _ _ Hw). apply (jw_newest_of _ JW).
  - pose proof (jw_bound _ JW) as HB. rewrite Forall_forall in *. intros j Hj. apply HB, Hm, Hj.
Qed.

Lemma jw_core_eqj y y' : journal_wf y ->
  y_disk y' = y_disk y -> y_files y' = y_files y -> y_queue y' = y_queue y ->
  core_eqj (y_core y) (y_core y') -> journal_wf y'.
Proof.
  intros JW Ed Ef Eq Ec.
  assert (Ew : wfinal y' = wfinal y) by (unfold wfinal, wproj; rewrite Ed, Ef, Eq; reflexivity).
  apply (jw_transfer y y' JW Ec); rewrite ?Ed, ?Ef, ?Eq, ?Ew;
    [apply (jw_sorted _ JW)|apply weq_refl, (jw_FD_sorted _ JW)|apply incl_refl].
Qed.

Lemma jw_with_core y k' : journal_wf y -> core_eqj (y_core y) k' -> journal_wf (with_core y k').
Proof. intros JW Ec. apply (jw_core_eqj y); auto. Qed.

Lemma jw_idle y : journal_wf y -> journal_wf (worker_idle y).
Proof.
  intros JW. apply (jw_transfer y _ JW (worker_idle_core y)).
  - rewrite worker_idle_disk. apply (jw_FD_sorted _ JW).
  - rewrite wfinal_idle. apply weq_refl, (jw_FD_sorted _ JW).
  - rewrite worker_idle_queue, worker_idle_files. intros j Ij.
    unfold mentioned in Ij. simpl in Ij. rewrite app_nil_r in Ij. apply wrun_files_mentioned in Ij. exact Ij.
Qed.

(* ------------------------------------------------------------------ an accepted record *)
Lemma jw_appended y r sm1 :
  journal_wf y -> wf_record r ->
  rs_validate (m_rs (k_sm (y_core y))) r = None ->
  sm_apply (k_sm (y_core y)) r (ck_id (k_open (y_core y)))
           (ck_end (k_open (y_core y)), rec_size r) = (sm1, None) ->
  let o := ck_id (k_open (y_core y)) in
  let y1 := with_core y (appended (y_core y) r sm1) in
  journal_wf y1 /\ ids (logical y1) = ids (logical y) /\
  file_bytes (logical y1) o = file_bytes (logical y) o ++ enc_record r /\
  (forall j, j <> o -> file_bytes (logical y1) j = file_bytes (logical y) j).
Proof.
  intros JW Hr Hv Hs o y1. pose proof (jw_inv _ JW) as J.
  assert (El : logical y1 = disk_append o (enc_record r) (logical y)) by (rewrite !logical_eq; apply disk_append_app).
  assert (Hi : ids (logical y1) = ids (logical y)) by (rewrite El; apply ids_append, (jw_logical_sorted _ JW)).
  assert (Ho : file_bytes (logical y1) o = file_bytes (logical y) o ++ enc_record r).
  { rewrite El. apply fb_append_same, (ji_open_in _ _ _ J). }
  assert (Hoth : forall j, j <> o -> file_bytes (logical y1) j = file_bytes (logical y) j).
  { intros j Hj. rewrite El. apply fb_append_other, Hj. }
  split; [|auto]. constructor; [apply (jw_sorted _ JW)| |apply (jw_newest _ JW)|apply (jw_bound _ JW)].
  rewrite Hi. apply jinv_append with (fb := file_bytes (logical y)); assumption.
Qed.

(* ------------------------------------------------------------------ rotation *)
(* the system after a rotation: the new file, the tail of the old one (if any), the new file to the worker *)
Lemma rotate_sys y1 :
  let k1 := y_core y1 in
  let off := ck_end (k_open k1) in
  let y2 := apply_effs (with_core y1 (rotated k1)) (rotate_effs k1) in
  y_core y2 = rotated k1 /\
  y_disk y2 = disk_put (mkFile off (enc_record (RState (m_rs (k_sm k1)))) 0) (y_disk y1) /\
  y_files y2 = y_files y1 /\
  y_queue y2 = y_queue y1 ++
    match k_pending k1 with [] => [] | _ => [WWrite off (k_pending k1) None] end ++
    [WAppendFile off (r_last (m_rs (k_sm k1)))].
Proof.
  intros k1 off y2. unfold y2, rotate_effs. fold off.
  destruct (k_pending k1); cbn; rewrite <- ?app_assoc; auto.
Qed.

(* up to sync marks the worker will end with the new file put into the logical directory *)
Lemma wfinal_rotated y1 : journal_wf y1 ->
  let k1 := y_core y1 in
  let off := ck_end (k_open k1) in
  weq (wfinal (apply_effs (with_core y1 (rotated k1)) (rotate_effs k1)))
      (disk_put (mkFile off (enc_record (RState (m_rs (k_sm k1)))) 0) (logical y1),
       snd (wfinal y1) ++ [mkWF off (r_last (m_rs (k_sm k1)))]).
Proof.
  intros JW k1 off. pose proof (jw_inv _ JW) as J. fold k1 in J.
  destruct (rotate_sys y1) as (_ & Ed & Ef & Eq). cbv zeta in Ed, Ef, Eq. fold k1 off in Ed, Ef, Eq.
  set (nf := mkFile off (enc_record (RState (m_rs (k_sm k1)))) 0) in *.
  pose proof (ji_open_lt_end _ _ _ J) as Hlt. fold off in Hlt.
  assert (Hfresh : ~ In off (mentioned (y_files y1) (y_queue y1))).
  { intros I. pose proof (jw_bound _ JW) as HB. rewrite Forall_forall in HB. specialize (HB _ I). fold k1 in HB. lia. }
  destruct (jw_newest_of _ JW) as (pl & Hn). fold k1 in Hn.
  unfold wfinal at 1, wproj. rewrite Ed, Ef, Eq, !wrun_app.
  rewrite (wrun_put_comm nf _ _ _ (jw_sorted _ JW) Hfresh). change (wrun (y_queue y1) (y_disk y1, y_files y1)) with (wfinal y1).
  set (WA := WAppendFile off (r_last (m_rs (k_sm k1)))).
  change (wrun [WA] ?s) with (wstep s WA).
  eapply weq_trans; [apply wstep_weq, weq_write_opt, dsorted_put, (jw_FD_sorted _ JW)|].
  rewrite Hn. cbn [wf_id wstep fst snd WA].
  rewrite put_append_comm by (first [apply (jw_FD_sorted _ JW)|cbn; lia]).
  replace (disk_append _ _ (fst (wfinal y1))) with (logical y1) by apply logical_eq.
  apply weq_refl, dsorted_put, (jw_logical_sorted _ JW).
Qed.

Lemma jw_rotated y1 :
  journal_wf y1 ->
  let k1 := y_core y1 in
  let off := ck_end (k_open k1) in
  let y2 := apply_effs (with_core y1 (rotated k1)) (rotate_effs k1) in
  journal_wf y2 /\ ids (logical y2) = ids (logical y1) ++ [off] /\
  file_bytes (logical y2) off = enc_record (RState (m_rs (k_sm k1))) /\
  (forall j, j <> off -> file_bytes (logical y2) j = file_bytes (logical y1) j).
Proof.
  intros JW k1 off y2. pose proof (jw_inv _ JW) as J. fold k1 in J.
  pose proof (wfinal_rotated y1 JW) as Hw. cbv zeta in Hw. fold k1 off y2 in Hw.
  destruct (rotate_sys y1) as (Ec & Ed & Ef & Eq). cbv zeta in Ec, Ed, Ef, Eq. fold k1 off y2 in Ec, Ed, Ef, Eq.
  set (nf := mkFile off (enc_record (RState (m_rs (k_sm k1)))) 0) in *.
  set (D := disk_put nf (logical y1)) in *.
  pose proof (ji_open_lt_end _ _ _ J) as Hlt. fold off in Hlt.
  destruct (logical_weq_nil y2 _ _ Hw ltac:(rewrite Ec; reflexivity)) as [Hi Hf].
  assert (ED : D = logical y1 ++ [nf]).
  { apply disk_put_last. rewrite Forall_forall. intros j Ij. pose proof (ji_ids_le _ _ _ J j Ij). cbn [f_id nf]. lia. }
  assert (Hi' : ids D = ids (logical y1) ++ [off]) by (rewrite ED; unfold ids; rewrite map_app; reflexivity).
  assert (Hoff : file_bytes D off = f_data nf) by (unfold D; rewrite fb_put; cbn [f_id nf]; rewrite N.eqb_refl; reflexivity).
  assert (Hoth : forall j, j <> off -> file_bytes D j = file_bytes (logical y1) j).
  { intros j Hj. unfold D. rewrite fb_put. cbn [f_id nf]. destruct (N.eqb_spec j off); [contradiction|reflexivity]. }
  split; [|rewrite Hi, Hi', !Hf; split; [reflexivity|split; [exact Hoff|intros j Hj; rewrite Hf; exact (Hoth j Hj)]]].
  apply (jw_make y2 D ltac:(rewrite Ed; apply dsorted_put, (jw_sorted _ JW)) Hi Hf); rewrite Ec.
  - rewrite Hi'. apply jinv_rotate with (fb := file_bytes (logical y1)); assumption.
  - rewrite (we_nw _ _ Hw). cbn [snd]. rewrite newest_of_snoc. eauto.
  - unfold mentioned. rewrite Ef, Eq, !flat_map_app, app_assoc. apply Forall_app. split.
    + eapply Forall_impl; [|exact (jw_bound _ JW)]. cbv beta. fold k1. cbn [rotated k_open ck_id ck_push]. intros; lia.
    + destruct (k_pending k1); cbn; repeat constructor; apply N.le_refl.
Qed.

(* ------------------------------------------------------------------ append_and_apply *)
Lemma append_step y r k' w effs :
  journal_wf y -> wf_record r ->
  append_and_apply (y_core y) r = Ret (k', w, effs) ->
  let y' := apply_effs (with_core y k') effs in
  let oid := ck_id (k_open (y_core y)) in
  journal_wf y' /\ y_core y' = k' /\
  (forall off len, w = WOk off len ->
    file_bytes (logical y') oid = file_bytes (logical y) oid ++ enc_record r /\
    off = oid + N.of_nat (length (file_bytes (logical y) oid)) /\ len = rec_size r /\
    (forall id, id <> oid -> id <> ck_id (k_open k') ->
                file_bytes (logical y') id = file_bytes (logical y) id) /\
    (ck_id (k_open k') <> oid ->
       ck_id (k_open k') = oid + N.of_nat (length (file_bytes (logical y') oid)) /\
       file_bytes (logical y') (ck_id (k_open k')) = enc_record (RState (m_rs (k_sm k'))))).
Proof.
  intros JW Hr H. cbv zeta. set (oid := ck_id (k_open (y_core y))).
  apply append_and_apply_steps in H as [(Ek & Ee & e & Ew)|(sm1 & Hv & Hs & Ew & Ht)].
  { subst k' effs w. split; [apply jw_with_core; [assumption|apply core_eqj_refl]|].
    split; [reflexivity|]. intros off len E. discriminate E. }
  destruct (jw_appended y r sm1 JW Hr Hv Hs) as (JW1 & Hids1 & Hfo1 & Hfother1).
  set (k1 := appended (y_core y) r sm1) in *. set (y1 := with_core y k1) in *.
  fold oid in Hfo1, Hfother1.
  pose proof (ji_open_end _ _ _ (jw_inv _ JW)) as Hend. fold oid in Hend.
  destruct Ht as [(F & Ek & Ee)|(F & Ek & Ee)]; subst k' effs w.
  - change (apply_effs (with_core y k1) []) with y1.
    split; [exact JW1|]. split; [reflexivity|]. intros off len E. inversion E; subst off len.
    split; [assumption|]. split; [exact Hend|]. split; [reflexivity|].
    split; [intros id H1 _; apply Hfother1; assumption|].
    intros Hne. exfalso. apply Hne. reflexivity.
  - destruct (jw_rotated y1 JW1) as (JW2 & Hids2 & Hfoff2 & Hfother2).
    change (y_core y1) with k1 in *.
    change (apply_effs (with_core y (rotated k1)) (rotate_effs k1))
      with (apply_effs (with_core y1 (rotated k1)) (rotate_effs k1)).
    split; [exact JW2|]. split; [rewrite apply_effs_core; reflexivity|].
    intros off len E. inversion E; subst off len.
    pose proof (ji_open_end _ _ _ (jw_inv _ JW1)) as Hend1.
    pose proof (ji_open_lt_end _ _ _ (jw_inv _ JW1)) as Hlt.
    change (y_core y1) with k1 in Hend1, Hlt. change (ck_id (k_open k1)) with oid in Hend1, Hlt.
    change (ck_id (k_open (rotated k1))) with (ck_end (k_open k1)).
    split; [rewrite Hfother2 by lia; assumption|]. split; [exact Hend|].
    split; [reflexivity|]. split.
    { intros id H1 H2. rewrite Hfother2 by assumption. apply Hfother1. assumption. }
    intros _. split; [rewrite Hfother2 by lia; exact Hend1|exact Hfoff2].
Qed.

Lemma append_step_jw y r k' w effs :
  journal_wf y -> wf_record r -> append_and_apply (y_core y) r = Ret (k', w, effs) ->
  journal_wf (apply_effs (with_core y k') effs).
Proof. intros JW Hr H. apply (append_step y r k' w effs JW Hr H). Qed.

(* ------------------------------------------------------------------ purge, flush *)
Lemma jw_purged y upto rm rest :
  journal_wf y -> pop_obsolete upto (k_closed (y_core y)) = (rm, rest) ->
  journal_wf (with_core y (purged_core (y_core y) rm rest)).
Proof.
  intros JW H.
  assert (El : logical (with_core y (purged_core (y_core y) rm rest)) = logical y).
  { rewrite !logical_eq. reflexivity. }
  constructor.
  - apply (jw_sorted _ JW).
  - rewrite El. apply jinv_purge with (upto := upto); [apply (jw_inv _ JW)|exact H].
  - apply (jw_newest _ JW).
  - apply (jw_bound _ JW).
Qed.

Lemma mem_false j l : ~ In j l -> mem j l = false.
Proof.
  intros H. destruct (mem j l) eqn:E; [|reflexivity]. apply mem_In in E. contradiction.
Qed.

Lemma filter_notmem_app rm rest : StronglySorted N.lt (rm ++ rest) ->
  filter (fun j => negb (mem j rm)) (rm ++ rest) = rest.
Proof.
  intros S. apply ss_app_inv in S as (_ & _ & S). rewrite filter_app.
  rewrite OrderFacts.filter_all_false, OrderFacts.filter_all_true; [reflexivity| |].
  - intros x Ix. rewrite mem_false; [reflexivity|]. intros I. specialize (S _ _ I Ix). lia.
  - intros x Ix. apply mem_In in Ix. rewrite Ix. reflexivity.
Qed.

Definition flush_effs (W : wreq) (rm : list N) : list eff :=
  ESend W :: match rm with [] => [] | ids => [ESend (WRemove ids)] end.

Lemma wfinal_flush y k' W rm :
  wfinal (apply_effs (with_core y k') (flush_effs W rm)) =
  (remove_all rm (fst (wstep (wfinal y) W)), snd (wstep (wfinal y) W)).
Proof.
  unfold flush_effs. destruct rm as [|a rm]; cbn [apply_effs fold_left]; rewrite ?wfinal_send;
    change (wfinal (with_core y k')) with (wfinal y).
  - apply (surjective_pairing (wstep (wfinal y) W)).
  - reflexivity.
Qed.

Lemma flush_effs_sys y k' W rm :
  let y' := apply_effs (with_core y k') (flush_effs W rm) in
  y_disk y' = y_disk y /\ y_files y' = y_files y /\
  mentioned (y_files y') (y_queue y') = mentioned (y_files y) (y_queue y) ++ req_ids W ++ rm.
Proof.
  unfold flush_effs. destruct rm as [|a rm]; cbn [apply_effs fold_left]; simpl;
    rewrite ?mentioned_snoc; simpl; rewrite ?app_nil_r, <- ?app_assoc; auto.
Qed.

Lemma do_flush_eq k cb :
  do_flush k cb =
  (flushed_core k (if cb then k_next_cb k + 1 else k_next_cb k),
   flush_effs (WWrite (ck_end (k_open k)) (k_pending k) (if cb then Some (k_next_cb k) else None))
              (k_removed k)).
Proof. unfold do_flush, flush_effs, flushed_core. destruct (k_removed k); reflexivity. Qed.

(* up to sync marks the worker will end with the logical directory less the removed files *)
Lemma wfinal_flushed y k' u cb rm : journal_wf y ->
  weq (wfinal (apply_effs (with_core y k') (flush_effs (WWrite u (k_pending (y_core y)) cb) rm)))
      (remove_all rm (logical y), snd (wfinal y)).
Proof.
  intros JW. destruct (jw_newest_of _ JW) as (pl & Hn).
  rewrite wfinal_flush. change (?a, ?b) with (wstep (wstep (wfinal y) (WWrite u (k_pending (y_core y)) cb)) (WRemove rm)) at 1.
  eapply weq_trans; [apply wstep_weq; rewrite (surjective_pairing (wfinal y)); apply weq_write, (jw_FD_sorted _ JW)|].
  rewrite Hn. cbn [wf_id wstep fst snd]. rewrite <- logical_eq.
  apply weq_refl, dsorted_remove_all, (jw_logical_sorted _ JW).
Qed.

Lemma jw_flush_ex y cb :
  journal_wf y ->
  let y' := apply_effs (with_core y (fst (do_flush (y_core y) cb))) (snd (do_flush (y_core y) cb)) in
  journal_wf y' /\
  ids (logical y') = closed_ids (y_core y) ++ [ck_id (k_open (y_core y))] /\
  (forall j, In j (closed_ids (y_core y) ++ [ck_id (k_open (y_core y))]) ->
     file_bytes (logical y') j = file_bytes (logical y) j) /\
  core_eqj (flushed_core (y_core y) (k_next_cb (y_core y'))) (y_core y').
Proof.
  intros JW. rewrite do_flush_eq. cbn [fst snd]. pose proof (jw_inv _ JW) as J.
  set (k := y_core y) in *. set (o := ck_id (k_open k)) in *. set (rm := k_removed k).
  set (cbn := if cb then k_next_cb k + 1 else k_next_cb k).
  set (W := WWrite (ck_end (k_open k)) (k_pending k) (if cb then Some (k_next_cb k) else None)).
  set (y' := apply_effs (with_core y (flushed_core k cbn)) (flush_effs W rm)).
  pose proof (wfinal_flushed y (flushed_core k cbn) _ _ rm JW : weq (wfinal y') _) as Hw.
  destruct (flush_effs_sys y (flushed_core k cbn) W rm) as (Edisk & _ & Ement). fold y' in Edisk, Ement.
  assert (Ecore : y_core y' = flushed_core k cbn) by (unfold y'; rewrite apply_effs_core; reflexivity).
  set (D := remove_all rm (logical y)) in *.
  destruct (logical_weq_nil y' _ _ Hw ltac:(rewrite Ecore; reflexivity)) as [Hi Hf].
  assert (Hsort : StronglySorted N.lt (rm ++ closed_ids k ++ [o])).
  { pose proof (ji_sorted _ _ _ J) as S. rewrite (ji_ids _ _ _ J) in S. exact S. }
  assert (Hi' : ids D = closed_ids k ++ [o]).
  { unfold D. rewrite ids_remove_all, (ji_ids _ _ _ J). apply filter_notmem_app. exact Hsort. }
  assert (Hkeep : forall j, In j (closed_ids k ++ [o]) -> file_bytes D j = file_bytes (logical y) j).
  { intros j Ij. unfold D. rewrite fb_remove_all, mem_false; [reflexivity|]. intros I.
    apply ss_app_inv in Hsort as (_ & _ & S). specialize (S _ _ I Ij). lia. }
  split; [|rewrite Hi, Hi'; split; [reflexivity|split; [intros j Ij; rewrite Hf; exact (Hkeep j Ij)|rewrite Ecore; apply core_eqj_refl]]].
  apply (jw_make y' D ltac:(rewrite Edisk; apply (jw_sorted _ JW)) Hi Hf); rewrite Ecore.
  - rewrite Hi'. apply jinv_flush with (idl := ids (logical y)) (fb := file_bytes (logical y)); assumption.
  - rewrite (we_nw _ _ Hw). apply (jw_newest_of _ JW).
  - rewrite Ement. apply Forall_app. split; [apply (jw_bound _ JW)|].
    simpl. rewrite Forall_forall. intros j Ij. pose proof (ji_removed_lt _ _ _ J j Ij). fold k o in H. lia.
Qed.

Lemma jw_flush y cb :
  journal_wf y ->
  journal_wf (apply_effs (with_core y (fst (do_flush (y_core y) cb))) (snd (do_flush (y_core y) cb))).
Proof. intros JW. apply (jw_flush_ex y cb JW). Qed.

(* ------------------------------------------------------------------ caller operations *)
Definition wop_wf (w : wop) : Prop :=
  match w with
  | OVote v => wf_pair v
  | OAppend es => Forall (fun e => wf_pair (fst e) /\ wf_bytes (snd e)) es
  | OTruncate _ => True
  | OPurge u => wf_pair u
  | OCommit id => wf_pair id
  | OUser u => wf_opt wf_bytes u
  | OUpdateState st => wf_rstate st
  end.
Definition op_wf (o : op) : Prop := match o with OW w => wop_wf w | _ => True end.
Definition op_c11 (o : op) : bool := match o with ORestart _ => false | _ => true end.
Definition ops_c11 (ops : list op) : bool := forallb op_c11 ops.

Lemma lm_get_In i m d : lm_get i m = Some d -> In (i, d) m.
Proof.
  induction m as [|[i' d'] m IH]; simpl; [discriminate|].
  destruct (N.eqb_spec i i') as [E|E]; intros H.
  - inversion H; subst. left; reflexivity.
  - right. apply IH. assumption.
Qed.

Lemma do_read_core k d from to : core_eqj k (fst (do_read k d from to)).
Proof.
  unfold do_read.
  destruct (read_items (m_cache (k_sm k)) (k_closed k) d
              (lm_range from (N.max to from) (m_log (k_sm k))) (k_hit k) (k_miss k))
    as [[items h] ms].
  simpl. repeat split.
Qed.

Lemma issues_wf_j k idl fb w r : jinv k idl fb -> wop_wf w -> issues k w r -> wf_record r.
Proof.
  intros J Hw Hi. pose proof (ji_rs _ _ _ J) as (Wv & Wl & Wc & Wp & Wu).
  destruct Hi as [v|es id p Hin|i|i d El|u|id|u|st]; cbn [wop_wf wf_record] in *; try assumption.
  - rewrite Forall_forall in Hw. apply (Hw _ Hin).
  - apply (ji_log_In _ _ _ J _ (lm_get_In _ _ _ El)).
  - unfold wf_rstate. simpl. tauto.
Qed.

Lemma issues_wf y w r : journal_wf y -> wop_wf w -> issues (y_core y) w r -> wf_record r.
Proof. intros JW. apply (issues_wf_j _ _ _ _ _ (jw_inv _ JW)). Qed.

(* [SmFacts.do_write_inv] and [run_op_cases] for a property [I] of system states: [I]
   survives every caller operation other than a restart if it survives a record handed to
   [append_and_apply], the popping of obsolete chunks, a flush, the worker, and changes of
   the caller state outside [core_eqj]. *)
Section SysRule.
Variable I : sys -> Prop.
Variable ok : sys -> record -> Prop.
Hypothesis I_rec : forall y r k' res ef, I y -> ok y r ->
  append_and_apply (y_core y) r = Ret (k', res, ef) -> I (commit y k' ef).
Hypothesis I_pop : forall y u rm rest, I y ->
  pop_obsolete u (k_closed (y_core y)) = (rm, rest) ->
  I (with_core y (purged_core (y_core y) rm rest)).

Lemma do_write_sys y w k' res effs :
  I y -> (forall y1 r, I y1 -> issues (y_core y1) w r -> ok y1 r) ->
  do_write (y_core y) w = Ret (k', res, effs) -> I (commit y k' effs).
Proof using I_rec I_pop.
  intros Iy Hok H.
  refine (do_write_inv (fun k effs => I (commit y k effs)) w _ _ _ _ _ _ _ H).
  - intros k ef0 r k1 res1 ef I0 Hi Ha. rewrite <- (commit_commit y k).
    rewrite <- (commit_core y k ef0) in Hi, Ha. apply (I_rec _ r k1 res1 ef I0); auto.
  - intros k ef0 u rm rest I0 Hp. rewrite <- (commit_core y k ef0) in Hp.
    pose proof (I_pop _ u rm rest I0 Hp) as Ip. rewrite commit_core in Ip.
    unfold commit in *. rewrite apply_effs_with_core in Ip |- *. exact Ip.
  - rewrite commit_nil. exact Iy.
Qed.

Hypothesis I_flush : forall y cb, I y ->
  I (commit y (fst (do_flush (y_core y) cb)) (snd (do_flush (y_core y) cb))).
Hypothesis I_core : forall y k', I y -> core_eqj (y_core y) k' -> I (with_core y k').
Hypothesis I_idle : forall y, I y -> I (worker_idle y).

Lemma run_op_sys y o y' res :
  I y -> op_c11 o = true ->
  (forall w y1 r, o = OW w -> I y1 -> issues (y_core y1) w r -> ok y1 r) ->
  run_op y o = (Some y', res) -> I y'.
Proof using I_rec I_pop I_flush I_core I_idle.
  intros Iy Hc Hok H. apply run_op_cases in H.
  destruct o as [w|cb|from to| | | | | |cfg]; try discriminate Hc; subst; try exact Iy.
  - destruct H as (k & r & effs & E & -> & _).
    apply (do_write_sys y w k r effs Iy (fun y1 r1 => Hok w y1 r1 eq_refl) E).
  - apply I_flush, Iy.
  - apply I_core; [exact Iy|apply do_read_core].
  - apply I_idle, Iy.
  - apply I_core; [exact Iy|apply core_eqj_cache].
Qed.
End SysRule.


Lemma jw_run_op y o y' res :
  journal_wf y -> op_c11 o = true -> op_wf o -> run_op y o = (Some y', res) -> journal_wf y'.
Proof.
  intros JW Hc Hw. apply (run_op_sys journal_wf (fun _ => wf_record)); try assumption.
  - intros; eapply append_step_jw; eassumption.
  - intros; eapply jw_purged; eassumption.
  - intros; apply jw_flush; assumption.
  - intros; apply jw_with_core; assumption.
  - intros; apply jw_idle; assumption.
  - intros w y1 r -> JW1. apply issues_wf; assumption.
Qed.

Definition sys0 (cfg : config) : sys :=
  let head := enc_record (RState rstate0) in
  mkSys (mkCore cfg (sm_new cfg) (ck_push (mkChunk 0 []) (N.of_nat (length head))) [] [] [] 0 0 0)
        [mkFile 0 head 0] [] [mkWF 0 None] [].

Lemma open_dir_nil cfg : open_dir cfg [] = OpenOk (sys0 cfg).
Proof. reflexivity. Qed.

Lemma jw_open_nonempty y : journal_wf y -> ck_ends (k_open (y_core y)) <> [].
Proof.
  intros JW. destruct (ji_open_ok _ _ _ (jw_inv _ JW)) as (rs & _ & _ & E & st & tl & Ers).
  rewrite E, Ers. discriminate.
Qed.

Lemma jw_init cfg : journal_wf (sys0 cfg).
Proof.
  apply (jw_make (sys0 cfg) [mkFile 0 (enc_record (RState rstate0)) 0]); try reflexivity.
  - unfold dsorted. simpl. repeat constructor.
  - apply (jinv_init cfg). reflexivity.
  - exists None. reflexivity.
  - simpl. repeat constructor. apply N.le_refl.
Qed.

(* ================================================================== the theorems *)
Theorem C11_invariant : forall cfg ops res y,
  ops_c11 ops = true -> Forall op_wf ops ->
  run_case cfg ops = (res, Some y) -> journal_wf y.
Proof.
  intros cfg ops res y Hc Hw.
  apply (run_case_inv journal_wf (fun o => op_c11 o = true /\ op_wf o)).
  - intros y0 o y' r JW [Ho1 Ho2]. apply (jw_run_op y0 o y' r JW Ho1 Ho2).
  - intros y0 E. rewrite open_dir_nil in E. inversion E. apply jw_init.
  - unfold ops_c11 in Hc. rewrite forallb_forall in Hc. rewrite Forall_forall in *. auto.
Qed.

Theorem C11_write_appends : forall y r k' off len effs, journal_wf y ->
  append_and_apply (y_core y) r = Ret (k', WOk off len, effs) -> wf_record r ->
  let y' := apply_effs (with_core y k') effs in
  let oid := ck_id (k_open (y_core y)) in
  file_bytes (logical y') oid = file_bytes (logical y) oid ++ enc_record r /\
  off = oid + N.of_nat (length (file_bytes (logical y) oid)) /\ len = rec_size r /\
  (forall id, id <> oid -> id <> ck_id (k_open k') ->
     file_bytes (logical y') id = file_bytes (logical y) id) /\
  (ck_id (k_open k') <> oid ->
     ck_id (k_open k') = oid + N.of_nat (length (file_bytes (logical y') oid)) /\
     file_bytes (logical y') (ck_id (k_open k')) = enc_record (RState (m_rs (k_sm k')))).
Proof.
  intros y r k' off len effs JW H Hr.
  destruct (append_step y r k' _ effs JW Hr H) as (_ & _ & Hd).
  apply (Hd off len eq_refl).
Qed.

Theorem C11_write_preserves : forall y r k' w effs, journal_wf y -> wf_record r ->
  append_and_apply (y_core y) r = Ret (k', w, effs) ->
  journal_wf (apply_effs (with_core y k') effs).
Proof. exact append_step_jw. Qed.

Theorem C11_on_disk_size : forall y, journal_wf y ->
  do_on_disk_size (y_core y) =
  nsum (map (fun id => N.of_nat (length (file_bytes (logical y) id)))
            (closed_ids (y_core y) ++ [ck_id (k_open (y_core y))])).
Proof.
  intros y JW. pose proof (jw_inv _ JW) as J.
  set (k := y_core y) in *. set (fb := file_bytes (logical y)) in *.
  pose proof (ji_abut _ _ _ J) as A. rewrite (ji_ids _ _ _ J) in A. unfold chunk_ids in A.
  apply abut_app_r in A.
  unfold do_on_disk_size. fold k. rewrite (ji_open_end _ _ _ J). fold k fb.
  change (fun id => N.of_nat (length (fb id))) with (fun id => blen (fb id)).
  unfold closed_ids in *. destruct (k_closed k) as [|c cs]; cbn [map app] in *.
  - simpl. lia.
  - pose proof (abut_total fb _ _ A) as E. rewrite last_last in E. cbn [map] in E. lia.
Qed.

Theorem C11_idle_disk_is_journal : forall y, journal_wf y ->
  y_queue y = [] -> k_pending (y_core y) = [] -> logical y = y_disk y.
Proof.
  intros y JW Hq Hp. rewrite logical_eq, Hp. unfold wfinal. rewrite Hq. simpl.
  apply disk_append_nil, (jw_sorted _ JW).
Qed.

(* item (e) of the list in [C11_structure], apart because it speaks of the real disk:
   every file there holds a prefix of its logical file *)
Theorem C11_disk_is_prefix : forall y id f, dsorted (y_disk y) ->
  disk_get id (y_disk y) = Some f -> In id (ids (logical y)) ->
  exists tl, file_bytes (logical y) id = f_data f ++ tl.
Proof.
  intros y id f S Hf I.
  pose proof (wfinal_sorted _ S) as SF.
  rewrite logical_eq in *. rewrite ids_append in I by assumption.
  destruct (wrun_back (y_queue y) (wproj y) id S I) as (_ & tl & E & _). fold (wfinal y) in E.
  cbn [wproj fst] in E. rewrite (disk_get_fb _ _ _ Hf) in E.
  destruct (N.eq_dec id (ck_id (k_open (y_core y)))) as [Eo|Eo].
  - subst id. rewrite fb_append_same, E, <- app_assoc by assumption. eauto.
  - rewrite fb_append_other, E by assumption. eauto.
Qed.

Lemma app_eq_prefix {A} (u : list A) : forall x y v,
  x ++ y = u ++ v -> (length u <= length x)%nat -> exists w, x = u ++ w.
Proof.
  induction u as [|a u IH]; intros x y v H L.
  - exists x. reflexivity.
  - destruct x as [|b x]; [simpl in L; lia|].
    simpl in H. inversion H; subst. simpl in L.
    destruct (IH x y v H2 ltac:(lia)) as [w Ew]. exists w. subst x. reflexivity.
Qed.

Lemma read_record_at d c f tl pre r post :
  disk_get (ck_id c) d = Some f -> f_data f ++ tl = pre ++ enc_record r ++ post -> wf_record r ->
  read_record d c (ck_id c + blen pre) (rec_size r) =
  Ret (if N.ltb (blen (f_data f)) (blen pre + rec_size r) then inr EDecodeEof else inl r).
Proof.
  intros Hf Etl Wr. unfold read_record, blen. rewrite Hf.
  destruct (N.ltb_spec (ck_id c + N.of_nat (length pre)) (ck_id c)) as [Hu|_]; [lia|].
  replace (ck_id c + N.of_nat (length pre) - ck_id c) with (N.of_nat (length pre)) by lia.
  destruct (N.ltb_spec (N.of_nat (length (f_data f))) (N.of_nat (length pre) + rec_size r)) as [L|L]; [reflexivity|].
  set (e := enc_record r) in *. unfold rec_size in *. fold e in L |- *.
  assert (Hx : exists w, f_data f = (pre ++ e) ++ w).
  { apply (app_eq_prefix (pre ++ e) (f_data f) tl post).
    - rewrite Etl, app_assoc. reflexivity.
    - rewrite app_length. lia. }
  destruct Hx as [w Ew]. rewrite Ew. rewrite !Nat2N.id.
  rewrite <- app_assoc, skipn_app, skipn_all, Nat.sub_diag. cbn [skipn app].
  rewrite firstn_app, firstn_all, Nat.sub_diag. cbn [firstn]. rewrite app_nil_r.
  rewrite <- (app_nil_r e). unfold e. rewrite dec_enc_record; [reflexivity|exact Wr].
Qed.

Definition reads_own (cl : list closed) (d : disk) (ld : logdata) : Prop :=
  forall c, In c cl -> ck_id (cl_chunk c) = ld_chunk ld ->
    (exists p, read_record d (cl_chunk c) (ld_off ld) (ld_len ld) = Ret (inl (RAppend (ld_id ld) p))) \/
    read_record d (cl_chunk c) (ld_off ld) (ld_len ld) = Ret (inr EDecodeEof).

(* for any directory whose files are byte prefixes of the journal files [fb] *)
Lemma jinv_reads_own k idl fb d : jinv k idl fb ->
  (forall id f, In id idl -> disk_get id d = Some f -> exists tl, fb id = f_data f ++ tl) ->
  forall i ld, In (i, ld) (m_log (k_sm k)) -> reads_own (k_closed k) d ld.
Proof.
  intros J Hpre i ld Il c Ic Eid.
  destruct (ji_log_In _ _ _ J _ Il) as (Wid & _ & Hseg). cbn [snd] in Wid, Hseg.
  assert (Iid : In (ld_chunk ld) idl).
  { rewrite <- Eid. apply (ji_live_in _ _ _ J), in_or_app. left. apply In_closed_ids, Ic. }
  destruct (Hseg Iid) as (pre & p & post & Wp & Ef & Eoff & Elen).
  destruct (disk_get (ck_id (cl_chunk c)) d) as [f|] eqn:Eg.
  - rewrite Eid in Eg. destruct (Hpre _ f Iid Eg) as [tl Etl]. rewrite <- Eid in Eg.
    rewrite Eoff, Elen, <- Eid, (read_record_at d _ f tl pre _ post Eg); [|rewrite <- Etl; exact Ef|split; assumption].
    destruct (N.ltb _ _); [right; reflexivity|left; exists p; reflexivity].
  - right. unfold read_record. rewrite Eg, Eid.
    destruct (N.ltb_spec (ld_off ld) (ld_chunk ld)); [unfold blen in Eoff; lia|reflexivity].
Qed.

(* reading an index-map entry that lives in a closed chunk yields its own Append
   record, or Eof while the bytes are not yet written; nothing else *)
Theorem C11_read_record_is_append : forall y i ld c, journal_wf y ->
  In (i, ld) (m_log (k_sm (y_core y))) -> In c (k_closed (y_core y)) ->
  ck_id (cl_chunk c) = ld_chunk ld ->
  (exists p, read_record (y_disk y) (cl_chunk c) (ld_off ld) (ld_len ld)
             = Ret (inl (RAppend (ld_id ld) p))) \/
  read_record (y_disk y) (cl_chunk c) (ld_off ld) (ld_len ld) = Ret (inr EDecodeEof).
Proof.
  intros y i ld c JW Il. apply (jinv_reads_own _ _ _ (y_disk y) (jw_inv _ JW)) with (i := i); [|exact Il].
  intros id f I Hf. apply (C11_disk_is_prefix y id f (jw_sorted _ JW) Hf I).
Qed.

Theorem C11_structure : forall y, journal_wf y ->
  let k := y_core y in
  let D := logical y in
  let o := ck_id (k_open k) in
  (* (a) the files of the logical directory *)
  ids D = k_removed k ++ map (fun c => ck_id (cl_chunk c)) (k_closed k) ++ [o] /\
  StronglySorted N.lt (ids D) /\
  (* (b) consecutive files abut *)
  (forall pre a b post, ids D = pre ++ a :: b :: post ->
     b = a + N.of_nat (length (file_bytes D a))) /\
  (* (c) every live chunk file is a sequence of well-formed records, headed by a state
     snapshot, and the chunk's offset table is that of these records *)
  (forall c, In c (map cl_chunk (k_closed k) ++ [k_open k]) ->
     exists rs, Forall wf_record rs /\ file_bytes D (ck_id c) = encs rs /\
                ck_ends c = ends_from (ck_id c) (map rec_size rs) /\
                exists st tl, rs = RState st :: tl) /\
  (* the snapshot heading the successor of a closed chunk is that chunk's closing state *)
  heads_ok (file_bytes D) (k_closed k) o /\
  (* (d) after the queue is processed the worker's newest file is the open chunk *)
  (exists older pl, y_files (worker_idle y) = older ++ [mkWF o pl]) /\
  (* (f) index-map entries point at the encoding of their own Append record *)
  (forall i ld, In (i, ld) (m_log (k_sm k)) ->
     wf_pair (ld_id ld) /\ ld_chunk ld <= o /\
     (In (ld_chunk ld) (ids D) ->
      exists pre p post, wf_bytes p /\
        file_bytes D (ld_chunk ld) = pre ++ enc_record (RAppend (ld_id ld) p) ++ post /\
        ld_off ld = ld_chunk ld + N.of_nat (length pre) /\
        ld_len ld = rec_size (RAppend (ld_id ld) p))).
Proof.
  intros y JW k D o. pose proof (jw_inv _ JW) as J. fold k D in J.
  split; [apply (ji_ids _ _ _ J)|]. split; [apply (ji_sorted _ _ _ J)|].
  split; [apply (abut_spec _ _ (ji_abut _ _ _ J))|].
  split.
  { pose proof (ji_chunks _ _ _ J) as HC. rewrite Forall_forall in HC. exact HC. }
  split; [apply (ji_heads _ _ _ J)|].
  split; [rewrite worker_idle_files; apply (jw_newest _ JW)|].
  intros i ld I. pose proof (ji_log _ _ _ J) as HL. rewrite Forall_forall in HL.
  apply (HL _ I).
Qed.

(* ------------------------------------------------------------------ rotation as an invariant *)
(* after every caller operation the open chunk is below its limits, unless it holds
   nothing but its head snapshot (limits so small that the head alone exceeds them) *)
Definition nf_ok (k : core) : Prop :=
  is_full (k_cfg k) (k_open k) = true -> ck_records (k_open k) = 1.

Lemma nf_core_eqj k k' : nf_ok k -> core_eqj k k' -> nf_ok k'.
Proof. intros H (E1 & E2 & _). unfold nf_ok. rewrite E1, E2. exact H. Qed.

Lemma nf_append_and_apply k r k' w effs :
  nf_ok k -> append_and_apply k r = Ret (k', w, effs) -> nf_ok k'.
Proof.
  intros Hk H.
  apply append_and_apply_steps in H as [(-> & _)|(sm1 & _ & _ & _ & [(F & -> & _)|(_ & -> & _)])].
  - exact Hk.
  - intros F'. cbn [appended k_cfg] in F'. rewrite F in F'. discriminate.
  - intros _. reflexivity.
Qed.

Lemma nf_run_op y o y' res :
  nf_ok (y_core y) -> op_c11 o = true -> run_op y o = (Some y', res) -> nf_ok (y_core y').
Proof.
  intros Hk Hc.
  apply (run_op_sys (fun y => nf_ok (y_core y)) (fun _ _ => True)); try assumption; try (intros; exact I).
  - intros y0 r k1 res1 ef Hn _ Ha. rewrite commit_core.
    apply (nf_append_and_apply _ _ _ _ _ Hn Ha).
  - intros; assumption.
  - intros y0 cb Hn. rewrite commit_core. exact Hn.
  - intros y0 k1 Hn Ec. apply (nf_core_eqj _ _ Hn Ec).
  - intros y0 Hn. apply (nf_core_eqj _ _ Hn (worker_idle_core y0)).
Qed.

Theorem C11_rotation_invariant : forall cfg ops res y,
  ops_c11 ops = true -> run_case cfg ops = (res, Some y) ->
  is_full (k_cfg (y_core y)) (k_open (y_core y)) = true -> ck_records (k_open (y_core y)) = 1.
Proof.
  intros cfg ops res y Hc.
  apply (run_case_inv (fun y => nf_ok (y_core y)) (fun o => op_c11 o = true) nf_run_op).
  - intros y0 E. rewrite open_dir_nil in E. inversion E. intros _. reflexivity.
  - apply Forall_forall. apply forallb_forall. exact Hc.
Qed.

Print Assumptions C11_invariant.
Print Assumptions C11_write_appends.
Print Assumptions C11_on_disk_size.
Print Assumptions C11_idle_disk_is_journal.
Print Assumptions C11_disk_is_prefix.
Print Assumptions C11_read_record_is_append.
Print Assumptions C11_structure.
Print Assumptions C11_rotation_invariant.
Print Assumptions C11_write_preserves.
