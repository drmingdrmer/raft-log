(* C02, part 3: reopening a flushed, idle store. Files made of complete well-formed records are taken in
   by the loop as they are, with the state machine of [replay_files] ([files_loaded]); a directory that
   holds a ghost journal whose replay succeeds opens to a store that satisfies the journal invariant
   ([ghost_opens]; [ghost_jinv]: the invariant of a core whose chunks are the ghost files, also used for
   the L2 instances of RestartCrash.v). So from the invariant [FI] of RestartInv.v at a flushed idle
   state [open_dir cfg'] succeeds, leaves the directory untouched, and the reopened caller state
   satisfies the simulation invariant [Inv] of Refine.v again ([reopen]). *)
From Coq Require Import List NArith Lia Sorted.
From RaftLog Require Import Model.Types Model.Codec Model.Core Model.Recover Model.Run Spec.Spec Spec.Hist.
From RaftLog Require Import Proofs.OrderFacts Proofs.Refine.
From RaftLog Require Import Proofs.CodecFacts Proofs.JournalDisk Proofs.JournalChunk Proofs.JournalFacts.
From RaftLog Require Import Proofs.ScanFacts Proofs.RecoverFacts.
From RaftLog Require Import Proofs.RestartSim Proofs.RestartInv Proofs.Opens.
Import ListNotations.
Local Open Scope N_scope.

Lemma encs_eq rs : JournalChunk.encs rs = ScanFacts.encs rs.
Proof. reflexivity. Qed.

Definition file_match (f : file) (g : jfile) : Prop :=
  f_id f = fst g /\ f_data f = ScanFacts.encs (snd g).

Lemma fm_ids D G : Forall2 file_match D G -> map f_id D = map fst G.
Proof. induction 1 as [|f g D G [E _] _ IH]; cbn [map]; [reflexivity|]. now rewrite E, IH. Qed.

Definition glen (g : jfile) : N := N.of_nat (length (ScanFacts.encs (snd g))).

Fixpoint Abut (G : list jfile) : Prop :=
  match G with
  | [] => True
  | g :: G' => match G' with [] => True | g' :: _ => fst g' = fst g + glen g end /\ Abut G'
  end.

Definition jfile_ok (g : jfile) : Prop := Forall wf_record (snd g) /\ snd g <> [].

(* the closed chunks that the loop accumulates *)
Fixpoint closed_files (t : sm) (G : list jfile) : list closed :=
  match G with
  | [] => []
  | g :: G' =>
    let t1 := fst (chunk_replay t g) in
    mkClosed (chunk_of (fst g) (snd g)) (m_rs t1) false :: closed_files t1 G'
  end.

Lemma closed_files_ids : forall G t,
  map (fun c => ck_id (cl_chunk c)) (closed_files t G) = map fst G.
Proof.
  induction G as [|g G IH]; intros t; [reflexivity|].
  cbn [closed_files map cl_chunk chunk_of ck_id]. rewrite IH. reflexivity.
Qed.

(* files made of complete records are taken in as they are; [gl] is the file that follows [G] in the
   directory: only its id is used (every file must end where the next one begins) *)
Lemma files_loaded cfg : forall fs G gl t0 pe0 t,
  Forall2 file_match fs G -> Forall jfile_ok G -> Abut (G ++ [gl]) ->
  (forall p, pe0 = Some p -> p = fst (hd gl G)) ->
  replay_files t0 G = (t, None) ->
  exists pe, loaded cfg t0 pe0 fs fs (closed_files t0 G) t pe /\ (forall p, pe = Some p -> p = fst gl).
Proof.
  intros fs G gl t0 pe0 t HF. revert t0 pe0 t.
  induction HF as [|f g fs G [Hid Hdata] HF IH]; intros t0 pe0 t Hok Hab Hpe Hrep.
  - injection Hrep as <-. exists pe0. split; [constructor|exact Hpe].
  - inversion Hok as [|? ? [Hwf Hne] Hok']; subst. cbn [hd] in Hpe.
    apply replay_files_cons_inv in Hrep as (t1 & Ec & Hrep).
    cbn [app Abut] in Hab. destruct Hab as [Hab1 Hab2].
    destruct (IH t1 (Some (fst g + glen g)) t Hok' Hab2) as (pe & L & Hp); [|exact Hrep|].
    { intros p [= <-]. destruct G; symmetry; exact Hab1. }
    exists pe. split; [|exact Hp]. cbn [closed_files]. rewrite Ec.
    destruct f as [id data syn], g as [o rs]. cbn [f_id f_data fst snd] in *. subst id data.
    exact (loaded_cons cfg t0 pe0 (mkFile o (ScanFacts.encs rs) syn) rs [] t1 fs fs _ t pe
             (reads_complete cfg o rs syn Hwf) Hne Hpe Ec L).
Qed.

Lemma files_match_of d : forall G,
  ids d = map fst G ->
  (forall f, In f d -> forall g, In g G -> f_id f = fst g -> f_data f = ScanFacts.encs (snd g)) ->
  Forall2 file_match d G.
Proof.
  induction d as [|f d IH]; intros [|g G] Hi Hd; cbn [ids map] in Hi; try discriminate Hi.
  - constructor.
  - inversion Hi as [[Hi1 Hi2]]. constructor.
    + split; [exact Hi1|]. apply Hd; [left; reflexivity|left; reflexivity|exact Hi1].
    + apply IH; [exact Hi2|]. intros f' Hf' g' Hg' E. apply Hd; [right; exact Hf'|right; exact Hg'|exact E].
Qed.

Lemma Abut_iff_abut fb : forall G, (forall g, In g G -> fb (fst g) = JournalChunk.encs (snd g)) ->
  (Abut G <-> abut fb (map fst G)).
Proof.
  induction G as [|g G IH]; intros Hf; [reflexivity|]. cbn [map abut Abut].
  rewrite (IH (fun g' Hg' => Hf g' (or_intror Hg'))). destruct G as [|g' G']; [reflexivity|]. cbn [map].
  rewrite (Hf g (or_introl eq_refl)). reflexivity.
Qed.

Lemma reopen_files cfg' d G0 o rs t :
  dsorted d -> ids d = map fst (G0 ++ [(o, rs)]) ->
  (forall g, In g (G0 ++ [(o, rs)]) -> file_bytes d (fst g) = encs (snd g)) ->
  Forall jfile_ok (G0 ++ [(o, rs)]) ->
  abut (file_bytes d) (map fst (G0 ++ [(o, rs)])) ->
  replay_files (sm_new cfg') (G0 ++ [(o, rs)]) = (t, None) ->
  open_dir cfg' d =
    OpenOk (mkSys (mkCore cfg' t (chunk_of o rs) [] (closed_files (sm_new cfg') G0) [] 0 0 0)
                  d [] [mkWF o (prev_last_of (closed_files (sm_new cfg') G0))] []).
Proof.
  intros Sd Gids Hfb Hjok Hab Hrep.
  assert (Hab' : Abut (G0 ++ [(o, rs)])) by (apply (Abut_iff_abut (file_bytes d)); assumption).
  (* the files, one per ghost file: the older ones and the newest *)
  assert (HF2 : Forall2 file_match d (G0 ++ [(o, rs)])).
  { apply files_match_of; [exact Gids|]. intros f Hf g Hg E.
    rewrite <- (Hfb g Hg), <- E. symmetry. apply disk_get_fb, In_disk_get; assumption. }
  apply Forall2_app_inv_r in HF2. destruct HF2 as (older & fls & HF0 & HFl & Ed).
  inversion HFl as [|fl g' fls' l' [Efl Hfld] HFn E1 E2]. inversion HFn. subst fls fls'.
  destruct fl as [i dt syn]. cbn [f_id f_data fst snd] in Efl, Hfld. subst i dt.
  apply Forall_app in Hjok. destruct Hjok as [Hjok0 Hjokl].
  inversion Hjokl as [|? ? [Fo2 Hrsne] _]. cbn [snd] in Fo2, Hrsne.
  (* the older files are taken in as the ghost files replay; the newest one is complete *)
  destruct (replay_files_snoc_inv _ _ _ _ Hrep) as (t1 & Hrep0 & Hrepl).
  destruct (files_loaded cfg' older G0 (o, rs) (sm_new cfg') None t1 HF0 Hjok0 Hab') as (pe & L & Hpe);
    [discriminate|exact Hrep0|].
  rewrite Ed.
  apply (opens_reuse cfg' older older _ t1 pe (mkFile o (ScanFacts.encs rs) syn) rs t L
           (reads_complete cfg' o rs syn Fo2) Hrsne Hpe Hrepl).
  rewrite <- Ed. apply dsorted_iff, Sd.
Qed.

(* closed chunk [c] is the ghost file [g], closed in the state its records lead to *)
Definition closes (g : jfile) (c : closed) : Prop :=
  cl_chunk c = chunk_of (fst g) (snd g) /\ Forall wf_record (snd g) /\
  exists st tl, snd g = RState st :: tl /\ rs_run st tl = Some (cl_state c).

Lemma closes_ids G0 cl : Forall2 closes G0 cl -> map fst G0 = map (fun c => ck_id (cl_chunk c)) cl.
Proof.
  induction 1 as [|g c G cl [E _] _ IH]; cbn [map]; [reflexivity|]. rewrite E, IH. reflexivity.
Qed.

Lemma closes_chunks fb G1 cl1 : Forall2 closes G1 cl1 ->
  (forall g, In g G1 -> fb (fst g) = encs (snd g)) ->
  Forall (fun x => chunk_ok fb (cl_chunk x)) cl1.
Proof.
  intros H. induction H as [|g c G1 cl (Hck & Hw & s & t & E & _) _ IH]; intros HF1; constructor.
  - exists (snd g). rewrite Hck. cbn [chunk_of ck_id ck_ends].
    split; [exact Hw|]. split; [apply HF1; now left|]. split; [reflexivity|eauto].
  - apply IH. intros g0 Hg0. apply HF1. now right.
Qed.

Lemma heads_from_chain fb : forall G0 cl gl cur,
  Forall2 closes G0 cl -> Chain cur (G0 ++ [gl]) ->
  (forall g, In g (G0 ++ [gl]) -> fb (fst g) = encs (snd g)) ->
  (exists st tl, snd gl = RState st :: tl) ->
  heads_ok fb cl (fst gl).
Proof.
  intros G0 cl gl cur H. revert cur. induction H as [|g c G0 cl Hc H IH]; intros cur Hch HF Hgl; [exact I|].
  cbn [app Chain] in Hch. destruct Hch as [(st & tl & E1 & E2) Hch2].
  destruct Hc as (Hck & _ & st' & tl' & E1' & E2'). rewrite E1 in E1'. inversion E1'; subst st' tl'.
  rewrite E2 in E2'. inversion E2' as [Ecl].
  cbn [heads_ok]. split.
  - destruct H as [|g' c' G0' cl' Hc' H'].
    + cbn [app] in *. destruct Hgl as (s0 & t0 & Egl). rewrite <- Ecl, Egl. cbn [head_state].
      exists (encs t0). rewrite (HF gl) by (right; now left). rewrite Egl. apply encs_cons.
    + cbn [app] in *. destruct Hc' as (Hck' & _ & s0 & t0 & Eg' & _).
      rewrite <- Ecl, Eg'. cbn [head_state]. exists (encs t0). rewrite Hck'. cbn [chunk_of ck_id].
      rewrite (HF g') by (right; now left). rewrite Eg'. apply encs_cons.
  - eapply IH; [exact Hch2| |exact Hgl]. intros g0 Hg. apply HF. now right.
Qed.

Lemma closed_files_closes : forall G t0 t, replay_files t0 G = (t, None) ->
  Forall (fun g => Forall wf_record (snd g) /\ exists st tl, snd g = RState st :: tl) G ->
  Forall2 closes G (closed_files t0 G).
Proof.
  induction G as [|g G IH]; intros t0 t Hrep HG; [constructor|].
  apply replay_files_cons_inv in Hrep as (t1 & Ec & Hrep).
  inversion HG as [|? ? (Hw & st & tl & E) HG']; subst. cbn [closed_files]. rewrite Ec. cbn [fst].
  constructor; [|apply (IH t1 t Hrep HG')].
  split; [reflexivity|]. split; [exact Hw|]. exists st, tl. split; [exact E|]. cbn [cl_state].
  apply rapply_rs in Ec.
  rewrite E in Ec. exact Ec.
Qed.

(* the journal invariant of a core whose chunks are the ghost files *)
Lemma ghost_jinv k fb G0 o rs cur :
  k_removed k = [] -> Forall2 closes G0 (k_closed k) -> k_open k = chunk_of o rs ->
  StronglySorted N.lt (map fst (G0 ++ [(o, rs)])) -> abut fb (map fst (G0 ++ [(o, rs)])) ->
  (forall g, In g (G0 ++ [(o, rs)]) -> fb (fst g) = encs (snd g)) ->
  Forall wf_record rs -> (exists st tl, rs = RState st :: tl) ->
  Chain cur (G0 ++ [(o, rs)]) -> wf_rstate (m_rs (k_sm k)) ->
  Forall (fun e => entry_ok (map fst (G0 ++ [(o, rs)])) fb o (snd e)) (m_log (k_sm k)) ->
  jinv k (map fst (G0 ++ [(o, rs)])) fb.
Proof.
  intros Erm Hcm Hop Hsd Hab HF Hwr Hhd Hch Hwf Hlog.
  assert (Hoid : ck_id (k_open k) = o) by (rewrite Hop; reflexivity).
  constructor.
  - unfold chunk_ids, closed_ids. rewrite Erm, Hoid, <- (closes_ids _ _ Hcm), map_app. reflexivity.
  - exact Hsd.
  - exact Hab.
  - unfold live_chunks. rewrite Forall_app. split.
    + rewrite Forall_map. apply (closes_chunks fb G0); [exact Hcm|].
      intros g Hg. apply HF. apply in_or_app. now left.
    + constructor; [|constructor]. exists rs. rewrite Hop. cbn [chunk_of ck_id ck_ends].
      split; [exact Hwr|]. split; [|split; [reflexivity|exact Hhd]].
      apply (HF (o, rs)). apply in_or_app. right. now left.
  - rewrite Hoid. apply (heads_from_chain fb G0 _ (o, rs) cur Hcm Hch HF). exact Hhd.
  - exact Hwf.
  - rewrite Hoid. exact Hlog.
Qed.

(* The one place where a directory is opened from a description of its files: [d] holds the ghost
   files [G0 ++ [(o, rs)]], whole and abutting, their replay succeeds, and the replayed Raft state
   and index map are well-formed. Then [open_dir] returns this store, and it satisfies the journal
   invariant with nothing in flight. *)
Lemma ghost_opens cfg' d G0 o rs t cur :
  dsorted d -> ids d = map fst (G0 ++ [(o, rs)]) ->
  Forall (file_ok (file_bytes d)) (G0 ++ [(o, rs)]) -> abut (file_bytes d) (ids d) ->
  replay_files (sm_new cfg') (G0 ++ [(o, rs)]) = (t, None) -> Chain cur (G0 ++ [(o, rs)]) ->
  wf_rstate (m_rs t) -> Forall (fun e => entry_ok (ids d) (file_bytes d) o (snd e)) (m_log t) ->
  let y' := mkSys (mkCore cfg' t (chunk_of o rs) [] (closed_files (sm_new cfg') G0) [] 0 0 0)
                  d [] [mkWF o (prev_last_of (closed_files (sm_new cfg') G0))] [] in
  open_dir cfg' d = OpenOk y' /\ journal_wf y' /\ logical y' = d.
Proof.
  intros Sd Eids Gfiles Hab Hrep HC Hrs Hlog y'.
  assert (Hopen : open_dir cfg' d = OpenOk y').
  { apply (reopen_files cfg' d G0 o rs t Sd Eids); [| |rewrite <- Eids; exact Hab|exact Hrep].
    - intros g Hg. rewrite Forall_forall in Gfiles. apply (Gfiles g Hg).
    - eapply Forall_impl; [|exact Gfiles].
      intros g (_ & H2 & st & tl & E). split; [exact H2|rewrite E; discriminate]. }
  split; [exact Hopen|].
  assert (Ew : wfinal y' = (d, [mkWF o (prev_last_of (closed_files (sm_new cfg') G0))])) by reflexivity.
  pose proof Gfiles as Gf. rewrite Forall_forall in Gf.
  destruct (Gf (o, rs)) as (_ & Hwr & Hhd); [apply in_or_app; right; left; reflexivity|].
  assert (El : logical y' = d) by (rewrite logical_eq, Ew; apply disk_append_nil, Sd).
  split; [|exact El].
  apply (jw_make y' d); rewrite ?El, ?Ew;
    cbn [y' y_disk y_core y_files y_queue k_open k_pending chunk_of ck_id fst snd]; try reflexivity.
  - exact Sd.
  - unfold dsorted in Sd. rewrite Eids in *.
    apply (ghost_jinv _ _ G0 o rs cur);
      [reflexivity| |reflexivity|exact Sd|exact Hab| |exact Hwr|exact Hhd|exact HC|exact Hrs|exact Hlog].
    + cbn [k_closed]. destruct (replay_files_snoc_inv _ _ _ _ Hrep) as (t1 & Hrep0 & _).
      apply (closed_files_closes G0 _ t1 Hrep0). apply Forall_forall. intros g Hg.
      apply (Gf g (in_or_app _ _ _ (or_introl Hg))).
    + intros g Hg. apply (Gf g Hg).
  - eexists. reflexivity.
  - unfold mentioned. cbn. constructor; [apply N.le_refl|constructor].
Qed.

(* the store [y'] that [open_dir cx] makes of the directory of a flushed idle store [y] whose files are
   [G0 ++ [(o, rs)]]: everything but the cache *)
Record reopenedj (cx : config) (y : sys) (G0 : list jfile) (o : N) (rs : list record) (y' : sys) : Prop :=
 mkRJ {
  rj_disk : y_disk y' = y_disk y;
  rj_queue : y_queue y' = [];
  rj_pending : k_pending (y_core y') = [];
  rj_removed : k_removed (y_core y') = [];
  rj_cfg : k_cfg (y_core y') = cx;
  rj_rs : m_rs (k_sm (y_core y')) = m_rs (k_sm (y_core y));
  rj_log : m_log (k_sm (y_core y')) = m_log (k_sm (y_core y));
  rj_gc : GC y (G0 ++ [(o, rs)]);
  rj_gb : GB (m_log (k_sm (y_core y))) (G0 ++ [(o, rs)]);
  rj_o : o = ck_id (k_open (y_core y));
  rj_open : k_open (y_core y') = chunk_of o rs;
  rj_closed : k_closed (y_core y') = closed_files (sm_new cx) G0;
  rj_files : y_files y' = [mkWF o (prev_last_of (closed_files (sm_new cx) G0))];
  rj_replay : replay_files (sm_new cx) (G0 ++ [(o, rs)]) = (k_sm (y_core y'), None);
  rj_jw : journal_wf y';
  rj_logical : logical y' = logical y }.

(* the invariant at a flushed idle state: the directory opens, and what [P] says of the replay of all
   files holds of the state machine of the reopened store *)
Lemma FJ_opens c P ok y sp n b :
  FJ c P ok y sp n b -> y_queue y = [] -> k_pending (y_core y) = [] ->
  exists y' G0 o rs, open_dir c (y_disk y) = OpenOk y' /\ reopenedj c y G0 o rs y' /\
    P n b (G0 ++ [(o, rs)]) sp (k_sm (y_core y')).
Proof.
  intros F Hq Hpend.
  pose proof (fj_jw _ _ _ _ _ _ _ F) as JW. pose proof (jw_inv _ JW) as J.
  pose proof (C11_idle_disk_is_journal y JW Hq Hpend) as El.
  destruct (fj_g _ _ _ _ _ _ _ F) as (G & HG & GF & GBd).
  destruct (GJ_open y G JW (gc_gj _ _ HG)) as (G0 & rs & -> & EG0 & _).
  pose proof (gc_gj _ _ HG) as [Gids Gfiles]. rewrite El in Gids, Gfiles.
  pose proof (jw_sorted _ JW) as Sd.
  set (k := y_core y) in *. set (o := ck_id (k_open k)) in *. set (d := y_disk y) in *.
  assert (Hhead : exists g1 Gr, G0 ++ [(o, rs)] = g1 :: Gr) by (destruct G0; cbn [app]; eauto).
  destruct Hhead as (g1 & Gr & EGr).
  pose proof GF as GF1. rewrite EGr in GF1. apply proj1 in GF1.
  destruct GF1 as (t & Hrep1 & [Hrs Hlog] & HP1).
  assert (Hrep0 : replay_files (sm_new c) (G0 ++ [(o, rs)]) = (t, None)) by (rewrite EGr; exact Hrep1).
  assert (HP : P n b (G0 ++ [(o, rs)]) sp t) by (rewrite EGr; exact HP1).
  (* every live entry is stored in a file of the directory, so the replayed state machine
     has the whole index map *)
  assert (Hlive : forall e, In e (m_log (k_sm k)) -> fst g1 <= ld_chunk (snd e)).
  { intros e He. pose proof (Jc_in _ (fj_Jc _ _ _ _ _ _ _ F) e He) as Hi. fold k o in Hi.
    unfold dsorted in Sd. rewrite <- Gids, EGr in Sd. cbn [map] in Sd. apply (ss_head_le _ _ _ Sd).
    change (In (ld_chunk (snd e)) (map fst (g1 :: Gr))). rewrite <- EGr, map_app, EG0, <- app_assoc.
    apply in_or_app. right. exact Hi. }
  assert (Elog : m_log t = m_log (k_sm k)).
  { rewrite Hlog. apply filter_all_true. intros e He. unfold in_chunks. apply N.leb_le. apply Hlive. exact He. }
  pose proof (gc_chain _ _ HG) as GCh.
  destruct (ghost_opens c d G0 o rs t (m_rs (k_sm k)) Sd (eq_sym Gids) Gfiles) as (Hopen & JW' & El'); try assumption.
  - pose proof (ji_abut _ _ _ J) as A. rewrite El in A. exact A.
  - rewrite Hrs. apply (ji_rs _ _ _ J).
  - rewrite Elog. pose proof (ji_log _ _ _ J) as A. rewrite El in A. exact A.
  - eexists. exists G0, o, rs. split; [exact Hopen|]. split; [|exact HP].
    constructor; cbn [y_disk y_queue y_core y_files k_pending k_removed k_cfg k_sm k_open k_closed];
      try reflexivity; try assumption. rewrite El. exact El'.
Qed.

Section Reopen.
Variable cfg' : config.

Record reopened (y : sys) (sp : spec) (n b : N) (y' : sys) : Prop := mkReopened {
  ro_disk : y_disk y' = y_disk y;
  ro_queue : y_queue y' = [];
  ro_pending : k_pending (y_core y') = [];
  ro_removed : k_removed (y_core y') = [];
  ro_cfg : k_cfg (y_core y') = cfg';
  ro_inv : Inv (y_core y') sp n b;
  ro_rs : m_rs (k_sm (y_core y')) = m_rs (k_sm (y_core y));
  ro_log : m_log (k_sm (y_core y')) = m_log (k_sm (y_core y));
  ro_shape : exists G0 o rs pl,
      GJ y (G0 ++ [(o, rs)]) /\
      Chain (m_rs (k_sm (y_core y))) (G0 ++ [(o, rs)]) /\
      GB (m_log (k_sm (y_core y))) (G0 ++ [(o, rs)]) /\
      HK (G0 ++ [(o, rs)]) /\
      o = ck_id (k_open (y_core y)) /\
      k_open (y_core y') = chunk_of o rs /\
      k_closed (y_core y') = closed_files (sm_new cfg') G0 /\
      y_files y' = [mkWF o pl] /\
      replay_files (sm_new cfg') (G0 ++ [(o, rs)]) = (k_sm (y_core y'), None) }.

Lemma reopen : forall y sp n b,
  FI cfg' y sp n b -> y_queue y = [] -> k_pending (y_core y) = [] ->
  exists y', open_dir cfg' (y_disk y) = OpenOk y' /\ reopened y sp n b y'.
Proof.
  intros y sp n b F Hq Hpend. apply FI_split in F. destruct F as [F _].
  destruct (FJ_opens cfg' _ _ y sp n b F Hq Hpend) as (y' & G0 & o & rs & Hopen & RJ & HC & HB).
  exists y'. split; [exact Hopen|].
  destruct RJ as [A1 A2 A3 A4 A5 A6 A7 [[Gids Gfiles] Hch Hhk] A9 A10 A11 A12 A13 A14].
  constructor; try assumption.
  - split; [|split; [exact HB|]].
    + apply Rcache_held; [|exact HC]. destruct (fj_L _ _ _ _ _ _ _ F) as [L1 L2 L3].
      constructor; rewrite ?A6, ?A7; assumption.
    + rewrite A11. apply chunk_of_ends_nonempty. rewrite Forall_forall in Gfiles.
      destruct (Gfiles (o, rs)) as (_ & _ & st & tl & E); [apply in_or_app; right; left; reflexivity|].
      cbn [snd] in E. rewrite E. discriminate.
  - exists G0, o, rs, (prev_last_of (closed_files (sm_new cfg') G0)). repeat (split; [assumption|]).
    split; [split; assumption|]. repeat (split; [assumption|]). exact A14.
Qed.

End Reopen.

Lemma big_cache_app_l cfg a b : big_cache cfg (a ++ b) -> big_cache cfg a.
Proof.
  intros [H1 H2]. unfold big_cache in *. rewrite !appended_bytes_of in *. unfold Hist.appended in *.
  rewrite flat_map_app in *. rewrite app_length, Nat2N.inj_add in H1. rewrite bytes_of_app in H2.
  split; lia.
Qed.

Lemma FI_of_run : forall cfg cfg' ops ops2 res y,
  ops_plain spec0 ops = true -> Forall op_wf ops ->
  big_cache cfg (ops ++ ops2) -> big_cache cfg' (ops ++ ops2) ->
  run_case cfg ops = (res, Some y) ->
  FI cfg' y (spec_ops spec0 ops) (N.of_nat (length (Hist.appended ops2))) (appended_bytes ops2).
Proof.
  intros cfg cfg' ops ops2 res y Hp Hwf [B1 B2] [B1' B2'] Hrun.
  unfold run_case in Hrun. rewrite JournalFacts.open_dir_nil in Hrun.
  assert (Happ : Hist.appended (ops ++ ops2) = Hist.appended ops ++ Hist.appended ops2).
  { unfold Hist.appended. apply flat_map_app. }
  rewrite !appended_bytes_of, Happ in *. rewrite bytes_of_app in *.
  rewrite app_length, Nat2N.inj_add in *.
  set (n2 := N.of_nat (length (Hist.appended ops2))) in *.
  set (b2 := bytes_of (Hist.appended ops2)) in *.
  assert (F0 : FI cfg' (sys0 cfg) spec0 (n2 + N.of_nat (length (Hist.appended ops))) (b2 + appended_bytes ops)).
  { rewrite appended_bytes_of. apply FI_init; lia. }
  destruct (fi_run_ops cfg' ops (sys0 cfg) spec0 res (Some y) n2 b2 F0 Hp Hwf Hrun) as (y1 & E & F).
  inversion E; subst y1. exact F.
Qed.

(* one clean restart: every write flushed and acknowledged, worker idle, reopened
   under any configuration whose cache holds the history *)
Theorem C02_restart : forall cfg cfg' ops res y,
  ops_plain spec0 ops = true -> Forall op_wf ops ->
  big_cache cfg ops -> big_cache cfg' ops ->
  run_case cfg ops = (res, Some y) ->
  y_queue y = [] -> k_pending (y_core y) = [] ->
  exists y', open_dir cfg' (y_disk y) = OpenOk y' /\
             y_disk y' = y_disk y /\
             observes y' (spec_ops spec0 ops) /\
             exists n b, Inv (y_core y') (spec_ops spec0 ops) n b.
Proof.
  intros cfg cfg' ops res y Hp Hwf Hb Hb' Hrun Hq Hpend.
  pose proof (FI_of_run cfg cfg' ops [] res y Hp Hwf) as F. rewrite app_nil_r in F.
  specialize (F Hb Hb' Hrun).
  destruct (reopen cfg' y _ _ _ F Hq Hpend) as (y' & Ho & RO).
  exists y'. split; [exact Ho|]. split; [apply (ro_disk _ _ _ _ _ _ RO)|]. split.
  - eapply Inv_observes. apply (ro_inv _ _ _ _ _ _ RO).
  - eexists. eexists. apply (ro_inv _ _ _ _ _ _ RO).
Qed.

(* ... and it continues to accept writes with the same semantics: any further plain
   history [ops2] run on the reopened store is observed as the reference log after
   [ops ++ ops2] *)
Theorem C02_restart_continue : forall cfg cfg' ops ops2 res y,
  ops_plain spec0 (ops ++ ops2) = true -> Forall op_wf ops ->
  big_cache cfg (ops ++ ops2) -> big_cache cfg' (ops ++ ops2) ->
  run_case cfg ops = (res, Some y) ->
  y_queue y = [] -> k_pending (y_core y) = [] ->
  exists y', open_dir cfg' (y_disk y) = OpenOk y' /\
    forall res2 fin, run_ops y' ops2 = (res2, fin) ->
      exists y2, fin = Some y2 /\ observes y2 (spec_ops spec0 (ops ++ ops2)).
Proof.
  intros cfg cfg' ops ops2 res y Hp Hwf Hb Hb' Hrun Hq Hpend.
  destruct (ops_plain_app _ _ _ Hp) as [Hp1 Hp2].
  pose proof (FI_of_run cfg cfg' ops ops2 res y Hp1 Hwf Hb Hb' Hrun) as F.
  destruct (reopen cfg' y _ _ _ F Hq Hpend) as (y' & Ho & RO).
  exists y'. split; [exact Ho|]. intros res2 fin Hrun2.
  pose proof (ro_inv _ _ _ _ _ _ RO) as HI.
  assert (HI' : Inv (y_core y') (spec_ops spec0 ops)
                    (0 + N.of_nat (length (Hist.appended ops2))) (0 + appended_bytes ops2)).
  { eapply Inv_mono; [exact HI|lia|lia]. }
  destruct (run_ops_sim ops2 y' _ res2 fin 0 0 HI' Hp2 Hrun2) as (y2 & E & HI2).
  exists y2. split; [exact E|]. unfold spec_ops. rewrite fold_left_app.
  eapply Inv_observes. exact HI2.
Qed.

(* the hypotheses of C02_restart are satisfiable on a history that rotates chunks,
   purges (with removal of a chunk file) and truncates, reopened under other limits *)
Example C02_restart_inhabited :
  let cfg := mkConfig 10 100 2 64 true in
  let cfg' := mkConfig 5 50 3 1000 false in
  let ops := [OW (OVote (1, 1)); OW (OAppend [((1, 0), []); ((1, 1), []); ((1, 2), [])]);
              OFlush true; OIdle; OW (OPurge (1, 0)); OW (OTruncate 2); OW (OAppend [((2, 2), [])]);
              OFlush true; OIdle] in
  ops_plain spec0 ops = true /\ big_cache cfg ops /\ big_cache cfg' ops /\
  exists res y, run_case cfg ops = (res, Some y) /\ y_queue y = [] /\ k_pending (y_core y) = [] /\
    map f_id (y_disk y) = [112; 194; 276; 354; 449; 547]%N.
Proof.
  cbv zeta. split; [vm_compute; reflexivity|].
  split; [split; vm_compute; intros H; discriminate H|].
  split; [split; vm_compute; intros H; discriminate H|].
  (* only what is claimed of [y] is evaluated: the kernel's lazy machine, which coqchk uses for a
     [vm_compute] step, does not normalise the rest of the state *)
  set (r := run_case _ _).
  assert (H : match snd r with
              | Some y => Some (y_queue y, k_pending (y_core y), map f_id (y_disk y))
              | None => None
              end = Some ([], [], [112; 194; 276; 354; 449; 547]%N)) by (vm_compute; reflexivity).
  clearbody r. destruct r as [res [y|]]; [|discriminate H]. injection H as H1 H2 H3.
  exists res, y. auto.
Qed.

Print Assumptions C02_restart.
Print Assumptions C02_restart_continue.
