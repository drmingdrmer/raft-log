(* Property C07: the invariant [I7 y sp] of the L1 system under which every live entry is readable for
   any cache limits: [KInv] of PurgeLive.v and [journal_wf], plus [PL] (the logical chunk file holds
   every live entry's record WITH THE PAYLOAD OF THE REFERENCE LOG at the segment in the index map),
   [CIs .. (OnDisk y)] (a live entry is resident or completely on the real disk in a closed chunk; the
   latter whenever it is at or below the eviction boundary) and [EB] (a live entry at or below a
   boundary still pending installation lives in a chunk older than the file that boundary was recorded
   for). *)
From Coq Require Import List NArith Lia Sorted.
From RaftLog Require Import Model.Types Model.Codec Model.Cache Model.Core Model.Run Spec.Spec
  Spec.Hist.
From RaftLog Require Import Proofs.CodecFacts Proofs.JournalDisk Proofs.JournalChunk Proofs.JournalFacts
  Proofs.PurgeFacts.
From RaftLog Require Import Proofs.OrderFacts Proofs.SmFacts Proofs.Refine Proofs.PurgeLive Proofs.ReadCache.
Import ListNotations.
Local Open Scope N_scope.

Definition OnDisk (y : sys) (ld : logdata) : Prop :=
  ld_chunk ld <> ck_id (k_open (y_core y)) /\
  exists f, disk_get (ld_chunk ld) (y_disk y) = Some f /\
            ld_off ld - ld_chunk ld + ld_len ld <= blen (f_data f).

Definition PL (y : sys) (sp : spec) : Prop :=
  forall i ld p, In (i, ld) (m_log (k_sm (y_core y))) -> In (ld_id ld, p) (sp_entries sp) ->
    In (ld_chunk ld) (ids (logical y)) ->
    wf_record (RAppend (ld_id ld) p) /\
    exists pre post,
      file_bytes (logical y) (ld_chunk ld) = pre ++ enc_record (RAppend (ld_id ld) p) ++ post /\
      ld_off ld = ld_chunk ld + blen pre /\ ld_len ld = rec_size (RAppend (ld_id ld) p).

(* the eviction boundaries: the one in force, and those recorded at a rotation whose
   file the worker has not dropped yet *)
Definition req_fb (r : wreq) : list (N * option logid) :=
  match r with WAppendFile off p => [(off, p)] | _ => [] end.
Definition wf_fb (f : wfile) : N * option logid := (wf_id f, wf_prev_last f).
Definition fbounds (y : sys) : list (N * option logid) :=
  map wf_fb (y_files y) ++ flat_map req_fb (y_queue y).
Definition bounds (y : sys) : list (option logid) :=
  ch_evictable (m_cache (k_sm (y_core y))) :: map snd (fbounds y).

Definition EB (y : sys) (sp : spec) : Prop :=
  forall fid b i ld p, In (fid, b) (fbounds y) -> In (i, ld) (m_log (k_sm (y_core y))) ->
    In (ld_id ld, p) (sp_entries sp) -> opair_leb (Some (ld_id ld)) b = true ->
    ld_chunk ld < fid.

Record I7 (y : sys) (sp : spec) : Prop := mkI7 {
  i_k : KInv (y_core y) sp;
  i_jw : journal_wf y;
  i_pl : PL y sp;
  i_ci : CIs (k_sm (y_core y)) sp (OnDisk y);
  i_eb : EB y sp;
  i_ml : StronglySorted N.lt (map fst (fbounds y)) }.

Lemma log_chunk_le : forall y i ld, journal_wf y -> In (i, ld) (m_log (k_sm (y_core y))) ->
  ld_chunk ld <= ck_id (k_open (y_core y)).
Proof.
  intros y i ld JW Hl. pose proof (ji_log _ _ _ (jw_inv _ JW)) as HL. rewrite Forall_forall in HL.
  destruct (HL _ Hl) as (_ & H & _). exact H.
Qed.

Lemma fbounds_same : forall y y',
  y_files y' = y_files y -> flat_map req_fb (y_queue y') = flat_map req_fb (y_queue y) ->
  fbounds y' = fbounds y.
Proof. intros y y' H2 H3. unfold fbounds. rewrite H2, H3. reflexivity. Qed.

Lemma bounds_same : forall y y',
  ch_evictable (m_cache (k_sm (y_core y'))) = ch_evictable (m_cache (k_sm (y_core y))) ->
  y_files y' = y_files y -> flat_map req_fb (y_queue y') = flat_map req_fb (y_queue y) ->
  bounds y' = bounds y.
Proof. intros y y' H1 H2 H3. unfold bounds. rewrite H1, (fbounds_same y y' H2 H3). reflexivity. Qed.

Lemma fbounds_mentioned : forall y fid b, In (fid, b) (fbounds y) ->
  In fid (mentioned (y_files y) (y_queue y)).
Proof.
  intros y fid b H. unfold fbounds, mentioned in *. apply in_app_or in H. apply in_or_app.
  destruct H as [H|H].
  - left. apply in_map_iff in H. destruct H as [f [E Hf]]. inversion E. apply in_map. exact Hf.
  - right. apply in_flat_map in H. destruct H as [r [Hr Hx]]. apply in_flat_map. exists r. split; [exact Hr|].
    destruct r as [u d c|off p|rm]; cbn [req_fb] in Hx; [destruct Hx| |destruct Hx].
    destruct Hx as [Hx|[]]. inversion Hx. left. reflexivity.
Qed.

Lemma bounds_in : forall y fid b, In (fid, b) (fbounds y) -> In b (bounds y).
Proof.
  intros y fid b H. unfold bounds. right. apply in_map_iff. exists (fid, b). split; [reflexivity|exact H].
Qed.

Lemma I7_appended : forall y sp sp' r sm1,
  I7 y sp -> wf_record r ->
  rs_validate (m_rs (k_sm (y_core y))) r = None ->
  sm_apply (k_sm (y_core y)) r (ck_id (k_open (y_core y)))
           (ck_end (k_open (y_core y)), rec_size r) = (sm1, None) ->
  R0 sm1 sp' -> CIs sm1 sp' (OnDisk y) ->
  (forall i ld p0, In (i, ld) (m_log (k_sm (y_core y))) -> In (ld_id ld, p0) (sp_entries sp') ->
     In (ld_id ld, p0) (sp_entries sp)) ->
  (forall id p, r = RAppend id p ->
     (forall p0, In (id, p0) (sp_entries sp') -> p0 = p) /\
     (forall b, In b (bounds y) -> opair_leb (Some id) b = false)) ->
  I7 (with_core y (appended (y_core y) r sm1)) sp'.
Proof.
  intros y sp sp' r sm1 [(HR & HJ & Hk) JW HPL HC HEB HML] Hr Hv Hs HR1 HC1 Hold Hnew.
  set (k := y_core y) in *. set (o := ck_id (k_open k)) in *.
  destruct (jw_appended y r sm1 JW Hr Hv Hs) as (JW1 & Hids1 & Hfo1 & Hfother1).
  fold k o in Hfo1, Hfother1, Hids1, JW1.
  assert (Hlog : forall i ld, In (i, ld) (m_log sm1) ->
            In (i, ld) (m_log (k_sm k)) \/
            exists id p, r = RAppend id p /\ (i, ld) = (lid_index id, mkLD id o (ck_end (k_open k)) (rec_size r))).
  { intros i ld Hl. pose proof (sm_apply_log (k_sm k) r o (ck_end (k_open k), rec_size r) (i, ld)) as H.
    rewrite Hs in H. cbn [fst snd] in H. apply H. exact Hl. }
  constructor.
  - split; [exact HR1|]. split.
    + apply (J_record k r sm1 _ HJ Hk Hs).
    + apply (appended_ok k r sm1 Hk).
  - exact JW1.
  - intros i ld p Hl Hp Hin. cbn [with_core y_core appended k_sm] in Hl.
    rewrite Hids1 in Hin.
    destruct (Hlog _ _ Hl) as [Hl0|(id & p' & Er & Ee)].
    + destruct (HPL i ld p Hl0 (Hold _ _ _ Hl0 Hp) Hin) as (Hw & pre & post & Ef & Eoff & Elen).
      split; [exact Hw|].
      destruct (N.eq_dec (ld_chunk ld) o) as [Ec|Ec].
      * exists pre, (post ++ enc_record r). rewrite Ec in *. rewrite Hfo1, Ef, <- !app_assoc.
        split; [reflexivity|]. split; assumption.
      * exists pre, post. rewrite (Hfother1 _ Ec). split; [exact Ef|]. split; assumption.
    + inversion Ee. subst i ld. cbn [ld_id ld_chunk ld_off ld_len] in *.
      destruct (Hnew id p' Er) as [Hp' _]. rewrite (Hp' _ Hp). subst r.
      split; [exact Hr|].
      exists (file_bytes (logical y) o), []. rewrite Hfo1, app_nil_r.
      split; [reflexivity|]. split; [|reflexivity].
      apply (ji_open_end _ _ _ (jw_inv _ JW)).
  - cbn [with_core y_core appended k_sm]. eapply CI_mono; [exact HC1|].
    intros i ld _ [H1 H2]. split; [|exact H2].
    cbn [with_core y_core appended k_open]. rewrite ck_id_push. exact H1.
  - intros fid b i ld p Hb Hl Hp Hle. cbn [with_core y_core appended k_sm] in Hl.
    change (fbounds (with_core y (appended k r sm1))) with (fbounds y) in Hb.
    destruct (Hlog _ _ Hl) as [Hl0|(id & p' & Er & Ee)].
    + apply (HEB fid b i ld p Hb Hl0 (Hold _ _ _ Hl0 Hp) Hle).
    + inversion Ee. subst i ld. cbn [ld_id] in Hle.
      destruct (Hnew id p' Er) as [_ Hab]. rewrite (Hab _ (bounds_in _ _ _ Hb)) in Hle. discriminate Hle.
  - exact HML.
Qed.

Lemma rotate_sys_fb : forall y1,
  let k1 := y_core y1 in
  let off := ck_end (k_open k1) in
  let y2 := apply_effs (with_core y1 (rotated k1)) (rotate_effs k1) in
  y_core y2 = rotated k1 /\
  y_disk y2 = disk_put (mkFile off (enc_record (RState (m_rs (k_sm k1)))) 0) (y_disk y1) /\
  y_files y2 = y_files y1 /\
  flat_map req_fb (y_queue y2) = flat_map req_fb (y_queue y1) ++ [(off, r_last (m_rs (k_sm k1)))].
Proof.
  intros y1 k1 off y2. destruct (JournalFacts.rotate_sys y1) as (Ec & Ed & Ef & Eq).
  repeat split; try assumption. fold k1 off y2 in Eq. rewrite Eq, !flat_map_app.
  destruct (k_pending k1); reflexivity.
Qed.

Lemma I7_rotated : forall y1 sp, I7 y1 sp ->
  I7 (apply_effs (with_core y1 (rotated (y_core y1))) (rotate_effs (y_core y1))) sp.
Proof.
  intros y1 sp [(HR & HJ & Hk) JW HPL HC HEB HML].
  destruct (rotate_sys_fb y1) as (Ec & Ed & Ef & Eq). cbv zeta in Ec, Ed, Ef, Eq.
  destruct (jw_rotated y1 JW) as (JW2 & Hids2 & _ & Hfother2). cbv zeta in JW2, Hids2, Hfother2.
  set (k1 := y_core y1) in *. set (off := ck_end (k_open k1)) in *.
  set (y2 := apply_effs (with_core y1 (rotated k1)) (rotate_effs k1)) in *.
  assert (Hlt : ck_id (k_open k1) < off) by exact (proj1 Hk).
  assert (Hch : forall i ld, In (i, ld) (m_log (k_sm k1)) -> ld_chunk ld <> off).
  { intros i ld Hl. pose proof (log_chunk_le y1 i ld JW Hl) as H. fold k1 in H. lia. }
  assert (Eopen : ck_id (k_open (y_core y2)) = off).
  { rewrite Ec. unfold rotated. cbn [k_open]. rewrite ck_id_push. reflexivity. }
  assert (Esm : k_sm (y_core y2) = k_sm k1) by (rewrite Ec; reflexivity).
  constructor.
  - rewrite Ec. split; [exact HR|]. split.
    + eapply J_rotate; [exact HJ|exact Hk|exact HR].
    + apply (rotated_ok k1 Hk).
  - exact JW2.
  - intros i ld p Hl Hp Hin. rewrite Esm in Hl. rewrite Hids2 in Hin.
    apply in_app_or in Hin. destruct Hin as [Hin|[Hin|[]]]; [|exfalso; apply (Hch _ _ Hl); symmetry; exact Hin].
    rewrite (Hfother2 _ (Hch _ _ Hl)). apply (HPL i ld p Hl Hp Hin).
  - rewrite Esm. eapply CI_mono; [exact HC|].
    intros i ld Hl [H1 (f & Hf & Hlen)]. split.
    + rewrite Eopen. apply (Hch _ _ Hl).
    + exists f. split; [|exact Hlen]. rewrite Ed, disk_get_put. cbn [f_id].
      destruct (N.eqb_spec (ld_chunk ld) off) as [E|E]; [exfalso; apply (Hch _ _ Hl); exact E|exact Hf].
  - intros fid b i ld p Hb Hl Hp Hle. rewrite Esm in Hl. unfold fbounds in Hb. rewrite Ef, Eq in Hb.
    rewrite app_assoc in Hb. apply in_app_or in Hb. destruct Hb as [Hb|[Hb|[]]].
    + apply (HEB fid b i ld p Hb Hl Hp Hle).
    + inversion Hb. subst fid. pose proof (log_chunk_le y1 i ld JW Hl) as H. fold k1 in H. lia.
  - unfold fbounds. rewrite Ef, Eq, app_assoc, map_app. cbn [map fst].
    apply ss_app; [exact HML|repeat constructor|].
    intros a b Ha [Hb|[]]. subst b. apply in_map_iff in Ha. destruct Ha as [[fid bb] [E Hin]].
    cbn [fst] in E. subst a.
    pose proof (jw_bound _ JW) as HB. rewrite Forall_forall in HB.
    specialize (HB fid (fbounds_mentioned _ _ _ Hin)). fold k1 in HB. lia.
Qed.

Lemma bounds_rotated : forall y1 b,
  In b (bounds (apply_effs (with_core y1 (rotated (y_core y1))) (rotate_effs (y_core y1)))) ->
  In b (bounds y1) \/ b = r_last (m_rs (k_sm (y_core y1))).
Proof.
  intros y1 b Hb. destruct (rotate_sys_fb y1) as (Ec & Ed & Ef & Eq). cbv zeta in Ec, Ed, Ef, Eq.
  unfold bounds, fbounds in *. rewrite Ec, Ef, Eq in Hb. cbn [rotated k_sm] in Hb.
  rewrite app_assoc, map_app in Hb. cbn [map snd] in Hb.
  destruct Hb as [Hb|Hb]; [left; left; exact Hb|].
  apply in_app_or in Hb. destruct Hb as [Hb|[Hb|[]]].
  - left. right. exact Hb.
  - right. symmetry. exact Hb.
Qed.

Definition above (y : sys) (id : logid) : Prop :=
  forall b, In b (bounds y) -> opair_cmp b (Some id) = Lt.

Lemma I7_record : forall y sp r w k' res effs,
  I7 y sp -> wf_record r -> rec_sw sp r w ->
  (forall id p, r = RAppend id p -> rs_validate (m_rs (k_sm (y_core y))) r = None -> above y id) ->
  append_and_apply (y_core y) r = Ret (k', res, effs) ->
  let y' := apply_effs (with_core y k') effs in
  I7 y' (fst (spec_one sp w)) /\ res_agrees res (snd (spec_one sp w)) /\
  (forall b, In b (bounds y') -> In b (bounds y) \/ b = r_last (m_rs (k_sm k'))).
Proof.
  intros y sp r w k' res effs HI Hr HJ Hab H y'.
  pose proof HI as [(HR & HJ0 & Hk) JW HPL HC HEB HML].
  destruct (aaa_sim _ sp r w k' res effs (proj1 (R0_Rlog _ _) HR) HJ H) as [Hag HA].
  assert (HS7 : step_sim7 (k_sm (y_core y)) sp r w (OnDisk y)).
  { apply (rec_sw_sim7 (k_sm (y_core y))); [exact HR|reflexivity|apply incl_refl|exact HC|exact HJ|].
    intros id p c seg Er Hv Hle. exfalso. pose proof (Hab id p Er Hv _ (or_introl eq_refl)) as Hlt.
    apply opair_ltb_lt in Hlt. rewrite opair_ltb_negb_leb, Hle in Hlt. discriminate Hlt. }
  unfold step_sim7 in HS7. unfold spec_one in *.
  destruct (spec_step sp w) as [sp'|] eqn:Esp; cbn [fst snd] in *.
  - destruct HA as (sm1 & HV & Hs & HR1 & Ht). apply R0_Rlog in HR1.
    destruct (rec_sw_entries _ _ _ _ _ HR HJ Esp) as [Hold Hnew].
    pose proof (HS7 (ck_id (k_open (y_core y))) (ck_end (k_open (y_core y)), rec_size r)) as HC1.
    rewrite Hs in HC1. cbn [fst] in HC1.
    assert (HI1 : I7 (with_core y (appended (y_core y) r sm1)) sp').
    { apply (I7_appended y sp sp' r sm1 HI Hr HV Hs HR1 HC1 Hold).
      intros id p Er. split; [exact (Hnew id p Er)|].
      intros b Hb. apply opair_leb_gt. apply (Hab id p Er HV b Hb). }
    assert (Hb1 : bounds (with_core y (appended (y_core y) r sm1)) = bounds y).
    { apply bounds_same; [|reflexivity|reflexivity]. cbn [with_core y_core appended k_sm].
      pose proof (sm_apply_evictable (k_sm (y_core y)) r (ck_id (k_open (y_core y)))
                    (ck_end (k_open (y_core y)), rec_size r)) as H0.
      rewrite Hs in H0. exact H0. }
    destruct Ht as [[-> ->]|[-> ->]]; unfold y'.
    + cbn [apply_effs fold_left]. split; [exact HI1|]. split; [exact Hag|].
      intros b Hb. left. rewrite <- Hb1. exact Hb.
    + change (apply_effs (with_core y (rotated (appended (y_core y) r sm1)))
                         (rotate_effs (appended (y_core y) r sm1)))
        with (apply_effs (with_core (with_core y (appended (y_core y) r sm1))
                                    (rotated (y_core (with_core y (appended (y_core y) r sm1)))))
                         (rotate_effs (y_core (with_core y (appended (y_core y) r sm1))))).
      split; [apply I7_rotated; exact HI1|]. split; [exact Hag|].
      intros b Hb. apply bounds_rotated in Hb. rewrite Hb1 in Hb. exact Hb.
  - destruct HA as [-> ->]. unfold y'. cbn [apply_effs fold_left]. rewrite with_core_self.
    split; [exact HI|]. split; [exact Hag|]. intros b Hb. left. exact Hb.
Qed.
