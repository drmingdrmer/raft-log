(* The journal invariant [JI] of CrashSteps.v for a store instance started on a non-empty directory
   (C05 follows from it in RestartCrashImg.v). Every file open_dir leaves is a whole number of
   well-formed records ([open_dir_whole]). Under the hypothesis that the files of [d] are headed by
   State snapshots that chain ([dir_chained], NOT checked by open_dir) the opened state has a ghost
   journal ([open_dir_journal]) satisfying [JI] ([JI_from]); the step lemma of CrashSteps.v carries
   it to every state reachable from there ([L2_journal_from]). *)
From Coq Require Import List NArith Lia.
From RaftLog Require Import Base.Bytes Model.Types Model.Codec Model.Core
  Model.Recover Model.Sys.
From RaftLog Require Import Proofs.CodecFacts Proofs.NoPanic Proofs.ScanFacts Proofs.RecoverFacts
  Proofs.AckFacts Proofs.Opens Proofs.RestartShape Proofs.RestartSys.
From RaftLog Require Proofs.JournalChunk Proofs.RestartSim Proofs.RestartFacts Proofs.CrashBase
  Proofs.CrashJournal Proofs.CrashSteps Proofs.CrashRecover.
Import ListNotations.
Local Open Scope N_scope.
Local Arguments enc_record : simpl never.

Module JC := JournalChunk.
Module RS := RestartSim.
Module RF := RestartFacts.
Module CS := CrashSteps.

Notation jfile := (N * list record)%type (only parsing).

Definition recs_of (data : bytes) : list record := map fst (fst (fst (scan_file data))).

Lemma reads_recs cfg f rs tl : reads cfg f rs tl -> recs_of (f_data f) = rs.
Proof.
  intros R. destruct (chunk_open_inv _ _ _ _ (rd_open _ _ _ _ R)) as (rs' & tl' & e & Es & _ & _ & _ & [= _ <- _ _] & _).
  unfold recs_of. rewrite Es. apply sized_fst.
Qed.

Lemma recs_of_encs rs : Forall wf_record rs -> recs_of (encs rs) = rs.
Proof. intros H. unfold recs_of. rewrite (scan_encs rs H). cbn [fst]. apply sized_fst. Qed.

(* every file that has a complete record starts with a State snapshot, and the snapshot
   heading the next file is the state reached by running the records of this file *)
Fixpoint chainedL (L : list (list record)) : Prop :=
  match L with
  | [] => True
  | rs :: L' =>
    (rs <> [] -> exists st tl, rs = RState st :: tl /\
       match L' with rs' :: _ => rs' <> [] -> RS.rs_run st tl = Some (RS.head_state rs') | [] => True end)
    /\ chainedL L'
  end.

Definition dir_chained (d : disk) : Prop := chainedL (map (fun f => recs_of (f_data f)) d).

Lemma chainedL_prefix : forall L1 L2, chainedL (L1 ++ L2) -> chainedL L1.
Proof.
  induction L1 as [|rs L1 IH]; intros L2 H; [exact I|]. cbn [app chainedL] in *. destruct H as [H1 H2].
  split; [|now apply (IH L2)]. intros Hne. destruct (H1 Hne) as (st & tl & E & Hn). exists st, tl. split; [exact E|].
  destruct L1; [exact I|exact Hn].
Qed.

Lemma chainedL_last : forall L rs, chainedL (L ++ [rs]) -> rs <> [] ->
  exists st tl, rs = RState st :: tl /\ forall L0 st0 tl0, L = L0 ++ [RState st0 :: tl0] -> RS.rs_run st0 tl0 = Some st.
Proof.
  induction L as [|rs0 L IH]; intros rs H Hne; cbn [app chainedL] in H; destruct H as [H1 H2].
  - destruct (H1 Hne) as (st & tl & E & _). exists st, tl. split; [exact E|]. intros [|] ? ? E0; discriminate E0.
  - destruct (IH rs H2 Hne) as (st & tl & E & Hl). exists st, tl. split; [exact E|].
    intros L0 st0 tl0 E0. destruct L0 as [|x L0]; cbn [app] in E0; injection E0 as -> ->.
    + destruct H1 as (st1 & tl1 & [= <- <-] & Hn); [discriminate|]. cbn [app] in Hn. rewrite E in Hn.
      apply Hn. discriminate.
    + eapply Hl. reflexivity.
Qed.

Definition ent_ok (F : N -> bytes) (idl : list N) (ld : logdata) : Prop :=
  wf_pair (ld_id ld) /\ In (ld_chunk ld) idl /\
  exists pre p post, wf_bytes p /\
    F (ld_chunk ld) = pre ++ enc_record (RAppend (ld_id ld) p) ++ post /\
    ld_off ld = ld_chunk ld + JC.blen pre /\ ld_len ld = rec_size (RAppend (ld_id ld) p).

Lemma Chain_snoc_file G cur st tl cur' off :
  (G = [] \/ st = cur) -> RS.Chain cur G -> RS.rs_run st tl = Some cur' ->
  RS.Chain cur' (G ++ [(off, RState st :: tl)]).
Proof.
  intros Hc H Hr. apply RS.Chain_app. split; [|split; [exists st, tl; auto|exact I]].
  destruct Hc as [->| ->]; [exact I|exact H].
Qed.

Definition cm (g : jfile) (c : closed) : Prop :=
  cl_chunk c = chunk_of (fst g) (snd g) /\ Forall wf_record (snd g) /\
  exists st tl, snd g = RState st :: tl /\ RS.rs_run st tl = Some (cl_state c).

(* every entry of the index map points at its append record inside a file of [G], whatever bytes
   [F] the files are given beyond [encs] of their records *)
Definition log_ok (G : list jfile) (s : sm) : Prop :=
  forall F, (forall g, In g G -> F (fst g) = encs (snd g)) ->
            Forall (fun e => ent_ok F (map fst G) (snd e)) (m_log s).

Lemma ent_ok_mono F idl idl' ld : incl idl idl' -> ent_ok F idl ld -> ent_ok F idl' ld.
Proof. intros Hi (H1 & H2 & H3). split; [exact H1|]. split; [now apply Hi|exact H3]. Qed.

Lemma loaded_journal cfg t0 pe0 d D cl t pe : loaded cfg t0 pe0 d D cl t pe ->
  wf_rstate (m_rs t0) -> m_log t0 = [] -> chainedL (map (fun f => recs_of (f_data f)) d) ->
  exists G, map snd G = map (fun f => recs_of (f_data f)) d /\ Forall2 RF.file_match D G /\ Forall2 cm G cl /\ RS.Chain (m_rs t) G /\ log_ok G t /\ wf_rstate (m_rs t).
Proof.
  intros L Hw0 Hl0. induction L as [|d D cl t pe f rs tl t1 _ IH R Hne _ Erep]; intros HcL.
  - exists []. do 2 (split; [constructor|]). split; [constructor|]. split; [exact I|]. split; [|exact Hw0].
    intros F _. rewrite Hl0. constructor.
  - rewrite map_app in HcL. destruct (IH (chainedL_prefix _ _ HcL)) as (G & EG & Hfm & Hcm & Hch & Hlog & Hwf).
    cbn [map] in HcL. rewrite (reads_recs _ _ _ _ R), <- EG in HcL.
    destruct (chainedL_last _ _ HcL Hne) as (st & tl' & Ers & Hlink).
    pose proof (rd_wf _ _ _ _ R) as Hwr.
    pose proof (RS.rapply_rs _ _ _ _ _ Erep : RS.rs_run (m_rs t) rs = Some (m_rs t1)) as Hrun.
    assert (Hrun' : RS.rs_run st tl' = Some (m_rs t1)) by (rewrite Ers in Hrun; exact Hrun).
    exists (G ++ [(f_id f, rs)]). split; [|split; [|split; [|split; [|split]]]].
    + rewrite !map_app. cbn [map snd]. now rewrite EG, (reads_recs _ _ _ _ R).
    + apply Forall2_app; [exact Hfm|]. constructor; [|constructor].
      split; [apply left_as_id|exact (left_as_data _ _ _ _ R)].
    + apply Forall2_app; [exact Hcm|]. constructor; [|constructor].
      unfold cm. cbn [cl_chunk cl_state fst snd]. split; [reflexivity|]. split; [exact Hwr|]. exists st, tl'. auto.
    + rewrite Ers. eapply Chain_snoc_file; [|exact Hch|exact Hrun'].
      destruct (list_rev_case G) as [->|(G0 & [o0 rs0] & ->)]; [now left|right].
      destruct (RS.Chain_cur _ _ _ _ Hch) as (st0 & tl0 & -> & Hr0).
      rewrite map_app in Hlink. cbn [map snd] in Hlink. rewrite (Hlink _ _ _ eq_refl) in Hr0. now injection Hr0.
    + intros F HF. rewrite map_app. cbn [map fst].
      assert (HF0 : forall g, In g G -> F (fst g) = encs (snd g)).
      { intros g Hg. apply HF. apply in_or_app. now left. }
      assert (HFid : F (f_id f) = encs rs).
      { apply (HF (f_id f, rs)). apply in_or_app. right. now left. }
      specialize (Hlog F HF0). rewrite Forall_forall in Hlog |- *. intros e He.
      destruct (RS.rapply_points _ _ _ _ Erep e He) as [Hi|Hp].
      * eapply ent_ok_mono; [|exact (Hlog e Hi)]. apply incl_appl, incl_refl.
      * destruct (RS.points_at F _ _ _ HFid Hwr Hp) as (W & Ec & Hat).
        split; [exact W|]. split; [|exact Hat]. rewrite Ec. apply in_or_app. right. now left.
    + eapply RS.rs_run_wf; [exact Hwf|exact Hwr|exact Hrun].
Qed.

Definition whole_file (p : file) : Prop :=
  exists rs, f_data p = encs rs /\ Forall wf_record rs /\ rs <> [].

Lemma loaded_whole cfg t0 pe0 d D cl t pe : loaded cfg t0 pe0 d D cl t pe -> wf_rstate (m_rs t0) ->
  Forall whole_file D /\ wf_rstate (m_rs t).
Proof.
  intros L Hw0. induction L as [|d D cl t pe f rs tl t1 _ [IH Hwf] R Hne _ Erep]; [now split|].
  split.
  - apply Forall_app. split; [exact IH|]. constructor; [|constructor]. exists rs.
    split; [exact (left_as_data _ _ _ _ R)|]. split; [exact (rd_wf _ _ _ _ R)|exact Hne].
  - eapply RS.rs_run_wf; [exact Hwf|exact (rd_wf _ _ _ _ R)|].
    exact (RS.rapply_rs _ _ _ _ _ Erep).
Qed.

(* every file of the directory that open_dir leaves is a whole number of well-formed
   (hence decodable: dec_enc_record) records, at least one; no hypothesis besides sortedness *)
Theorem open_dir_whole : forall cfg d y,
  disk_sorted d -> open_dir cfg d = OpenOk y ->
  Forall (fun p => exists rs, f_data p = encs rs /\ Forall wf_record rs /\ rs <> []) (y_disk y).
Proof.
  intros cfg d y Hs H.
  destruct (open_dir_inv _ _ _ H) as (a & El & Hfin).
  apply (open_loop_opens _ _ _ Hs) in El as (d0 & hl & pe & _ & L & _).
  apply loaded_whole in L as [El' Hwf]; [|cbn; unfold wf_rstate; cbn; tauto].
  destruct Hfin as [(init & lastc & _ & ->)|(id & _ & _ & _ & ->)]; [exact El'|].
  apply JournalDisk.disk_put_Forall; [|exact El']. eexists [_]. cbn [f_data]. split; [symmetry; apply JC.encs_one|].
  split; [|discriminate]. constructor; [|constructor]. exact Hwf.
Qed.

Record opened_journal (y : sys) (G0 : list jfile) (o : N) (rs : list record) : Prop := {
  oj_files : Forall2 RF.file_match (y_disk y) (G0 ++ [(o, rs)]);
  oj_closed : Forall2 cm G0 (k_closed (y_core y));
  oj_open : k_open (y_core y) = chunk_of o rs;
  oj_last : Forall wf_record rs /\ exists st tl, rs = RState st :: tl;
  oj_chain : RS.Chain (m_rs (k_sm (y_core y))) (G0 ++ [(o, rs)]);
  oj_log : log_ok (G0 ++ [(o, rs)]) (k_sm (y_core y));
  oj_wf : wf_rstate (m_rs (k_sm (y_core y))) }.

Lemma log_ok_snoc G g s : log_ok G s -> log_ok (G ++ [g]) s.
Proof.
  intros H F HF. rewrite map_app.
  assert (HF0 : forall g0, In g0 G -> F (fst g0) = encs (snd g0)).
  { intros g0 Hg. apply HF. apply in_or_app. now left. }
  specialize (H F HF0). eapply Forall_impl; [|exact H].
  intros e He. eapply ent_ok_mono; [|exact He]. apply incl_appl, incl_refl.
Qed.

Theorem open_dir_journal : forall cfg d y,
  disk_sorted d -> dir_chained d -> open_dir cfg d = OpenOk y ->
  exists G0 o rs, opened_journal y G0 o rs.
Proof.
  intros cfg d y Hs Hch H.
  destruct (opened_of _ _ _ H Hs) as (old & fc & O).
  destruct (open_dir_inv _ _ _ H) as (a & El & Hfin). clear H.
  apply (open_loop_opens _ _ _ Hs) in El as (d0 & hl & pe & -> & L & _).
  unfold dir_chained in Hch. rewrite map_app in Hch.
  destruct (loaded_journal _ _ _ _ _ _ _ _ L) as (G' & _ & Hfm & Hcm & Hchain & Hlog & Hwf);
    [cbn; unfold wf_rstate; cbn; tauto|reflexivity|exact (chainedL_prefix _ _ Hch)|].
  clear L Hch.
  destruct Hfin as [(init & lastc & Er & ->)|(id & _ & _ & Eg & ->)].
  - apply reusable_some in Er. destruct Er as [Ecl _]. rewrite Ecl in Hcm. apply Forall2_app_inv_r in Hcm.
    destruct Hcm as (G0 & l2 & Hc1 & Hc2 & EG). inversion Hc2 as [|[o rs] ? ? ? Hgl Hnil]; subst.
    inversion Hnil; subst. destruct Hgl as (Hck & Hwr & Hhd). cbn [fst snd] in *.
    exists G0, o, rs. destruct Hhd as (st & tl & Ers & _).
    constructor; cbn [y_disk y_core k_closed k_open k_sm]; eauto.
  - set (st := m_rs (oa_sm a)) in *. set (nf := mkFile id (enc_record (RState st)) 0) in *.
    pose proof (o_disk _ _ _ _ O) as Ed. pose proof (o_sorted _ _ _ _ O) as Hsd.
    pose proof (o_id _ _ _ _ O) as Eid. cbn [y_disk y_core k_open] in Ed, Hsd, Eid.
    rewrite JC.ck_id_push in Eid. cbn [ck_id] in Eid.
    assert (Eold : oa_disk a = old).
    { rewrite <- (JournalDisk.disk_remove_absent id (oa_disk a)).
      - change id with (f_id nf). rewrite <- JournalDisk.disk_remove_put, Ed. cbn [f_id nf]. rewrite <- Eid.
        apply JournalDisk.disk_remove_last. rewrite <- Ed. exact Hsd.
      - apply JournalDisk.disk_get_None in Eg. rewrite Forall_forall. intros g Hg E. apply Eg.
        rewrite <- E. now apply in_map. }
    assert (Hput : disk_put nf (oa_disk a) = oa_disk a ++ [nf]).
    { apply JournalDisk.disk_put_end. rewrite Eold. rewrite Ed in Hsd.
      apply JournalDisk.fsorted_app_inv in Hsd. destruct Hsd as (_ & _ & Hlt).
      rewrite Forall_forall. intros g Hg. cbn [f_id nf]. rewrite <- Eid.
      apply Hlt; [exact Hg|now left]. }
    exists G', id, [RState st].
    constructor; cbn [y_disk y_core k_closed k_open k_sm].
    + rewrite Hput. apply Forall2_app; [exact Hfm|]. constructor; [|constructor].
      split; [reflexivity|]. cbn [snd f_data nf]. symmetry. apply JC.encs_one.
    + exact Hcm.
    + unfold chunk_of. cbn [map ends_from]. rewrite ck_push_fresh.
      rewrite (JC.rec_size_blen (RState st)). reflexivity.
    + split; [constructor; [exact Hwf|constructor]|]. exists st, []. reflexivity.
    + destruct G' as [|g0 G0'].
      * cbn [app RS.Chain snd]. split; [|exact I]. exists st, []. auto.
      * apply RS.Chain_rotate. exact Hchain.
    + apply log_ok_snoc. exact Hlog.
    + exact Hwf.
Qed.

Lemma fm_bytes D G : Forall2 RF.file_match D G -> forall id, CrashBase.data_of D id = CrashBase.gbytes G id.
Proof.
  induction 1 as [|f g D G [E1 E2] _ IH]; intros id; [reflexivity|].
  unfold CrashBase.data_of, CrashBase.gbytes in *. cbn [disk_get CrashBase.glook]. rewrite E1.
  destruct (N.eqb id (fst g)); [exact E2|apply IH].
Qed.

Lemma fm_Abut D G : Forall2 RF.file_match D G -> contig D -> RF.Abut G.
Proof.
  induction 1 as [|f g D G [E1 E2] H IH]; intros Hc; [exact I|].
  cbn [AD.contig RF.Abut] in *. destruct Hc as [Hc1 Hc2]. split; [|now apply IH].
  destruct H as [|f' g' D' G' [E1' _] _]; [exact I|].
  unfold AD.fend in Hc1. unfold RF.glen. rewrite <- E2, <- E1, <- E1'. symmetry. exact Hc1.
Qed.

Lemma JI_from S y old fc G0 o rs :
  opened S y old fc -> opened_journal y G0 o rs -> CS.JI (sys2_of y) (G0 ++ [(o, rs)]).
Proof.
  intros O [Hfm Hcm Hop [Hwr (st0 & tl0 & Ers)] Hchain Hlog Hwf].
  set (G := G0 ++ [(o, rs)]) in *.
  pose proof (RF.fm_ids _ _ Hfm) as Hids. pose proof (fm_bytes _ _ Hfm) as Hbytes.
  pose proof (proj2 (JournalDisk.dsorted_iff _) (o_sorted _ _ _ _ O)) as Hsd. unfold JournalDisk.dsorted, JournalDisk.ids in Hsd. rewrite Hids in Hsd.
  assert (Hcont : contig (y_disk y)) by (rewrite (o_disk _ _ _ _ O); apply (o_contig _ _ _ _ O)).
  pose proof (fm_Abut _ _ Hfm Hcont) as Hab.
  assert (HF : forall g, In g G -> CrashBase.gbytes G (fst g) = encs (snd g)).
  { intros [i r] Hg. unfold CrashBase.gbytes. cbn [fst snd]. now rewrite (CrashRecover.glook_sorted G i r Hsd Hg). }
  assert (Hoid : ck_id (k_open (y_core y)) = o) by (rewrite Hop; reflexivity).
  assert (Hcids : JC.chunk_ids (y_core y) = map fst G).
  { unfold JC.chunk_ids, JC.closed_ids. rewrite (o_removed _ _ _ _ O), Hoid.
    unfold G. rewrite map_app, (RF.closes_ids _ _ Hcm). reflexivity. }
  assert (Hgok : Forall CrashJournal.gfile_ok G).
  { unfold G. rewrite Forall_app. split.
    - clear - Hcm. induction Hcm as [|g c G cl (_ & Hw & s & t & E & _) _ IH]; constructor; [|exact IH].
      split; [exact Hw|eauto].
    - constructor; [|constructor]. split; [exact Hwr|]. cbn [snd]. eauto. }
  destruct (o_files _ _ _ _ O) as [pl Hfl].
  assert (Hfc : f_id fc = o) by (rewrite (o_id _ _ _ _ O); exact Hoid).
  constructor.
  - constructor; unfold sys2_of; cbn [z_core z_todo z_ghost g_created].
    + rewrite Hcids. apply (RF.ghost_jinv _ _ G0 o rs (m_rs (k_sm (y_core y))) (o_removed _ _ _ _ O) Hcm Hop Hsd); try assumption; [|eauto|].
      * apply RF.Abut_iff_abut; assumption.
      * specialize (Hlog (CrashBase.gbytes G) HF).
        eapply Forall_impl; [|exact Hlog]. intros e (H1 & H2 & H3). split; [exact H1|].
        split; [|intros _; exact H3].
        unfold G in H2, Hsd. rewrite map_app in H2, Hsd. cbn [map fst] in H2, Hsd.
        eapply JournalDisk.ss_last_max; eauto.
    + cbn [AD.creates CrashBase.creates flat_map]. unfold CrashBase.creates, AD.creates. cbn [flat_map].
      rewrite app_nil_r. symmetry. exact Hids.
    + exact Hsd.
    + exact Hgok.
    + exact Hab.
    + exact Hchain.
    + rewrite Hoid. exists G0, rs. reflexivity.
    + intros x [].
  - exact I.
  - unfold sys2_of. cbn [z_disk z_todo]. intros id _. cbn [CrashBase.theads]. rewrite app_nil_r, Hbytes.
    apply CrashBase.bprefix_refl.
  - intros _. unfold AD.stream, AD.stream_batch, CrashBase.cur0, newest, sys2_of.
    cbn [z_w w_batch w_files z_queue z_todo z_core z_disk]. rewrite (o_queue _ _ _ _ O), Hfl.
    cbn [rev app map wf_id]. constructor.
    + cbn [CrashBase.fcur]. now rewrite Hoid.
    + intros id _. cbn [CrashBase.pw]. rewrite (o_pending _ _ _ _ O).
      destruct (N.eqb (ck_id (k_open (y_core y))) id); rewrite ?app_nil_r; apply Hbytes.
    + exact I.
    + cbn [CrashBase.seen_of]. constructor; [|constructor]. rewrite Hoid, Hfc. lia.
Qed.

Definition dir_ok (d : disk) : Prop := dir_wf d /\ older_synced d /\ dir_chained d.

Lemma full_JI_from cfg d z : dir_ok d -> zreach_from cfg d z ->
  AD.full z /\ (CS.hist_wf z -> exists G, CS.JI z G).
Proof.
  intros (Hwf & Hold & Hch). revert z.
  apply (reach_ind (fun z => AD.full z /\ (CS.hist_wf z -> exists G, CS.JI z G))).
  - intros y Ho. destruct (opened_of_synced _ _ _ Ho Hwf Hold) as (old & fc & O & Hf).
    split; [eapply full_from; eauto|]. intros _.
    destruct (open_dir_journal cfg d y (proj1 Hwf) Hch Ho) as (G0 & o & rs & OJ).
    eexists. eapply JI_from; eauto.
  - intros z e z' v [F IH] Hst. split; [eapply AD.full_step; eauto|].
    intros Hw. destruct (CS.hist_wf_step _ _ _ _ Hst Hw) as [Hw0 Hwe].
    destruct (IH Hw0) as (G & J). exists (CS.gstep z e G). eapply CS.JI_step; eauto.
Qed.

Theorem L2_journal_from : forall cfg d z,
  dir_ok d -> zreach_from cfg d z -> CS.hist_wf z -> exists G, CS.JI z G.
Proof. intros cfg d z Hd Hr Hw. now apply (full_JI_from cfg d z Hd Hr). Qed.

(* [RestartSys.Inv_from] under this file's name: named by the checks of C04, C08 and C14
   (MANIFEST.json: the [*_from] theorems of this file) *)
Lemma Inv_from cfg d z : disk_sorted d -> zreach_from cfg d z -> PurgeFacts.Inv z.
Proof. exact (RestartSys.Inv_from cfg d z). Qed.

Lemma journalled_from cfg d z : dir_ok d -> zreach_from cfg d z -> CS.hist_wf z -> CrashRecover.journalled z.
Proof.
  intros Hd Hr Hw. split; [exact (Inv_from cfg d z (proj1 (proj1 Hd)) Hr)|].
  exact (L2_journal_from cfg d z Hd Hr Hw).
Qed.

Print Assumptions open_dir_whole.
Print Assumptions open_dir_journal.
Print Assumptions JI_from.
Print Assumptions L2_journal_from.
