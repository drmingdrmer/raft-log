(* Property C07 on the L2 system without the hypothesis that the worker thread is alive. When a write
   or unlink error ends the worker thread, the requests it had received and not carried out are lost;
   the caller goes on. The abstraction keeps them ([lost], a history variable threaded through the run
   by [next_lost]): the logical journal is then what the directory WOULD hold had the worker gone on,
   every entry above the (now frozen) boundary stays resident, and every entry at or below it was
   completely on disk when the boundary was installed. The theorem is [ReadSys.C07_L2_gen], whose
   check [zrunq_ok] is [zrun_ok_c07f] word for word. *)
From Coq Require Import List NArith Bool.
From Coq.Strings Require Import Byte.
From RaftLog Require Import Model.Cache Model.Core Model.Run Spec.Spec Spec.Hist Model.Sys.
From RaftLog Require Import Proofs.JournalFacts Proofs.PurgeFacts.
From RaftLog Require Import Proofs.PurgeLive Proofs.ReadFacts Proofs.ReadSys.
Import ListNotations.
Local Open Scope N_scope.

Definition absw (ws : list wreq) (z : sys2) : sys :=
  mkSys (z_core z) (fold_left xdisk (z_todo z) (z_disk z))
        (ws ++ z_queue z ++ flat_map xsend (z_todo z)) (w_files (z_w z)) [].

Definition pend (z : sys2) (lost : list wreq) : list wreq :=
  if w_alive (z_w z) then wstream (z_w z) else lost.
Definition next_lost (z z' : sys2) (lost : list wreq) : list wreq :=
  if w_alive (z_w z) && negb (w_alive (z_w z')) then wstream (z_w z) else lost.

Fixpoint zrun_ok_c07f (z : sys2) (lost : list wreq) (es : list zev) : bool :=
  match es with
  | [] => true
  | e :: r =>
    match e with ZCall o => op_above_bounds (absw (pend z lost) z) o | _ => true end &&
    match zstep z e with
    | Some (z1, _) => zrun_ok_c07f z1 (next_lost z z1 lost) r
    | None => true
    end
  end.

(* Every reachable state of the L2 system between two calls, worker failures of every
   kind included. *)
Theorem C07_reads_total_outside_known_L2_faults : forall cfg es z v,
  zrun (z0_of cfg) es = Some (z, v) ->
  zrun_ok_c07f (z0_of cfg) [] es = true ->
  hist_legal z -> Forall wop_wf (hist z) -> z_todo z = [] ->
  let sp := spec_wops spec0 (hist z) in
  m_rs (k_sm (z_core z)) = spec_state sp /\
  (forall from to, read_ok (snd (do_read (z_core z) (z_disk z) from to)) (spec_read sp from to)) /\
  read_ok (do_dump_iter (z_core z) (z_disk z)) (sp_entries sp).
Proof.
  exact C07_L2_gen.
Qed.

Lemma zrun_ok_alive : forall es z lost z' v,
  zrun z es = Some (z', v) -> w_alive (z_w z') = true ->
  zrun_ok_c07f z lost es = zrun_ok_c07 z es.
Proof. intros es z lost z' v H Hal. exact (proj2 (zrunq_ok_alive es z lost z' v H Hal)). Qed.

(* the hypotheses on the run ([Forall wop_wf (hist z)] apart) are satisfiable by a run in which
   the first write of the worker fails *)
Example C07_L2_faults_inhabited :
  let cfg := mkConfig 0 0 3 100000 true in
  let es := [ZCall (OW (OAppend [((1, 0), [x01]); ((1, 1), []); ((1, 2), [])])); ZEff; ZEff; ZEff; ZEff;
             ZCall (OFlush true); ZEff; ZRecv 0 true; ZWork false;
             ZCall (OW (OAppend [((2, 3), [])])); ZEff; ZEff; ZEff; ZEff; ZCall (ORead 0 10)] in
  exists z v, zrun (z0_of cfg) es = Some (z, v) /\ zrun_ok_c07f (z0_of cfg) [] es = true /\
    hist_legal z /\ w_alive (z_w z) = false /\ z_todo z = [] /\
    map fst (ch_entries (m_cache (k_sm (z_core z)))) = [(1, 0); (1, 1); (1, 2); (2, 3)].
Proof.
  (* only what is claimed of [z] is evaluated, in one step: the kernel's lazy machine, which coqchk uses for a
     [vm_compute] step, does not normalise the rest of the state.  [clearbody r] then forgets what [r] is,
     so that the [destruct] splits a variable and nothing evaluates the run a second time. *)
  cbv zeta. set (r := zrun _ _).
  assert (H : match r with
              | Some (z, _) => Some (wops_legal spec0 (hist z), w_alive (z_w z), z_todo z,
                                     map fst (ch_entries (m_cache (k_sm (z_core z)))))
              | None => None
              end = Some (true, false, [], [(1, 0); (1, 1); (1, 2); (2, 3)])) by (vm_compute; reflexivity).
  clearbody r. destruct r as [[z v]|]; [|discriminate H]. injection H as H1 H2 H3 H4.
  exists z, v. split; [reflexivity|]. split; [vm_compute; reflexivity|]. unfold hist_legal. auto.
Qed.

Print Assumptions C07_reads_total_outside_known_L2_faults.
