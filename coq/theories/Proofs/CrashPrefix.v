(* C03, stage C: the journal of the L2 system against the reference log.
   [ref_states ws]: the reference-log states after each journalled per-record write of
   the write calls [ws]; invariant [SP]: the journal G is valid against the reference
   log ([files_ok]), its records are exactly the accepted per-record writes of the
   ghost history, and every flush recorded in the ghost history lies behind all
   records journalled before it. *)
From Coq Require Import List NArith Bool Lia.
From RaftLog Require Import Model.Types Model.Codec Model.Core
  Model.Recover Model.Sys Spec.Spec Spec.Hist Spec.Durable.
From RaftLog Require Import Proofs.JournalDisk Proofs.JournalChunk
  Proofs.OrderFacts Proofs.Refine.
From RaftLog Require Import Proofs.SmFacts Proofs.CrashBase Proofs.CrashJournal Proofs.CrashSteps Proofs.CrashSpec.
Import ListNotations.
Local Open Scope N_scope.
Local Arguments enc_record : simpl never.

(* a purge of an already purged prefix is accepted but journals nothing *)
Definition noop_sw (s : spec) (w : swrite) : bool :=
  match w with
  | SPurge u => N.ltb (lid_index u) (next_index (sp_purged s))
  | _ => false
  end.

(* the states after each accepted write of a call; the call stops at the first refusal *)
Fixpoint strace (s : spec) (l : list swrite) : list spec :=
  match l with
  | [] => []
  | w :: r =>
    match spec_step s w with
    | Some s' => (if noop_sw s w then [] else [s']) ++ strace s' r
    | None => []
    end
  end.

Definition wop_sws (w : wop) : list swrite :=
  match w with
  | OVote v => [SVote v]
  | OAppend es => map (fun e => SEntry (fst e) (snd e)) es
  | OTruncate i => [STruncate i]
  | OPurge u => [SPurge u]
  | OCommit id => [SCommit id]
  | OUser u => [SUser u]
  | OUpdateState _ => []
  end.

Definition wtrace (s : spec) (w : wop) : list spec := strace s (wop_sws w).

Fixpoint htrace (s : spec) (ws : list wop) : list spec :=
  match ws with
  | [] => []
  | w :: r => wtrace s w ++ htrace (fst (spec_wop s w)) r
  end.

(* one reference state per journalled record, the initial state first *)
Definition ref_states (ws : list wop) : list spec := spec0 :: htrace spec0 ws.

Lemma htrace_app s a b : htrace s (a ++ b) = htrace s a ++ htrace (PL.spec_wops s a) b.
Proof.
  revert s. induction a as [|w a IH]; intros s; simpl; [reflexivity|].
  rewrite IH, <- app_assoc. reflexivity.
Qed.

(* the journal against the reference log: the records of [G] are legal one after the other from
   [spec0] ([files_ok], each file headed by the reference state reached before it) and lead to [sp],
   which the state machine of [k] shows ([R0]) *)
Record SC (k : core) (sp : spec) (G : list jfile) : Prop := mkSC {
  sc_files : files_ok spec0 G;
  sc_cur : run_recs spec0 (jrecs G) = sp;
  sc_r0 : PL.R0 (k_sm k) sp;
  sc_last : exists G0 rs, G = G0 ++ [(ck_id (k_open k), rs)] }.

Lemma sc_rec k sp G r k' w effs :
  SC k sp G -> rec_ok sp r -> append_and_apply k r = Ret (k', w, effs) ->
  match spec_step sp (sw_of r) with
  | Some sp' => (exists off len, w = WOk off len) /\ SC k' sp' (gnext k r G) /\
                jrecs (gnext k r G) = jrecs G ++ [r]
  | None => (exists e, w = WErr e) /\ k' = k /\ gnext k r G = G
  end.
Proof.
  intros [Hf Hc HR (G0 & rs & EG)] Hok H. subst G.
  pose proof (rec_sim _ _ _ HR Hok) as HS. unfold PL.step_sim0 in HS.
  destruct (spec_step sp (sw_of r)) as [sp'|] eqn:Es.
  - destruct HS as (Eil & Hv & HR').
    destruct (gnext_cases _ _ G0 rs _ _ _ H) as [(Ea & _)|(sm1 & _ & _ & Hsm & -> & Hk)].
    { unfold accepted in Ea. rewrite Eil, Hv in Ea. discriminate. }
    split; [eauto|].
    specialize (HR' (ck_id (k_open k)) (ck_end (k_open k), rec_size r)). rewrite Hsm in HR'. cbn [fst] in HR'.
    set (o := ck_id (k_open k)) in *.
    apply files_ok_app in Hf. destruct Hf as [Hf0 Hfl]. simpl in Hfl.
    destruct Hfl as (tl0 & Ers & Hrl & _). subst rs.
    rewrite jrecs_last in Hc. cbn [List.tl] in Hc. rewrite run_recs_app in Hc.
    set (hd := RState (spec_state (run_recs spec0 (jrecs G0)))) in *.
    assert (Hf1 : files_ok spec0 (G0 ++ [(o, (hd :: tl0) ++ [r])])).
    { apply files_ok_app. split; [exact Hf0|]. simpl. exists (tl0 ++ [r]). split; [reflexivity|].
      split; [|exact I]. apply recs_ok_app. split; [exact Hrl|]. rewrite Hc. simpl.
      split; [exact Hok|]. eauto. }
    assert (Hj1 : jrecs (G0 ++ [(o, (hd :: tl0) ++ [r])]) = jrecs (G0 ++ [(o, hd :: tl0)]) ++ [r]).
    { rewrite !jrecs_last. cbn [List.tl app]. now rewrite app_assoc. }
    assert (Hc1 : run_recs spec0 (jrecs (G0 ++ [(o, hd :: tl0)]) ++ [r]) = sp').
    { rewrite run_recs_app, jrecs_last. cbn [List.tl].
      rewrite run_recs_app, Hc. simpl. unfold spec_apply. now rewrite Es. }
    destruct Hk as [(-> & _ & ->)|(-> & _ & ->)].
    + split; [|exact Hj1]. constructor.
      * exact Hf1.
      * now rewrite Hj1.
      * exact HR'.
      * eexists _, _. reflexivity.
    + split.
      * constructor.
        -- apply files_ok_app. split; [exact Hf1|]. cbn [files_ok snd]. exists []. rewrite Hj1, Hc1.
           split; [|split; exact I]. now rewrite (PL.R0_rs _ _ HR').
        -- rewrite jrecs_last. cbn [List.tl]. now rewrite app_nil_r, Hj1.
        -- exact HR'.
        -- eexists _, _. reflexivity.
      * rewrite jrecs_last. cbn [List.tl]. now rewrite app_nil_r.
  - destruct (gnext_cases _ _ G0 rs _ _ _ H) as [(_ & -> & _ & He & ->)|(sm1 & Hv & Eil & _)].
    + auto.
    + exfalso. destruct HS as [HS|(e & HS)]; congruence.
Qed.

Lemma SC_core k k' sp G : k_sm k' = k_sm k -> k_open k' = k_open k -> SC k sp G -> SC k' sp G.
Proof. intros E1 E2 [H1 H2 H3 H4]. constructor; rewrite ?E1, ?E2; assumption. Qed.

Definition wnew (sp : spec) (G G' : list jfile) (tr : list spec) : Prop :=
  exists new, jrecs G' = jrecs G ++ new /\ rtrace sp new = tr.

Lemma sc_one k sp G r sw k' w effs :
  SC k sp G -> rec_ok sp r -> sw_of r = sw -> noop_sw sp sw = false ->
  append_and_apply k r = Ret (k', w, effs) ->
  SC k' (fst (spec_one sp sw)) (gfold k [r] G) /\ wnew sp G (gfold k [r] G) (strace sp [sw]).
Proof.
  intros HS Hok Esw Hno H. pose proof (sc_rec k sp G r k' w effs HS Hok H) as HR.
  rewrite gfold_one, Esw in *. unfold spec_one. cbn [strace]. rewrite Hno.
  destruct (spec_step sp sw) as [sp'|] eqn:Es; cbn [fst].
  - destruct HR as (_ & HS' & Hj). split; [exact HS'|]. exists [r]. split; [exact Hj|].
    cbn [rtrace]. unfold spec_apply. rewrite Esw, Es. reflexivity.
  - destruct HR as (_ & -> & ->). split; [exact HS|]. exists []. split; [now rewrite app_nil_r|reflexivity].
Qed.

Lemma sc_append es : forall k sp G acc effs0 k' w effs,
  SC k sp G -> do_append k es acc effs0 = Ret (k', w, effs) ->
  let G' := gfold k (map (fun e => RAppend (fst e) (snd e)) es) G in
  SC k' (fst (spec_append sp es)) G' /\
  wnew sp G G' (strace sp (map (fun e => SEntry (fst e) (snd e)) es)).
Proof.
  induction es as [|[id p] es IH]; intros k sp G acc effs0 k' w effs HS H; simpl in H.
  - inversion H; subst. simpl. split; [exact HS|]. exists []. split; [now rewrite app_nil_r|reflexivity].
  - destruct (append_and_apply k (RAppend id p)) as [[[k1 w1] ef]|] eqn:Ea; [|discriminate].
    pose proof (sc_rec k sp G (RAppend id p) k1 w1 ef HS I Ea) as HR. cbn [sw_of] in HR.
    cbn [map fst snd gfold spec_append strace noop_sw]. rewrite Ea.
    destruct (spec_step sp (SEntry id p)) as [sp1|] eqn:Es.
    + destruct HR as ((off & len & ->) & HS1 & Hj1).
      destruct (IH _ _ _ _ _ _ _ _ HS1 H) as (HS2 & new2 & Hj2 & Ht2).
      split; [exact HS2|]. exists (RAppend id p :: new2). split.
      * rewrite Hj2, Hj1, <- app_assoc. reflexivity.
      * cbn [rtrace sw_of]. unfold spec_apply. rewrite Es. cbn [app]. now rewrite Ht2.
    + destruct HR as ((e & ->) & -> & _). inversion H; subst.
      split; [exact HS|]. exists []. split; [now rewrite app_nil_r|reflexivity].
Qed.

Lemma sc_refused k sp G sw : spec_step sp sw = None -> SC k sp G ->
  SC k (fst (spec_one sp sw)) G /\ wnew sp G G (strace sp [sw]).
Proof.
  intros E HS. unfold spec_one. cbn [strace]. rewrite E. cbn [fst]. split; [exact HS|].
  exists []. split; [now rewrite app_nil_r|reflexivity].
Qed.

Lemma sc_write k sp G w k' res effs :
  SC k sp G -> wop_legal sp w = true -> do_write k w = Ret (k', res, effs) ->
  SC k' (fst (spec_wop sp w)) (gfold k (SmFacts.wrecs k w) G) /\
  wnew sp G (gfold k (SmFacts.wrecs k w) G) (wtrace sp w).
Proof.
  intros HS Hleg H. pose proof (sc_r0 _ _ _ HS) as HR.
  assert (HP : r_purged (m_rs (k_sm k)) = sp_purged sp) by (rewrite (PL.R0_rs _ _ HR); reflexivity).
  destruct w as [v|es|i|u|id|u|st]; unfold wtrace; cbn [spec_wop wop_sws do_write SmFacts.wrecs] in *.
  - now apply (sc_one k sp G (RVote v) _ _ _ _ HS I eq_refl eq_refl H).
  - destruct (wal_last_segment k) as [w0|]; [|discriminate].
    exact (sc_append es _ _ _ _ _ _ _ _ HS H).
  - rewrite HP in *. destruct (N.eqb i (next_index (sp_purged sp))) eqn:E1.
    + apply N.eqb_eq in E1.
      eapply sc_one; [exact HS|left; reflexivity|cbn [sw_of]; now rewrite E1|reflexivity|exact H].
    + destruct (N.eqb i 0) eqn:E2.
      * inversion H; subst. apply sc_refused; [|exact HS]. cbn [spec_step]. now rewrite E1, E2.
      * pose proof (lm_get_rel (m_log (k_sm k)) (sp_entries sp) (i - 1) (PL.R0_log _ _ HR)) as HG.
        unfold lm_get_id in *. destruct (lm_get (i - 1) (m_log (k_sm k))) as [d|].
        -- destruct HG as [p [Hin Hidx]].
           assert (Hi : i = next_index (Some (ld_id d))).
           { cbn [next_index]. apply N.eqb_neq in E2. lia. }
           eapply sc_one; [exact HS|right; eauto|cbn [sw_of]; now rewrite Hi|reflexivity|exact H].
        -- inversion H; subst. apply sc_refused; [|exact HS].
           cbn [spec_step]. rewrite E1, E2. unfold sp_has_index. now rewrite HG.
  - cbn [wop_legal] in Hleg. rewrite HP in *.
    destruct (N.ltb (lid_index u) (next_index (sp_purged sp))) eqn:E1.
    + destruct (wal_last_segment k); [|discriminate]. inversion H; subst. cbn [gfold].
      unfold spec_one. cbn [strace spec_step noop_sw]. rewrite E1. cbn [fst app].
      split; [exact HS|]. exists []. split; [now rewrite app_nil_r|reflexivity].
    + destruct (append_and_apply k (RPurge u)) as [[[k1 w1] ef]|] eqn:Ea; [|discriminate].
      assert (Hok : rec_ok sp (RPurge u)) by (split; [exact E1|exact (purge_legal_arg _ _ Hleg E1)]).
      destruct (sc_one k sp G (RPurge u) (SPurge u) k1 w1 ef HS Hok eq_refl E1 Ea) as [HS1 Hn1].
      split; [|exact Hn1].
      destruct w1 as [off len|e].
      * destruct (pop_obsolete u (k_closed k1)) as [ids rest]. inversion H; subst.
        eapply SC_core; [| |exact HS1]; reflexivity.
      * inversion H; subst. exact HS1.
  - now apply (sc_one k sp G (RCommit id) _ _ _ _ HS I eq_refl eq_refl H).
  - refine (sc_one k sp G (RState (rs_set_user (m_rs (k_sm k)) u)) _ _ _ _ HS _ eq_refl eq_refl H).
    cbn [rec_ok r_user rs_set_user]. now rewrite (PL.R0_rs _ _ HR).
  - discriminate.
Qed.

Definition fends (g : jfile) : list N := tl (ends_from (fst g) (map rec_size (snd g))).
Definition rec_ends (G : list jfile) : list N := flat_map fends G.
(* number of journalled records that end at or below offset U *)
Definition nb (G : list jfile) (U : N) : nat := length (filter (fun e => N.leb e U) (rec_ends G)).

Lemma rec_ends_app A B : rec_ends (A ++ B) = rec_ends A ++ rec_ends B.
Proof. unfold rec_ends. apply flat_map_app. Qed.

Lemma fends_length g : length (fends g) = length (tl (snd g)).
Proof.
  unfold fends. destruct g as [id [|r rs]]; simpl; [reflexivity|]. now rewrite RS.ends_from_length, map_length.
Qed.

Lemma rec_ends_length G : length (rec_ends G) = length (jrecs G).
Proof.
  induction G as [|g G IH]; [reflexivity|]. unfold rec_ends, jrecs in *. simpl.
  now rewrite !app_length, IH, fends_length.
Qed.

Lemma nb_app A B U : nb (A ++ B) U = (nb A U + nb B U)%nat.
Proof. unfold nb. now rewrite rec_ends_app, filter_app, app_length. Qed.

Lemma nb_le_jrecs G U : (nb G U <= length (jrecs G))%nat.
Proof. unfold nb. rewrite <- rec_ends_length. apply filter_length_le'. Qed.

Lemma nb_app_ge G more U : (nb G U <= length (filter (fun e => N.leb e U) (rec_ends G ++ more)))%nat.
Proof. unfold nb. rewrite filter_app, app_length. lia. Qed.

Lemma rec_ends_snoc (G : list jfile) g : rec_ends (G ++ [g]) = rec_ends G ++ fends g.
Proof. rewrite rec_ends_app. unfold rec_ends at 2. cbn [flat_map]. now rewrite app_nil_r. Qed.

Lemma ends_from_le l : forall s e, In e (ends_from s l) -> e <= s + nsum l.
Proof.
  induction l as [|a l IH]; intros s e H; simpl in *; [destruct H|].
  destruct H as [<-|H]; [lia|]. apply IH in H. lia.
Qed.

Lemma Abut_ends_le : forall G g gl G0, G = G0 ++ [gl] -> RF.Abut G -> In g G ->
  fst g + RF.glen g <= fst gl + RF.glen gl.
Proof.
  induction G as [|a G IH]; intros g gl G0 E Hab Hin; [destruct Hin|].
  destruct G0 as [|a0 G0'].
  - simpl in E. inversion E; subst. destruct Hin as [<-|[]]. lia.
  - simpl in E. inversion E; subst a0 G. simpl in Hab. destruct Hab as [Hab1 Hab2].
    destruct Hin as [<-|Hin].
    + destruct (G0' ++ [gl]) as [|b l] eqn:El; [destruct G0'; discriminate|].
      assert (Hb : fst b + RF.glen b <= fst gl + RF.glen gl).
      { eapply (IH b gl G0'); [symmetry; exact El|exact Hab2|now left]. }
      lia.
    + eapply IH; eauto.
Qed.

Lemma GI_file_end_le k cr t G g : GI k cr t G -> In g G ->
  fst g + N.of_nat (length (encs (snd g))) <= ck_end (k_open k).
Proof.
  intros Gi Hg. destruct (gi_last _ _ _ _ Gi) as (G0 & rs & EG).
  pose proof (ji_open_end _ _ _ (gi_jinv _ _ _ _ Gi)) as He.
  rewrite EG, gbytes_last in He by (rewrite <- EG; apply (gi_sorted _ _ _ _ Gi)).
  pose proof (Abut_ends_le G g (ck_id (k_open k), rs) G0 EG (gi_abut _ _ _ _ Gi) Hg) as Hle.
  rewrite He. exact Hle.
Qed.

(* every journalled record ends at or below the end of the open chunk *)
Lemma nb_open_end k cr t G : GI k cr t G -> nb G (ck_end (k_open k)) = length (jrecs G).
Proof.
  intros Gi. unfold nb. rewrite <- rec_ends_length. f_equal. apply filter_all_true.
  intros e Hin. apply N.leb_le. unfold rec_ends in Hin. apply in_flat_map in Hin.
  destruct Hin as (g & Hg & He'). unfold fends in He'.
  assert (He2 : In e (ends_from (fst g) (map rec_size (snd g)))).
  { destruct (ends_from (fst g) (map rec_size (snd g))); [destruct He'|now right]. }
  apply ends_from_le in He2. rewrite nsum_sizes in He2.
  pose proof (GI_file_end_le _ _ _ _ _ Gi Hg). unfold blen in *. lia.
Qed.

Definition jext (G G' : list jfile) : Prop :=
  exists G0 o rs more new, rs <> [] /\ G = G0 ++ [(o, rs)] /\ G' = G0 ++ (o, rs ++ more) :: new.

Definition glast (k : core) (G : list jfile) : Prop :=
  exists G0 rs, rs <> [] /\ G = G0 ++ [(ck_id (k_open k), rs)].

Lemma glast_inv k G G0 rs : glast k G -> G = G0 ++ [(ck_id (k_open k), rs)] -> rs <> [].
Proof. intros (G1 & rs1 & Hne & ->) E. apply app_inj_tail in E. destruct E as [_ E]. injection E as <-. exact Hne. Qed.

(* the two moves of the journal *)
Lemma jext_record G0 o rs r : rs <> [] -> jext (G0 ++ [(o, rs)]) (G0 ++ [(o, rs ++ [r])]).
Proof. intros Hne. exists G0, o, rs, [r], []. auto. Qed.

Lemma jext_rotate G0 o rs g : rs <> [] -> jext (G0 ++ [(o, rs)]) ((G0 ++ [(o, rs)]) ++ [g]).
Proof. intros Hne. exists G0, o, rs, [], [g]. now rewrite app_nil_r, <- app_assoc. Qed.

Lemma glast_record k G0 rs r sm1 : glast (appended k r sm1) (G0 ++ [(ck_id (k_open k), rs ++ [r])]).
Proof. exists G0, (rs ++ [r]). split; [destruct rs; discriminate|reflexivity]. Qed.

Lemma glast_rotate k G : glast (rotated k) (G ++ [(ck_end (k_open k), [RState (m_rs (k_sm k))])]).
Proof. exists G, [RState (m_rs (k_sm k))]. split; [discriminate|reflexivity]. Qed.

Lemma write_ext (Phi : list jfile -> Prop) k w k' res effs G :
  (forall G G', jext G G' -> Phi G -> Phi G') -> glast k G -> Phi G ->
  do_write k w = Ret (k', res, effs) -> Phi (gfold k (SmFacts.wrecs k w) G).
Proof.
  intros HP HG H E. set (P := fun G0 k0 (_ : list eff) => glast k0 G0 /\ Phi G0).
  refine (proj2 (do_write_ginv P w (aaa_ginv P w _ _ _) P (fun _ _ _ p => p) _
                   G k k' res effs (conj HG H) E)).
  - intros G0 k0 ef0 [(G1 & rs & _ & ->) _]. eauto.
  - intros G0 rs k0 ef0 r sm1 [HG0 H0] _ _ _. split; [apply glast_record|].
    eapply HP; [|exact H0]. apply jext_record. exact (glast_inv _ _ _ _ HG0 eq_refl).
  - intros G0 k0 ef0 [HG0 H0]. split; [apply glast_rotate|]. pose proof HG0 as (G1 & rs & Hne & ->).
    eapply HP; [|exact H0]. now apply jext_rotate.
  - intros G0 k0 u k1 ef rm rest _ _ _ HP1. exact HP1.
Qed.

Lemma tl_app_ne {A} (a b : list A) : a <> [] -> tl (a ++ b) = tl a ++ b.
Proof. destruct a; [congruence|reflexivity]. Qed.

Lemma jext_jrecs G G' : jext G G' -> exists m, jrecs G' = jrecs G ++ m.
Proof.
  intros (G0 & o & rs & more & new & Hne & -> & ->).
  exists (more ++ jrecs new). rewrite jrecs_last.
  change (G0 ++ (o, rs ++ more) :: new) with (G0 ++ [(o, rs ++ more)] ++ new).
  rewrite app_assoc, jrecs_app, jrecs_last, tl_app_ne by exact Hne. now rewrite <- !app_assoc.
Qed.

Lemma fends_app o rs more : rs <> [] -> exists m, fends (o, rs ++ more) = fends (o, rs) ++ m.
Proof.
  intros Hne. unfold fends. cbn [fst snd]. rewrite map_app, ends_from_app.
  eexists. apply tl_app_ne. destruct rs; [congruence|discriminate].
Qed.

Lemma jext_rec_ends G G' : jext G G' -> exists m, rec_ends G' = rec_ends G ++ m.
Proof.
  intros (G0 & o & rs & more & new & Hne & -> & ->).
  destruct (fends_app o rs more Hne) as [m Em].
  exists (m ++ rec_ends new). rewrite rec_ends_snoc.
  change (G0 ++ (o, rs ++ more) :: new) with (G0 ++ [(o, rs ++ more)] ++ new).
  rewrite app_assoc, rec_ends_app, rec_ends_snoc, Em. now rewrite <- !app_assoc.
Qed.

Lemma SC_glast k sp G : SC k sp G -> glast k G.
Proof.
  intros [Hf _ _ (G0 & rs & ->)]. apply files_ok_app in Hf. destruct Hf as [_ Hf]. simpl in Hf.
  destruct Hf as (tl0 & E & _). exists G0, rs. split; [rewrite E; discriminate|reflexivity].
Qed.

Record SP (z : sys2) (G : list jfile) : Prop := mkSP {
  sp_sc : SC (z_core z) (PL.spec_wops spec0 (PL.hist z)) G;
  sp_tr : rtrace spec0 (jrecs G) = htrace spec0 (PL.hist z);
  sp_fl : forall cb U n, In (cb, U, n) (g_flushed (z_ghost z)) ->
          (n <= length (PL.hist z))%nat /\
          (length (htrace spec0 (firstn n (PL.hist z))) <= nb G U)%nat }.

Lemma SC_eqj k k' sp G : core_eqj k k' -> SC k sp G -> SC k' sp G.
Proof.
  intros (_ & E2 & _ & _ & _ & E6 & E7) [H1 H2 H3 H4]. constructor; try assumption.
  - eapply R0_eq; eauto.
  - now rewrite E2.
Qed.

Lemma SP_frame z z' G : core_eqj (z_core z) (z_core z') ->
  g_writes (z_ghost z') = g_writes (z_ghost z) -> g_flushed (z_ghost z') = g_flushed (z_ghost z) ->
  SP z G -> SP z' G.
Proof.
  intros Hc Hw Hf [H1 H2 H3].
  assert (Hh : PL.hist z' = PL.hist z) by (unfold PL.hist; now rewrite Hw).
  constructor; rewrite ?Hh; try assumption.
  - eapply SC_eqj; eauto.
  - intros cb U n Hin. rewrite Hf in Hin. exact (H3 cb U n Hin).
Qed.

Lemma hist_snoc z w r g' :
  g_writes g' = g_writes (z_ghost z) ++ [(w, r)] ->
  map fst (g_writes g') = PL.hist z ++ [w].
Proof. intros ->. unfold PL.hist. now rewrite map_app. Qed.

Lemma hist_after_write z w k r effs : PL.hist (AF.after_write z w k r effs) = PL.hist z ++ [w].
Proof. unfold PL.hist. simpl. now rewrite map_app. Qed.

Lemma SP_step z e z' v G :
  JI z G -> (PL.hist_legal z -> SP z G) -> zstep z e = Some (z', v) ->
  PL.hist_legal z' -> SP z' (gstep z e G).
Proof.
  intros J IH H Hl'.
  destruct (AF.zstep_cases _ _ _ _ H)
    as [(w & k & r & effs & -> & _ & E & ->)|[(cb & -> & _ & ->)|(Hc & Hw & Hf & _ & Hn)]]; cbn [gstep].
  - pose proof (hist_after_write z w k r effs) as Hh.
    unfold PL.hist_legal in Hl'. rewrite Hh, PL.wops_legal_snoc in Hl'.
    apply andb_true_iff in Hl'. destruct Hl' as [Hl Hlw].
    destruct (IH Hl) as [Hsc Htr Hfl].
    destruct (sc_write _ _ _ _ _ _ _ Hsc Hlw E) as [Hsc' (new & Hj & Hn)].
    constructor; rewrite ?Hh.
    + rewrite PL.spec_wops_snoc. exact Hsc'.
    + rewrite Hj, rtrace_app, Htr, (sc_cur _ _ _ Hsc), Hn, htrace_app. simpl. now rewrite app_nil_r.
    + simpl. intros cb U n Hin. destruct (Hfl cb U n Hin) as [Hn1 Hn2]. split.
      { rewrite app_length. lia. }
      rewrite firstn_app. replace (n - length (PL.hist z))%nat with 0%nat by lia.
      simpl. rewrite app_nil_r.
      assert (Hext : exists more, rec_ends (gfold (z_core z) (SmFacts.wrecs (z_core z) w) G) = rec_ends G ++ more).
      { refine (write_ext (fun G' => exists more, rec_ends G' = rec_ends G ++ more) _ _ _ _ _ _ _
                  (SC_glast _ _ _ Hsc) _ E); [|exists []; now rewrite app_nil_r].
        intros G1 G2 Hx [m1 E1]. destruct (jext_rec_ends _ _ Hx) as [m2 E2].
        exists (m1 ++ m2). now rewrite E2, E1, app_assoc. }
      destruct Hext as [more Em].
      pose proof (nb_app_ge G more U) as Hge. unfold nb at 1. rewrite Em. lia.
  - destruct (IH Hl') as [Hsc Htr Hfl].
    assert (Hlen : length (g_writes (z_ghost z)) = length (PL.hist z))
      by (unfold PL.hist; now rewrite map_length).
    constructor; change (PL.hist (AF.after_flush z cb)) with (PL.hist z).
    + eapply SC_core; [| |exact Hsc]; reflexivity.
    + exact Htr.
    + intros cb0 U n Hin. cbn [AF.after_flush AF.flush_ghost z_ghost set_ghost g_flushed] in Hin.
      apply in_app_or in Hin. destruct Hin as [Hin|[Hin|[]]].
      { exact (Hfl cb0 U n Hin). }
      inversion Hin; subst cb0 U n. rewrite Hlen. split; [lia|].
      rewrite firstn_all, <- Htr, rtrace_length, (nb_open_end _ _ _ _ (ji_gi _ _ J)). lia.
  - rewrite gstep_other by exact Hn. apply (SP_frame z); [exact Hc|exact Hw|exact Hf|].
    apply IH. unfold PL.hist_legal, PL.hist in *. now rewrite <- Hw.
Qed.

Lemma SP_init cfg : SP (AF.zstart cfg) G_init.
Proof.
  constructor.
  - constructor.
    + simpl. exists []. split; [reflexivity|]. split; exact I.
    + reflexivity.
    + apply R0_new.
    + exists [], [RState rstate0]. reflexivity.
  - reflexivity.
  - intros cb U n [].
Qed.

Theorem L2_spec : forall cfg z, zreach cfg z -> hist_wf z -> PL.hist_legal z ->
  exists G, JI z G /\ SP z G.
Proof.
  intros cfg z Hr Hw Hl.
  destruct (L2_journal_ind (fun z G => PL.hist_legal z -> SP z G) cfg) with (z := z)
    as (G & J & HP); try assumption.
  - intros _. apply SP_init.
  - intros z0 e z1 v G F J _ IH Hs Hl1. eapply SP_step; eauto.
  - exists G. split; [exact J|]. apply HP, Hl.
Qed.

Print Assumptions L2_spec.
