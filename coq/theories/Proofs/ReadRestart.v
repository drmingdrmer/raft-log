(* Property C07 across one clean restart, for arbitrary cache limits.  The invariant [FJ] of RestartInv.v,
   which a run under any cache limits maintains, is taken with the statement [P7] about the replayed
   caches: the eviction-tolerant cache invariant of ReadCache.v, kept by the same per-record lemma
   ([rec_sw_sim7]) as on the live run, for the replay under EVERY configuration.  So at a flushed idle
   state the directory opens under any [cfg'] and the cache invariant of the reopened store is read off
   [FJ] ([FJ_opens]); what remains is the known class F2 as it shows at a restart ([restart_ok]). *)
From Coq Require Import List NArith Bool Lia Sorted.
From Coq.Strings Require Import Byte.
From RaftLog Require Import Base.Bytes Model.Types Model.Codec Model.Cache Model.Core Model.Recover Model.Run Spec.Spec Spec.Hist.
From RaftLog Require Import Proofs.RecoverFacts.
From RaftLog Require Import Proofs.CodecFacts Proofs.JournalDisk Proofs.JournalChunk Proofs.JournalFacts Proofs.PurgeFacts.
From RaftLog Require Import Proofs.OrderFacts Proofs.Refine Proofs.PurgeLive Proofs.ReadCache Proofs.ReadInv Proofs.ReadFacts.
From RaftLog Require Import Proofs.RestartSim Proofs.RestartInv Proofs.RestartFacts Proofs.RestartCycles.
Import ListNotations.
Local Open Scope N_scope.


(* ================================================================== the cache of a replay *)
(* readable without the cache: stored in an older file, or at or below the boundary in force *)
Definition Q7 (o : N) (ev : option logid) (ld : logdata) : Prop :=
  ld_chunk ld < o \/ opair_leb (Some (ld_id ld)) ev = true.

Definition newest_id (G : list jfile) : N := fst (last G (0, [])).

Definition P7 (_ _ : N) (G : list jfile) (sp : spec) (t : sm) : Prop :=
  CIs t sp (Q7 (newest_id G) (ch_evictable (m_cache t))).
Definition ok7 (_ _ : N) : Prop := True.

Lemma newest_id_snoc G g : newest_id (G ++ [g]) = fst g.
Proof. unfold newest_id. rewrite last_last. reflexivity. Qed.

Lemma P7_step s sp sp' r sw n0 b0 n b : Rlog s sp -> rec_sw sp r sw -> spec_step sp sw = Some sp' ->
  forall G1 o rs lo t seg, rel lo s t -> lo <= o -> P7 n0 b0 (G1 ++ [(o, rs)]) sp t ->
    P7 n b (G1 ++ [(o, rs ++ [r])]) sp' (fst (sm_apply t r o seg)).
Proof.
  intros HL Hw Es G1 o rs lo t seg [Ers Elog] _ HP. unfold P7 in *. rewrite newest_id_snoc in *.
  rewrite sm_apply_evictable.
  assert (H : step_sim7 t sp r sw (Q7 o (ch_evictable (m_cache t)))).
  { apply (rec_sw_sim7 s); [apply R0_Rlog, HL|exact Ers| |exact HP|exact Hw|].
    - intros e He. rewrite Elog in He. apply filter_In in He. apply He.
    - intros id p c seg0 _ _ Hle. right. exact Hle. }
  unfold step_sim7 in H. rewrite Es in H. apply H.
Qed.

Lemma P7_entry : forall s sp sp' id p n b, Rlog s sp -> spec_step sp (SEntry id p) = Some sp' ->
  pstep P7 s sp sp' (RAppend id p) (n + 1) (b + psize p) n b.
Proof.
  intros s sp sp' id p n b HL Es. split; [|apply (P7_step s sp sp' _ _ _ _ _ _ HL (WsEntry sp id p) Es)].
  intros id0 p0 E. inversion E; subst id0 p0. destruct (spec_entry_inv sp id p sp' Es) as (_ & H1 & H2 & _).
  apply (entry_above s sp id p HL H1 H2).
Qed.

Lemma P7_rec : forall s sp sp' r sw n b, Rlog s sp -> rec_sw sp r sw ->
  match r with RAppend _ _ => False | _ => True end -> spec_step sp sw = Some sp' ->
  pstep P7 s sp sp' r n b n b.
Proof.
  intros s sp sp' r sw n b HL Hw Hr Es. split; [|apply (P7_step s sp sp' _ _ _ _ _ _ HL Hw Es)].
  intros id p E. subst r. destruct Hr.
Qed.

Lemma P7_new cfg' : forall n b sp st off, ok7 n b ->
  P7 n b [(off, [RState st])] sp (fst (chunk_replay (sm_new cfg') (off, [RState st]))).
Proof.
  intros n b sp st off _. rewrite chunk_replay_head. constructor; cbn.
  - constructor.
  - intros e [].
  - intros id p p' _ [].
  - intros i ld p [].
  - intros i ld p [].
Qed.

Lemma P7_old : forall s n b sp g G1 t off, rel (fst g) s t ->
  (forall e, In e (m_log s) -> ld_chunk (snd e) < off) -> P7 n b (g :: G1) sp t ->
  P7 n b ((g :: G1) ++ [(off, [RState (m_rs s)])]) sp (fst (chunk_replay t (off, [RState (m_rs s)]))).
Proof.
  intros s n b sp g G1 t off [_ Elog] Hch HP. rewrite chunk_replay_head. unfold P7, CIs in *.
  rewrite newest_id_snoc. cbn [fst m_log m_cache].
  apply (CI_reboot _ _ _ _ _ _ HP); [reflexivity| |].
  - intros i ld Hl _. left. rewrite Elog in Hl. apply filter_In in Hl. apply (Hch _ (proj1 Hl)).
  - intros i ld p _ _ Hle. right. exact Hle.
Qed.

Definition FJ7 (c : config) (y : sys) (sp : spec) : Prop := FJ c P7 ok7 y sp 0 0.

Lemma fj7_run_op c y sp o : FJ7 c y sp -> op_c07 sp o = true -> op_wf o ->
  exists y' r, run_op y o = (Some y', r) /\ FJ7 c y' (spec_op sp o).
Proof.
  intros F Hc Hw.
  apply (fj_run_op c P7 ok7 (fun _ _ _ _ _ _ _ H _ _ => H) (fun _ _ _ _ H _ _ => H) P7_entry P7_rec
           (P7_new c) P7_old y sp o 0 0); [|destruct o; try discriminate Hc; try reflexivity; exact Hc
           |destruct o; try discriminate Hc; exact I|exact Hw].
  destruct F as [A B C D E]. constructor; assumption.
Qed.

(* ================================================================== the known class at a restart *)
(* The eviction boundary that [open_dir] installs for the newest chunk file: none when
   that file is the oldest one in the directory, else the last log id of the snapshot
   that heads the file (the state when the previous chunk was closed). *)
Definition disk_bound (d : disk) (o : N) : option logid :=
  match d with
  | [] => None
  | f :: _ =>
    if N.eqb (f_id f) o then None
    else match disk_get o d with
         | Some fo => match dec_record (f_data fo) with
                      | DOk (RState st, _) => r_last st
                      | _ => None
                      end
         | None => None
         end
  end.
Definition restart_bound (y : sys) : option logid :=
  disk_bound (y_disk y) (ck_id (k_open (y_core y))).

(* every live entry stored in the open chunk is above that boundary *)
Definition restart_ok (y : sys) : bool :=
  forallb (fun e => negb (N.eqb (ld_chunk (snd e)) (ck_id (k_open (y_core y))))
                    || opair_ltb (restart_bound y) (Some (ld_id (snd e))))
          (m_log (k_sm (y_core y))).

Lemma closed_files_last : forall G t0 t1, G <> [] -> replay_files t0 G = (t1, None) ->
  prev_last_of (closed_files t0 G) = r_last (m_rs t1).
Proof.
  induction G as [|g G IH]; intros t0 t1 Hne H; [congruence|].
  apply replay_files_cons_inv in H as (ta & Ec & H). cbn [closed_files]. rewrite Ec. cbn [fst].
  destruct G as [|g' G'].
  - cbn [replay_files] in H. inversion H; subst. reflexivity.
  - assert (Hne' : g' :: G' <> []) by discriminate.
    specialize (IH ta t1 Hne' H). unfold prev_last_of in *.
    remember (closed_files ta (g' :: G')) as cl eqn:Ecl.
    destruct cl as [|c cl']; [cbn [closed_files] in Ecl; discriminate Ecl|].
    cbn [split_last]. cbn [split_last] in IH.
    destruct cl' as [|c' cl'']; [exact IH|].
    destruct (split_last (c' :: cl'')) as [[i z]|]; exact IH.
Qed.

(* ================================================================== the boundary after a replay *)
Lemma replay_evictable s id start rs s1 : rapply s id start rs = (s1, None) ->
  ch_evictable (m_cache s1) = ch_evictable (m_cache s).
Proof.
  apply (rapply_ind (fun _ t => ch_evictable (m_cache t) = ch_evictable (m_cache s))); [reflexivity|].
  intros done r t t1 IH _ Ha. pose proof (sm_apply_evictable t r id (start + rsum done, rec_size r)) as H.
  rewrite Ha in H. cbn [fst] in H. congruence.
Qed.

(* the boundary in force after replaying the files of a directory, and the one recorded for its
   newest file, are [disk_bound] *)
Lemma replay_bound cfg' d G0 o rs t cur :
  dsorted d -> ids d = map fst (G0 ++ [(o, rs)]) ->
  Forall (file_ok (file_bytes d)) (G0 ++ [(o, rs)]) ->
  Chain cur (G0 ++ [(o, rs)]) ->
  replay_files (sm_new cfg') (G0 ++ [(o, rs)]) = (t, None) ->
  prev_last_of (closed_files (sm_new cfg') G0) = disk_bound d o /\
  ch_evictable (m_cache t) = disk_bound d o.
Proof.
  intros Sd Gids Hfok HC Hrep.
  set (G := G0 ++ [(o, rs)]) in *.
  assert (Hfb : forall g, In g G -> file_bytes d (fst g) = encs (snd g)).
  { intros g Hg. rewrite Forall_forall in Hfok. apply (Hfok g Hg). }
  assert (Hwf : forall g, In g G -> Forall wf_record (snd g)).
  { intros g Hg. rewrite Forall_forall in Hfok. apply (Hfok g Hg). }
  assert (Hss : StronglySorted N.lt (map fst G)) by (unfold dsorted in Sd; rewrite Gids in Sd; exact Sd).
  assert (Hlt0 : forall g, In g G0 -> fst g < o).
  { intros g Hg. unfold G in Hss. rewrite map_app in Hss. apply ss_app_inv in Hss. destruct Hss as (_ & _ & S).
    apply (S (fst g) o); [apply in_map; exact Hg|left; reflexivity]. }
  destruct (replay_files_snoc_inv _ _ _ _ Hrep) as (t1 & Hrep0 & Hrepl).
  set (bnd := r_last (m_rs t1)).
  assert (Hpl : prev_last_of (closed_files (sm_new cfg') G0) = bnd).
  { destruct G0 as [|g0 G0'] eqn:EG0.
    - cbn [replay_files] in Hrep0. inversion Hrep0 as [Et1]. unfold bnd. rewrite <- Et1. reflexivity.
    - apply closed_files_last; [discriminate|exact Hrep0]. }
  assert (Hlast : In (o, rs) G) by (unfold G; apply in_or_app; right; left; reflexivity).
  assert (Hrs : exists st tl, rs = RState st :: tl).
  { rewrite Forall_forall in Hfok. destruct (Hfok _ Hlast) as (_ & _ & H). exact H. }
  destruct Hrs as (st & tl & Ers).
  assert (Hdb : disk_bound d o = bnd).
  { unfold disk_bound. destruct G0 as [|g0 G0'] eqn:EG0.
    - unfold G in Gids. cbn [app map fst] in Gids. destruct d as [|f [|f' d']]; cbn in Gids; try discriminate Gids.
      inversion Gids as [Ef]. cbn [f_id]. rewrite Ef, N.eqb_refl. cbn [replay_files] in Hrep0. inversion Hrep0 as [Et1]. unfold bnd. rewrite <- Et1. reflexivity.
    - unfold G in Gids. cbn [app map fst] in Gids. destruct d as [|f d']; [discriminate Gids|].
      cbn [ids map] in Gids. inversion Gids as [[Ef Erest]].
      assert (Hlt : fst g0 < o) by (apply Hlt0; left; reflexivity).
      destruct (N.eqb_spec (f_id f) o) as [E|_]; [lia|].
      pose proof (Hfb _ Hlast) as Hfo. cbn [fst snd] in Hfo. unfold file_bytes in Hfo.
      destruct (disk_get o (f :: d')) as [fo|].
      + rewrite Hfo, Ers, encs_cons.
        assert (Wst : wf_record (RState st)).
        { specialize (Hwf _ Hlast). cbn [snd] in Hwf. rewrite Ers in Hwf. inversion Hwf. assumption. }
        rewrite (dec_enc_record (RState st) (encs tl) Wst).
        pose proof (proj1 (proj1 (Chain_app (g0 :: G0') [(o, rs)] cur) HC)) as HC0.
        pose proof (replay_files_rs _ _ _ Hrep0) as Hrs'. rewrite (Chain_run _ _ _ HC0) in Hrs' by discriminate.
        inversion Hrs' as [Hrs'']. unfold bnd. rewrite <- Hrs'', Ers. reflexivity.
      + exfalso. rewrite Ers, encs_cons in Hfo.
        pose proof (blen_enc_pos (RState st)) as Hp. apply (f_equal blen) in Hfo.
        rewrite blen_app, blen_nil in Hfo. lia. }
  rewrite Hdb. split; [exact Hpl|].
  exact (replay_evictable _ _ _ _ _ Hrepl).
Qed.

(* ================================================================== the invariant of the reopened store *)
Lemma jw_core_ok y : journal_wf y -> core_ok (y_core y).
Proof.
  intros JW. pose proof (jw_inv _ JW) as J. split; [exact (ji_open_lt_end _ _ _ J)|].
  pose proof (ji_sorted _ _ _ J) as S. rewrite (ji_ids _ _ _ J) in S. unfold chunk_ids in S.
  apply ss_app_inv in S. destruct S as (_ & S & _). exact S.
Qed.

Lemma restart_ok_spec y i ld : restart_ok y = true -> In (i, ld) (m_log (k_sm (y_core y))) ->
  ld_chunk ld = ck_id (k_open (y_core y)) -> opair_leb (Some (ld_id ld)) (restart_bound y) = false.
Proof.
  intros H Hl Hc. unfold restart_ok in H. rewrite forallb_forall in H. specialize (H _ Hl).
  cbn [snd] in H. rewrite Hc, N.eqb_refl in H. cbn [negb orb] in H.
  rewrite opair_ltb_negb_leb in H. apply negb_true_iff in H. exact H.
Qed.

(* [I7] of a store [y'] that stands for the reopened directory of a flushed idle [y], from what
   [restart_I7] knows of it: same directory, state, index map and open chunk; one tracked file, the
   open chunk with the boundary [restart_bound y], which is in force; a replayed cache with [Q7] for
   that chunk and boundary.  [restart_ok y] puts the entries of the open chunk above the boundary, so
   [Q7] of an entry means "in an older chunk", and those are on disk since nothing is pending. *)
Lemma I7_reopened y y' sp :
  I7 y sp -> y_queue y = [] -> k_pending (y_core y) = [] -> restart_ok y = true ->
  journal_wf y' ->
  y_queue y' = [] -> k_pending (y_core y') = [] -> y_disk y' = y_disk y ->
  ck_id (k_open (y_core y')) = ck_id (k_open (y_core y)) ->
  y_files y' = [mkWF (ck_id (k_open (y_core y))) (restart_bound y)] ->
  ch_evictable (m_cache (k_sm (y_core y'))) = restart_bound y ->
  m_rs (k_sm (y_core y')) = m_rs (k_sm (y_core y)) ->
  m_log (k_sm (y_core y')) = m_log (k_sm (y_core y)) ->
  Jc (y_core y') ->
  CIs (k_sm (y_core y')) sp (Q7 (ck_id (k_open (y_core y))) (restart_bound y)) ->
  I7 y' sp.
Proof.
  intros HI Hq Hpend Hrok JW' Hq' Hpend' Hd' Ho' Hf' Hev' Ers Elog HJc HC7.
  pose proof HI as [(HR & HJ & Hk) JW HPL HC HEB HML].
  set (o := ck_id (k_open (y_core y))) in *. set (bnd := restart_bound y) in *.
  assert (HR' : R0 (k_sm (y_core y')) sp).
  { apply (R0_same _ sp _ sp HR eq_refl eq_refl Elog). rewrite Ers. apply (R0_rs _ _ HR). }
  assert (HK' : KInv (y_core y') sp).
  { split; [exact HR'|]. split; [|apply jw_core_ok; exact JW'].
    constructor.
    - exact (Jc_in _ HJc).
    - exact (Jc_le _ HJc). }
  assert (Ely : logical y = y_disk y) by (apply C11_idle_disk_is_journal; assumption).
  assert (Ely' : logical y' = y_disk y) by (rewrite <- Hd'; apply C11_idle_disk_is_journal; assumption).
  assert (HPL' : PL y' sp).
  { intros i ld p Hl Hp Hin. rewrite Ely' in *. rewrite <- Ely in *. rewrite Elog in Hl.
    apply (HPL i ld p Hl Hp Hin). }
  assert (Habove : forall i ld, In (i, ld) (m_log (k_sm (y_core y'))) -> ld_chunk ld = o ->
            opair_leb (Some (ld_id ld)) bnd = false).
  { intros i ld Hl Hc. rewrite Elog in Hl. apply (restart_ok_spec y i ld Hrok Hl Hc). }
  (* readable without the cache: in an older file, hence completely on disk *)
  assert (Hq7 : forall i ld, In (i, ld) (m_log (k_sm (y_core y'))) -> Q7 o bnd ld -> ld_chunk ld < o /\ OnDisk y' ld).
  { intros i ld Hl HQ.
    assert (Hlt : ld_chunk ld < o).
    { destruct HQ as [H|H]; [exact H|]. pose proof (log_chunk_le y' i ld JW' Hl) as Hle. rewrite Ho' in Hle. fold o in Hle.
      destruct (N.eq_dec (ld_chunk ld) o) as [Ec|Ec]; [|lia]. rewrite (Habove i ld Hl Ec) in H. discriminate H. }
    split; [exact Hlt|]. destruct (log_key_in0 _ sp (i, ld) HR' Hl) as [[id p] [Hp [_ Hid]]]. cbn [fst snd] in Hid. subst id.
    apply (ondisk_quiet y' sp i ld p HK' JW' HPL' Hq' Hl Hp). rewrite Ho'. fold o. lia. }
  constructor.
  - exact HK'.
  - exact JW'.
  - exact HPL'.
  - unfold CIs in *. rewrite <- Hev' in HC7. apply (CI_reboot _ _ _ _ _ _ HC7 eq_refl).
    + intros i ld Hl HQ. rewrite Hev' in HQ. apply (Hq7 i ld Hl HQ).
    + intros i ld p Hl _ Hle. apply (Hq7 i ld Hl). right. rewrite <- Hev'. exact Hle.
  - intros fid b i ld p Hb Hl Hp Hle. unfold fbounds in Hb. rewrite Hf', Hq' in Hb.
    cbn [map wf_fb wf_id wf_prev_last flat_map app] in Hb. destruct Hb as [Hb|[]]. inversion Hb; subst fid b.
    apply (Hq7 i ld Hl). right. exact Hle.
  - unfold fbounds. rewrite Hf', Hq'. cbn. repeat constructor.
Qed.

(* ================================================================== histories *)
(* [FJ7]: the journal invariant [RestartInv.FJ] with [P7] for the replayed caches; a history outside
   the class keeps it under every cache [c] at once, which is what a later restart under any [cfg'] needs *)
Lemma fj7_run_ops c : forall ops y sp res y',
  FJ7 c y sp -> ops_c07 sp ops = true -> Forall op_wf ops -> run_ops y ops = (res, Some y') ->
  FJ7 c y' (spec_ops sp ops).
Proof.
  induction ops as [|o r IH]; intros y sp res y' F Hp Hwf Hrun.
  - cbn [run_ops] in Hrun. inversion Hrun. subst. exact F.
  - cbn [ops_c07] in Hp. apply andb_true_iff in Hp. destruct Hp as [Hp1 Hp2].
    inversion Hwf as [|? ? Hw1 Hw2]; subst.
    destruct (fj7_run_op c y sp o F Hp1 Hw1) as (y1 & r0 & Hop & F').
    cbn [run_ops] in Hrun. rewrite Hop in Hrun.
    destruct (run_ops y1 r) as [rs fin'] eqn:Er. inversion Hrun. subst.
    apply (IH y1 (spec_op sp o) rs y' F' Hp2 Hw2 Er).
Qed.

Lemma FJ7_init c cfg : FJ7 c (sys0 cfg) spec0.
Proof. apply (FJ_init c P7 ok7 (P7_new c) P7_old). exact I. Qed.

(* ================================================================== one clean restart *)
(* [FJ_opens] opens the directory and gives [P7] of the reopened state machine; [I7_reopened] turns it
   into [I7]; the last three conjuncts say what [ReadRestarts.restart_gen] needs to keep [Bhead] *)
Lemma restart_I7 cfg' y sp :
  I7 y sp -> restart_ok y = true -> (forall c, FJ7 c y sp) ->
  y_queue y = [] -> k_pending (y_core y) = [] ->
  exists y', open_dir cfg' (y_disk y) = OpenOk y' /\ I7 y' sp /\ (forall c, FJ7 c y' sp) /\
    logical y' = logical y /\ ck_id (k_open (y_core y')) = ck_id (k_open (y_core y)) /\
    fbounds y' = [(ck_id (k_open (y_core y)), restart_bound y)].
Proof.
  intros HI Hrok F Hq Hpend.
  destruct (FJ_opens cfg' P7 ok7 y sp 0 0 (F cfg') Hq Hpend) as (y' & G0 & o & rs & Hopen & RJ & HP).
  assert (F' : forall c, FJ7 c y' sp).
  { intros c. apply (reopen_FJ _ _ _ _ _ _ _ _ _ _ _ _ _ (F cfg') (F c) Hq Hpend Hopen). }
  pose proof (fj_jw _ _ _ _ _ _ _ (F cfg')) as JW.
  destruct (gc_gj _ _ (rj_gc _ _ _ _ _ _ RJ)) as [Gids Gfiles].
  rewrite (C11_idle_disk_is_journal y JW Hq Hpend) in Gids, Gfiles.
  destruct (replay_bound cfg' (y_disk y) G0 o rs _ _ (jw_sorted _ JW) (eq_sym Gids) Gfiles
              (gc_chain _ _ (rj_gc _ _ _ _ _ _ RJ)) (rj_replay _ _ _ _ _ _ RJ)) as (Hpl & Hev).
  pose proof (rj_o _ _ _ _ _ _ RJ) as Eo.
  assert (Ebnd : disk_bound (y_disk y) o = restart_bound y) by (unfold restart_bound; rewrite Eo; reflexivity).
  rewrite Ebnd in *. unfold P7 in HP. rewrite newest_id_snoc, Hev in HP. cbn [fst] in HP. rewrite Eo in HP.
  assert (Ef : y_files y' = [mkWF (ck_id (k_open (y_core y))) (restart_bound y)]).
  { rewrite (rj_files _ _ _ _ _ _ RJ), Hpl, Eo. reflexivity. }
  exists y'. split; [exact Hopen|].
  split; [|split; [exact F'|split; [apply (rj_logical _ _ _ _ _ _ RJ)|split;
    [rewrite (rj_open _ _ _ _ _ _ RJ); exact Eo|]]]].
  - apply (I7_reopened y y' sp HI Hq Hpend Hrok (fj_jw _ _ _ _ _ _ _ (F' cfg')) (rj_queue _ _ _ _ _ _ RJ)
             (rj_pending _ _ _ _ _ _ RJ) (rj_disk _ _ _ _ _ _ RJ)); try assumption.
    + rewrite (rj_open _ _ _ _ _ _ RJ). exact Eo.
    + apply (rj_rs _ _ _ _ _ _ RJ).
    + apply (rj_log _ _ _ _ _ _ RJ).
    + apply (fj_Jc _ _ _ _ _ _ _ (F' cfg')).
  - unfold fbounds. rewrite Ef, (rj_queue _ _ _ _ _ _ RJ). reflexivity.
Qed.

(* ================================================================== C07 across one clean restart *)
Theorem C07_restart_reads_total : forall cfg cfg' ops res y,
  ops_c07 spec0 ops = true -> Forall op_wf ops ->
  (match open_dir cfg [] with OpenOk y0 => run_ok_c07b y0 ops = true | _ => False end) ->
  run_case cfg ops = (res, Some y) ->
  y_queue y = [] -> k_pending (y_core y) = [] ->
  restart_ok y = true ->
  exists y', open_dir cfg' (y_disk y) = OpenOk y' /\ observes y' (spec_ops spec0 ops) /\
             I7 y' (spec_ops spec0 ops).
Proof.
  intros cfg cfg' ops res y Hc Hw Hok Hrun Hq Hpend Hrok.
  set (sp := spec_ops spec0 ops).
  assert (Hrun0 : run_ops (sys0 cfg) ops = (res, Some y)).
  { unfold run_case in Hrun. rewrite open_dir_nil in Hrun. exact Hrun. }
  rewrite open_dir_nil in Hok.
  destruct (I7_run_ops ops (sys0 cfg) spec0 res (Some y) (I7_init cfg) Hc Hw Hok Hrun0) as (y0 & E & HI).
  inversion E; subst y0.
  assert (F : forall c, FJ7 c y sp).
  { intros c. apply (fj7_run_ops c ops (sys0 cfg) spec0 res y (FJ7_init c cfg) Hc Hw Hrun0). }
  destruct (restart_I7 cfg' y sp HI Hrok F Hq Hpend) as (y' & Ho & HI' & _).
  exists y'. split; [exact Ho|]. split; [apply I7_observes; exact HI'|exact HI'].
Qed.

(* The reopened store continues: any further history without restart whose appends stay
   above the boundaries of the reopened store is observed as the reference log of the whole
   history. *)
Theorem C07_restart_continue : forall cfg cfg' ops ops2 res y,
  ops_c07 spec0 ops = true -> Forall op_wf ops ->
  (match open_dir cfg [] with OpenOk y0 => run_ok_c07b y0 ops = true | _ => False end) ->
  run_case cfg ops = (res, Some y) ->
  y_queue y = [] -> k_pending (y_core y) = [] ->
  restart_ok y = true ->
  exists y', open_dir cfg' (y_disk y) = OpenOk y' /\
    forall res2 fin,
      ops_c07 (spec_ops spec0 ops) ops2 = true -> Forall op_wf ops2 -> run_ok_c07b y' ops2 = true ->
      run_ops y' ops2 = (res2, fin) ->
      exists y2, fin = Some y2 /\ observes y2 (spec_ops spec0 (ops ++ ops2)) /\
                 I7 y2 (spec_ops spec0 (ops ++ ops2)).
Proof.
  intros cfg cfg' ops ops2 res y Hc Hw Hok Hrun Hq Hpend Hrok.
  destruct (C07_restart_reads_total cfg cfg' ops res y Hc Hw Hok Hrun Hq Hpend Hrok) as (y' & Ho & _ & HI').
  exists y'. split; [exact Ho|]. intros res2 fin Hc2 Hw2 Hok2 Hrun2.
  destruct (I7_run_ops ops2 y' _ res2 fin HI' Hc2 Hw2 Hok2 Hrun2) as (y2 & E & HI2).
  exists y2. split; [exact E|].
  assert (Esp : spec_ops spec0 (ops ++ ops2) = spec_ops (spec_ops spec0 ops) ops2).
  { unfold spec_ops. apply fold_left_app. }
  rewrite Esp. split; [apply I7_observes; exact HI2|exact HI2].
Qed.

(* ================================================================== the side condition is needed *)
(* A Raft-legal history under a cache that never evicts (10 items): three entries at term 5
   fill the first chunk, the log is truncated to nothing and (1,0) is appended into the
   second chunk, whose head snapshot records last = (5,2).  Flushed, worker idle; the store
   reads (1,0) back.  [restart_ok] is false.  Reopened with a cache of zero items the live
   entry (1,0) is evicted while it sits in the chunk that is open again: reading it
   returns an error. *)
Definition rr_cfg : config := mkConfig 10 1000 4 100000 true.
Definition rr_ops : list op :=
  [OW (OAppend [((5, 0), []); ((5, 1), []); ((5, 2), [])]); OW (OTruncate 0);
   OW (OAppend [((1, 0), [])]); OFlush true; OIdle].

Theorem C07_restart_refuted : exists cfg cfg' ops res y,
  ops_c07 spec0 ops = true /\ Forall op_wf ops /\
  run_case cfg ops = (res, Some y) /\ y_queue y = [] /\ k_pending (y_core y) = [] /\
  sp_entries (spec_ops spec0 ops) = [((1, 0), [])] /\
  snd (do_read (y_core y) (y_disk y) 0 1) = [RIOk (1, 0) []] /\
  restart_bound y = Some (5, 2) /\ restart_ok y = false /\
  exists y', open_dir cfg' (y_disk y) = OpenOk y' /\
    snd (do_read (y_core y') (y_disk y') 0 1) = [RIErr KNotFound] /\
    ~ observes y' (spec_ops spec0 ops).
Proof.
  (* only what is claimed of [y] and [y'] is evaluated, in one step: the kernel's lazy machine, which
     coqchk uses for a [vm_compute] step, does not normalise the rest of the two states *)
  assert (H : match run_case rr_cfg rr_ops with
              | (_, Some y) =>
                match open_dir c07_cfg (y_disk y) with
                | OpenOk y' =>
                  Some (y_queue y, k_pending (y_core y), snd (do_read (y_core y) (y_disk y) 0 1),
                        restart_bound y, restart_ok y, snd (do_read (y_core y') (y_disk y') 0 1))
                | OpenErr _ _ => None
                end
              | (_, None) => None
              end = Some ([], [], [RIOk (1, 0) []], Some (5, 2), false, [RIErr KNotFound]))
    by (vm_compute; reflexivity).
  destruct (run_case rr_cfg rr_ops) as [res [y|]] eqn:Er; [|discriminate H].
  destruct (open_dir c07_cfg (y_disk y)) as [y'|] eqn:Eo; [|discriminate H].
  injection H as H1 H2 H3 H4 H5 H6.
  exists rr_cfg, c07_cfg, rr_ops, res, y.
  split; [reflexivity|]. split.
  { unfold rr_ops. repeat constructor; cbn; unfold wf_pair, wf_u64, wf_bytes; cbn; lia. }
  split; [exact Er|]. split; [exact H1|]. split; [exact H2|]. split; [reflexivity|].
  split; [exact H3|]. split; [exact H4|]. split; [exact H5|].
  exists y'. split; [exact Eo|]. split; [exact H6|].
  intros (_ & Hread & _). specialize (Hread 0 1). rewrite H6 in Hread. vm_compute in Hread. discriminate Hread.
Qed.

(* ================================================================== the hypotheses are satisfiable *)
(* a zero-size cache, chunks of three records: rotations, eviction, truncation with
   re-append above the boundaries, drain, purge, and a final append that lives in the
   newest chunk; reopened with a zero-size cache every live entry is read back *)
Example C07_restart_hyps_inhabited :
  let cfg := mkConfig 0 0 3 100000 true in
  let cfg' := mkConfig 0 0 5 100000 false in
  let ops := [OW (OAppend [((1, 0), [x01]); ((1, 1), []); ((1, 2), [])]); OFlush true; OIdle;
              OW (OTruncate 2); OW (OAppend [((2, 2), []); ((2, 3), [])]); ODrain; ORead 0 10;
              OW (OPurge (1, 0)); OFlush false; OIdle;
              OW (OAppend [((3, 4), [x02])]); OFlush true; OIdle] in
  ops_c07 spec0 ops = true /\ Forall op_wf ops /\
  (match open_dir cfg [] with OpenOk y0 => run_ok_c07b y0 ops = true | _ => False end) /\
  exists res y, run_case cfg ops = (res, Some y) /\ y_queue y = [] /\ k_pending (y_core y) = [] /\
    restart_ok y = true /\
    exists y', open_dir cfg' (y_disk y) = OpenOk y' /\
      snd (do_read (y_core y') (y_disk y') 0 10) =
        [RIOk (1, 1) []; RIOk (2, 2) []; RIOk (2, 3) []; RIOk (3, 4) [x02]].
Proof.
  cbv zeta. split; [vm_compute; reflexivity|]. split.
  { repeat constructor; cbn; unfold wf_pair, wf_u64, wf_bytes; cbn; lia. }
  split; [vm_compute; reflexivity|].
  set (r := run_case _ _). set (cfg' := mkConfig 0 0 5 100000 false).
  assert (H : match r with
              | (_, Some y) =>
                match open_dir cfg' (y_disk y) with
                | OpenOk y' => Some (y_queue y, k_pending (y_core y), restart_ok y,
                                     snd (do_read (y_core y') (y_disk y') 0 10))
                | OpenErr _ _ => None
                end
              | (_, None) => None
              end = Some ([], [], true, [RIOk (1, 1) []; RIOk (2, 2) []; RIOk (2, 3) []; RIOk (3, 4) [x02]]))
    by (vm_compute; reflexivity).
  clearbody r. destruct r as [res [y|]]; [|discriminate H].
  destruct (open_dir cfg' (y_disk y)) as [y'|] eqn:Eo; [|discriminate H].
  injection H as H1 H2 H3 H4. exists res, y. eauto 10.
Qed.

Print Assumptions C07_restart_reads_total.
Print Assumptions C07_restart_continue.
Print Assumptions C07_restart_refuted.
Print Assumptions C07_restart_hyps_inhabited.
