(* C02 / C15 bridge: after a clean restart the cache invariant [cinv] of CacheSys.v holds in
   the reopened state; a case of CacheRestart.JI_reopen. *)
From Coq Require Import List Bool.
From RaftLog Require Import Model.Core Model.Recover Model.Run Spec.Spec Spec.Hist.
From RaftLog Require Import Proofs.JournalFacts.
From RaftLog Require Proofs.CacheSys Proofs.CacheRestart.
Import ListNotations.

Lemma ops_plain_c15 : forall ops sp, ops_plain sp ops = true -> forallb CacheRestart.op_c15 ops = true.
Proof.
  induction ops as [|o ops IH]; intros sp H; [reflexivity|].
  cbn [ops_plain forallb] in *. apply andb_true_iff in H. destruct H as [H1 H2].
  rewrite (IH _ H2), andb_true_r.
  destruct o as [[]| | | | | | | |]; try reflexivity. discriminate H1.
Qed.

Theorem C02_restart_cinv : forall cfg cfg' ops res y,
  ops_plain spec0 ops = true -> Forall op_wf ops ->
  big_cache cfg ops -> big_cache cfg' ops ->
  run_case cfg ops = (res, Some y) ->
  y_queue y = [] -> k_pending (y_core y) = [] ->
  exists y', open_dir cfg' (y_disk y) = OpenOk y' /\ CacheSys.sys_cinv y'.
Proof.
  intros cfg cfg' ops res y Hp Hwf _ _ Hrun Hq _.
  destruct (CacheRestart.JIC_run_case cfg ops res y (ops_plain_c15 _ _ Hp) Hwf Hrun) as [F _].
  destruct (CacheRestart.JI_reopen cfg' y F Hq) as (y' & Ho & _ & C). exists y'. split; assumption.
Qed.

Print Assumptions C02_restart_cinv.
