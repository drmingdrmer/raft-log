(* Mark-independent iteration of crash recovery: crash images outside the gap class are
   sorted and chained whatever the synced marks of the start directory, so
   C05_recovers_outside_known_from_any_marks applies again to the instance opened on them. *)
From Coq Require Import List.
From RaftLog Require Import Model.Core Model.Recover Model.Run Model.Sys.
From RaftLog Require Import Proofs.NoPanic.
From RaftLog Require Import Proofs.CrashSteps.
From RaftLog Require Import Proofs.CrashRecover.
From RaftLog Require Import Proofs.RestartCrashIter Proofs.RestartCrashErase.
Local Open Scope N_scope.

Theorem crash_image_chained_any : forall cfg d z d',
  disk_sorted d -> RC.dir_chained d -> RSy.zreach_from cfg d z -> hist_wf z -> crash_image z d' ->
  ~ gap_class d' -> disk_sorted d' /\ RC.dir_chained d'.
Proof.
  intros cfg d z d' Hs Hch Hr Hw Hc Hng. pose proof (journalled_any cfg d z Hs Hch Hr Hw) as Hj.
  split; [exact (crash_image_sorted z d' (proj1 Hj) Hc)|exact (crash_image_chained_gen z d' Hj Hc Hng)].
Qed.

(* crash -> reopen -> crash -> ... without any reboot step *)
Theorem C05_recovers_again_any : forall cfg cfg' cfg'' d z1 d1 z2 d2,
  disk_sorted d -> RC.dir_chained d -> RSy.zreach_from cfg d z1 -> hist_wf z1 -> crash_image z1 d1 ->
  ~ gap_class d1 -> RSy.zreach_from cfg' d1 z2 -> hist_wf z2 -> crash_image z2 d2 -> ~ gap_class d2 ->
  c_truncate cfg'' = true ->
  exists y, open_dir cfg'' d2 = OpenOk y /\ sys_ok y /\
            (forall ops res fin, run_ops y ops = (res, fin) -> ~ In ResPanic res).
Proof.
  intros cfg cfg' cfg'' d z1 d1 z2 d2 Hs Hch Hr1 Hw1 Hc1 Hg1 Hr2 Hw2 Hc2 Hg2 Ht.
  destruct (crash_image_chained_any cfg d z1 d1 Hs Hch Hr1 Hw1 Hc1 Hg1) as [Hs1 Hch1].
  eapply (C05_recovers_outside_known_from_any_marks cfg' cfg'' d1 z2 d2); eauto.
Qed.

Print Assumptions crash_image_chained_any.
Print Assumptions C05_recovers_again_any.
