(* C03: crash safety of the L2 system.  After a crash at any moment, outside the known failure class
   of C05, the reopened store shows exactly the reference-log state after some number k of journalled
   records, with acked z <= k <= issued z, also when older chunk files have been removed after a purge
   ([image_reopens], [C03_recovers]).  The lower bound rests on C08: a chunk file is unlinked only
   after the flush that carried its removal request is durable. *)
From Coq Require Import List NArith Bool Lia Arith Sorting.Sorted.
From RaftLog Require Import Base.Bytes Model.Types Model.Codec Model.Core
  Model.Recover Model.Run Model.Sys Spec.Spec Spec.Durable.
From RaftLog Require Import Proofs.CodecFacts Proofs.ScanFacts Proofs.RecoverFacts
  Proofs.OrderFacts Proofs.Refine.
From RaftLog Require Proofs.JournalDisk Proofs.JournalChunk Proofs.PurgeFacts
  Proofs.PurgeDurable.
From RaftLog Require Import Proofs.CrashBase Proofs.CrashJournal Proofs.CrashSteps Proofs.CrashRecover
  Proofs.CrashSpec Proofs.CrashPrefix Proofs.CrashSuffix Proofs.CrashRemoved.
Import ListNotations.
Local Open Scope N_scope.
Local Arguments enc_record : simpl never.

(* number of records journalled so far *)
Definition issued (z : sys2) : nat := length (htrace spec0 (PL.hist z)).

(* number of records journalled before a flush whose callback has reported success *)
Definition ack_of (z : sys2) (e : option N * N * nat) : nat :=
  match e with
  | (Some c, _, n) =>
    if existsb (fun a => N.eqb (fst a) c && snd a) (z_acks z)
    then length (htrace spec0 (firstn n (PL.hist z))) else 0%nat
  | _ => 0%nat
  end.
Definition acked (z : sys2) : nat := list_max (map (ack_of z) (g_flushed (z_ghost z))).

Lemma durable_last l f U : durable_upto (l ++ [f]) U -> f_id f < U -> U <= f_id f + f_synced f.
Proof.
  induction l as [|g l IH]; simpl; intros H Hlt.
  - destruct H as [H _]. apply H. exact Hlt.
  - apply IH; [apply H|exact Hlt].
Qed.

Lemma image_keeps f f' : file_image f f' -> forall m,
  (m <= N.to_nat (f_synced f))%nat ->
  firstn m (f_data f') = firstn m (f_data f).
Proof.
  intros (_ & n & k & Hs & Hl & E & _) m Hm.
  rewrite E, firstn_app, firstn_firstn, firstn_length.
  replace (Nat.min m n) with m by lia.
  replace (m - Nat.min n (length (f_data f)))%nat with 0%nat by lia. simpl. now rewrite app_nil_r.
Qed.

Lemma filter_index_bound {A} (p : A -> bool) : forall (l : list A) (j : nat),
  (forall i x, nth_error l i = Some x -> p x = true -> (i < j)%nat) ->
  (length (filter p l) <= j)%nat.
Proof.
  induction l as [|a l IH]; intros j H; simpl; [lia|].
  destruct (p a) eqn:E.
  - pose proof (H 0%nat a eq_refl E). simpl.
    assert (length (filter p l) <= j - 1)%nat; [|lia].
    apply IH. intros i x Hi Hx. pose proof (H (S i) x Hi Hx). lia.
  - apply IH. intros i x Hi Hx. pose proof (H (S i) x Hi Hx). lia.
Qed.

Lemma ends_from_nth rs : forall o i e,
  nth_error (ends_from o (map rec_size rs)) i = Some e ->
  (i < length rs)%nat /\ e = o + N.of_nat (length (encs (firstn (S i) rs))).
Proof.
  induction rs as [|r rs IH]; intros o i e H; simpl in H; [destruct i; discriminate|].
  destruct i as [|i]; simpl in H.
  - inversion H; subst. split; [simpl; lia|]. cbn [firstn]. rewrite encs_cons, encs_nil, app_nil_r.
    reflexivity.
  - destruct (IH _ _ _ H) as [H1 H2]. split; [simpl; lia|].
    rewrite H2. cbn [firstn]. rewrite (encs_cons r), app_length. unfold rec_size. lia.
Qed.

Lemma ends_from_gt rs : forall o e, In e (ends_from o (map rec_size rs)) -> o < e.
Proof.
  induction rs as [|r rs IH]; intros o e H; simpl in H; [destruct H|].
  pose proof (JournalChunk.rec_size_pos r).
  destruct H as [<-|H]; [lia|]. apply IH in H. lia.
Qed.

Lemma tl_firstn_prefix {A} (l : list A) j : exists rest, tl l = tl (firstn j l) ++ rest.
Proof.
  destruct l as [|a l]; [exists []; destruct j; reflexivity|].
  destruct j as [|j]; simpl; [exists l; reflexivity|].
  exists (skipn j l). symmetry. apply firstn_skipn.
Qed.

(* a record whose bytes are all there is among the [j] whole ones: a tail never completes a record *)
Lemma intact_records recs j tl i data' :
  Forall wf_record recs -> tail_shape tl ->
  data' = encs (firstn j recs) ++ tl -> (S i <= length recs)%nat ->
  firstn (length (encs (firstn (S i) recs))) data' = encs (firstn (S i) recs) ->
  (S i <= j)%nat.
Proof.
  intros Hw Ht Ed Hi Hk.
  assert (Hwj : Forall wf_record (firstn j recs)) by now apply Forall_firstn_.
  assert (Hwi : Forall wf_record (firstn (S i) recs)) by now apply Forall_firstn_.
  destruct (scan_tail_shape _ _ Hwj Ht) as [e Es]. rewrite <- Ed in Es.
  rewrite <- (firstn_skipn (length (encs (firstn (S i) recs))) data'), Hk in Es.
  rewrite (scan_file_encs_app _ _ Hwi) in Es.
  destruct (scan_file (skipn (length (encs (firstn (S i) recs))) data')) as [[rs' tl'] e'].
  assert (E1 := f_equal (fun x => length (fst (fst x))) Es). cbn [fst] in E1.
  rewrite app_length, !sized_length, !firstn_length in E1. lia.
Qed.

Lemma nth_error_tl {A} (l : list A) i : nth_error (tl l) i = nth_error l (S i).
Proof. destruct l; [destruct i; reflexivity|reflexivity]. Qed.

Lemma length_tl {A} (l : list A) : length (tl l) = (length l - 1)%nat.
Proof. destruct l; simpl; lia. Qed.

Lemma fends_bound o recs j U :
  (forall i e, nth_error (ends_from o (map rec_size recs)) i = Some e -> e <= U -> (S i <= j)%nat) ->
  (length (filter (fun e => N.leb e U) (fends (o, recs))) <= length (tl (firstn j recs)))%nat.
Proof.
  intros H. unfold fends. cbn [fst snd]. rewrite length_tl, firstn_length.
  apply filter_index_bound. intros i x Hn Hx. rewrite nth_error_tl in Hn.
  apply N.leb_le in Hx. pose proof (H _ _ Hn Hx). destruct (ends_from_nth _ _ _ _ Hn) as [Hl _]. lia.
Qed.

Lemma filter_none_len (l : list N) U : (forall e, In e l -> U < e) ->
  length (filter (fun e => N.leb e U) l) = 0%nat.
Proof.
  induction l as [|a l IH]; intros H; simpl; [reflexivity|].
  destruct (N.leb_spec a U) as [Hle|_].
  - pose proof (H a (or_introl eq_refl)). lia.
  - apply IH. intros e He. apply H. now right.
Qed.

Lemma in_fends_gt g e : In e (fends g) -> fst g < e.
Proof.
  unfold fends. intros H. apply ends_from_gt with (rs := snd g).
  destruct (ends_from (fst g) (map rec_size (snd g))); [destruct H|now right].
Qed.

Lemma Forall2_snoc_inv_r {A B} (R : A -> B -> Prop) la lb b :
  Forall2 R la (lb ++ [b]) -> exists la' a, la = la' ++ [a] /\ Forall2 R la' lb /\ R a b.
Proof.
  intros H. apply Forall2_app_inv_r in H. destruct H as (l1 & l2 & H1 & H2 & ->).
  inversion H2 as [|a ? l2' ? Hab H3]; subst. inversion H3; subst. exists l1, a. auto.
Qed.

Lemma firstn_app_exact {A} (a b : list A) : firstn (length a) (a ++ b) = a.
Proof. rewrite firstn_app, Nat.sub_diag, firstn_all. simpl. apply app_nil_r. Qed.

Lemma jrecs_one o (rs : list record) : jrecs [(o, rs)] = List.tl rs.
Proof. unfold jrecs. cbn [flat_map snd]. apply app_nil_r. Qed.

(* The journal bytes below [U] that lie in the newest file of [d] have been written to it, and
   the newest file of [d'] still has them.  This is all that the number of records an image
   shows depends on: outside [gap_class] every older file is complete anyway. *)
Definition kept (d d' : disk) (U : N) : Prop :=
  forall pre f pre' f', d = pre ++ [f] -> d' = pre' ++ [f'] ->
    exists n : nat, U <= f_id f + N.of_nat n /\ (n <= length (f_data f))%nat /\
                    firstn n (f_data f') = firstn n (f_data f).

(* what is durable is kept by every crash image *)
Lemma kept_durable z d' U : Forall AF.synced_le (z_disk z) -> crash_image z d' ->
  durable_upto (z_disk z) U -> kept (z_disk z) d' U.
Proof.
  intros Hsyn Hc Hdur pre f pre' f' Ed Ed'.
  destruct (N.ltb_spec (f_id f) U) as [Hlt|Hle]; [|exists 0%nat; split; [lia|split; [lia|reflexivity]]].
  exists (N.to_nat (f_synced f)).
  unfold crash_image in Hc. rewrite Ed in *. rewrite Ed' in Hc. apply Forall2_last_inv in Hc.
  apply Forall_app in Hsyn. destruct Hsyn as [_ Hsyn]. pose proof (Forall_inv Hsyn) as Hf.
  unfold AF.synced_le, JournalChunk.blen in Hf.
  pose proof (durable_last _ _ _ Hdur Hlt). split; [lia|]. split; [lia|].
  apply (image_keeps f f' (proj2 Hc)); lia.
Qed.

(* what has been written is kept by the directory itself *)
Lemma kept_self d U : (forall pre f, d = pre ++ [f] -> U <= f_id f + N.of_nat (length (f_data f))) ->
  kept d d U.
Proof.
  intros H pre f pre' f' Ed Ed'. exists (length (f_data f)). rewrite Ed in Ed' at 1.
  apply app_inj_tail in Ed'. destruct Ed' as [_ <-]. split; [exact (H pre f Ed)|]. split; [lia|reflexivity].
Qed.

Section Bound.
Variables (cfg : config) (z : sys2) (d' : disk) (G A Go C : list jfile) (o : N) (recs : list record).
Variables (j : nat) (tl : bytes) (older' : list file) (nf' : file) (U : N).
Hypothesis Hr : zreach cfg z.
Hypothesis J : JI z G.
Hypothesis EG : G = A ++ (Go ++ [(o, recs)]) ++ C.
Hypothesis HC : map fst C = creates (z_todo z).
Hypothesis Hpre : Forall2 (fun f g => f_id f = fst g /\ bprefix (f_data f) (encs (snd g)))
                          (z_disk z) (Go ++ [(o, recs)]).
Hypothesis Ed : d' = older' ++ [nf'].
Hypothesis Edat : f_data nf' = encs (firstn j recs) ++ tl.
Hypothesis Htl : tail_shape tl.
Hypothesis Hk : kept (z_disk z) d' U.
Hypothesis HU : In U (AD.flushed_us z).

(* a record of the newest journal file that ends at or below [U] is among the [j] complete
   records of the image's newest file *)
Lemma kept_records i e : nth_error (ends_from o (map rec_size recs)) i = Some e -> e <= U ->
  (S i <= j)%nat.
Proof.
  intros Hn He. destruct (ends_from_nth _ _ _ _ Hn) as [Hil Ee].
  destruct (Forall2_snoc_inv_r _ _ _ _ Hpre) as (dpre & f & Edisk & _ & (Efid & Hbp)).
  simpl in Efid, Hbp.
  pose proof (gi_ok _ _ _ _ (ji_gi _ _ J)) as Hok. rewrite EG, !Forall_app in Hok.
  destruct Hok as (_ & (_ & Hokl) & _). pose proof (Forall_inv Hokl) as [Hwf _]. simpl in Hwf.
  destruct (Hk dpre f older' nf' Edisk Ed) as (n & HUn & Hnl & Hkeep).
  set (m := length (encs (firstn (S i) recs))) in *.
  apply (intact_records recs j tl i (f_data nf') Hwf Htl Edat); [lia|]. fold m.
  replace m with (Nat.min m n) at 1 by lia.
  rewrite <- firstn_firstn, Hkeep, (bprefix_firstn _ _ Hbp), !firstn_firstn.
  replace (Nat.min (Nat.min m n) (length (f_data f))) with m by lia.
  rewrite (encs_firstn_skipn (S i) recs). apply firstn_app_exact.
Qed.

Lemma nb_bound : (nb G U <= length (jrecs (A ++ Go ++ [(o, firstn j recs)])))%nat.
Proof.
  pose proof (AD.f_b _ (AD.zreach_full cfg z Hr)) as B.
  (* the files still to be created start at or above U *)
  assert (H3 : nb C U = 0%nat).
  { apply filter_none_len. intros e He. unfold rec_ends in He. apply in_flat_map in He.
    destruct He as (g & Hg & He). apply in_fends_gt in He.
    assert (HUg : U <= fst g); [|lia].
    apply (AD.b_usc _ B U (fst g)); [exact HU|].
    change AD.creates with creates. rewrite <- HC. now apply in_map. }
  rewrite EG, app_assoc, nb_app, H3, Nat.add_0_r, !nb_app, !jrecs_app, !app_length, jrecs_one.
  pose proof (nb_le_jrecs A U). pose proof (nb_le_jrecs Go U).
  assert (nb [(o, recs)] U <= length (List.tl (firstn j recs)))%nat; [|lia].
  unfold nb, rec_ends. cbn [flat_map]. rewrite app_nil_r. apply fends_bound, kept_records.
Qed.

End Bound.

Lemma split_unique : forall (L1 L2 : list jfile) c a b R1 R2,
  StronglySorted N.lt (map fst (L1 ++ (c, a) :: R1)) ->
  L1 ++ (c, a) :: R1 = L2 ++ (c, b) :: R2 -> L1 = L2 /\ a = b /\ R1 = R2.
Proof.
  induction L1 as [|x L1 IH]; intros L2 c a b R1 R2 Hs E.
  - destruct L2 as [|y L2]; cbn [app] in E.
    + inversion E; subst. auto.
    + exfalso. inversion E; subst. cbn [app map fst] in Hs. apply JournalDisk.ss_inv in Hs.
      destruct Hs as [_ Hs]. rewrite Forall_forall in Hs.
      assert (Hin : In c (map fst (L2 ++ (c, b) :: R2))).
      { rewrite map_app. apply in_or_app. right. now left. }
      specialize (Hs c Hin). lia.
  - destruct L2 as [|y L2]; cbn [app] in E.
    + exfalso. inversion E; subst. cbn [app map fst] in Hs. apply JournalDisk.ss_inv in Hs.
      destruct Hs as [_ Hs]. rewrite Forall_forall in Hs.
      assert (Hin : In c (map fst (L1 ++ (c, a) :: R1))).
      { rewrite map_app. apply in_or_app. right. now left. }
      specialize (Hs c Hin). lia.
    + inversion E as [[Ex E']]. subst y. cbn [app map] in Hs. apply JournalDisk.ss_inv in Hs.
      destruct Hs as [Hs _]. destruct (IH _ _ _ _ _ _ Hs E') as (-> & -> & ->). auto.
Qed.

Lemma crash_image_nil z : crash_image z [] -> z_disk z = [].
Proof. unfold crash_image. intros H. inversion H. reflexivity. Qed.

Lemma firstn_prefix_eq {A} (l r : list A) n : (n <= length l)%nat -> firstn n (l ++ r) = firstn n l.
Proof.
  intros H. rewrite firstn_app. replace (n - length l)%nat with 0%nat by lia.
  cbn [firstn]. apply app_nil_r.
Qed.

Lemma acked_le cfg z m : zreach cfg z ->
  (forall c U n, In (Some c, U, n) (g_flushed (z_ghost z)) -> durable_upto (z_disk z) U ->
     (length (htrace spec0 (firstn n (PL.hist z))) <= m)%nat) ->
  (acked z <= m)%nat.
Proof.
  intros Hr H. unfold acked. apply list_max_le. rewrite Forall_forall. intros x Hx.
  apply in_map_iff in Hx. destruct Hx as ([[[c|] U] n] & <- & He); simpl; [|lia].
  destruct (existsb (fun a => N.eqb (fst a) c && snd a) (z_acks z)) eqn:Ea; [|lia].
  apply existsb_exists in Ea. destruct Ea as ([c' b'] & Hain & Hab). simpl in Hab.
  apply andb_true_iff in Hab. destruct Hab as [Hc' Hb']. apply N.eqb_eq in Hc'. subst c' b'.
  apply (H c U n He). exact (AD.C04_ack_after_sync cfg z Hr c U n He Hain).
Qed.

(* A crash image outside the gap class opens, and shows the reference state after the records of
   the files that are left, the newest one cut after its complete records.  Their number [k] is
   at least the number journalled before any flush call whose journal end the image keeps.
   With truncation disabled the newest file must be whole. *)
Theorem image_reopens cfg cfg' z d' :
  zreach cfg z -> hist_wf z -> PL.hist_legal z -> crash_image z d' -> ~ gap_class d' ->
  c_truncate cfg' = true \/ whole_newest d' ->
  exists y' k sp, open_dir cfg' d' = OpenOk y' /\
    (forall cb U n, In (cb, U, n) (g_flushed (z_ghost z)) -> kept (z_disk z) d' U ->
       (length (htrace spec0 (firstn n (PL.hist z))) <= k)%nat) /\
    (k <= issued z)%nat /\
    nth_error (ref_states (PL.hist z)) k = Some sp /\
    m_rs (k_sm (y_core y')) = spec_state sp /\
    map f_log (m_log (k_sm (y_core y'))) = map g_ent (sp_entries sp).
Proof.
  intros Hr Hw Hl Hc Hng Ht.
  destruct (L2_removed cfg z Hr Hw Hl) as (G & J0 & HSP & HRI).
  assert (Hne : d' <> []).
  { intros ->. apply (disk_nonempty cfg z Hr). now apply crash_image_nil. }
  destruct (crash_open_general cfg' z d' G (PurgeFacts.zreach_Inv cfg z Hr) J0 Hc Hng Ht Hne) as
    (Gd & Go & o & recs & j & older' & nf' & tl & y' & s1 & IF & -> & Ed & _ & _ & Edat & Htl &
     Hopen & Hrep & Hrs & Hlog).
  destruct IF as [J (A & C & EG & HC) Hids Hpre Himg].
  pose proof (gi_sorted _ _ _ _ (ji_gi _ _ J)) as Hs.
  pose proof (sc_files _ _ _ (sp_sc _ _ HSP)) as Hfo.
  assert (Hfo1 : files_ok spec0 (A ++ Go ++ [(o, recs)])).
  { rewrite EG, app_assoc in Hfo. apply files_ok_app in Hfo. apply Hfo. }
  assert (Hs1 : StronglySorted N.lt (map fst (A ++ Go ++ [(o, recs)]))).
  { rewrite EG, app_assoc, map_app in Hs. apply JournalDisk.ss_app_inv in Hs. apply Hs. }
  set (Gk := A ++ Go ++ [(o, firstn j recs)]) in *.
  assert (Hkept : forall U, In U (AD.flushed_us z) -> kept (z_disk z) d' U ->
                            (nb G U <= length (jrecs Gk))%nat).
  { intros U HU Hk. exact (nb_bound cfg z d' G A Go C o recs j tl older' nf' U Hr J EG HC Hpre Ed Edat Htl Hk HU). }
  destruct (tl_firstn_prefix recs j) as [rest0 Erest].
  assert (Ejr : jrecs G = jrecs Gk ++ (rest0 ++ jrecs C)).
  { rewrite EG. unfold Gk. rewrite !jrecs_app, !jrecs_one, Erest, <- !app_assoc. reflexivity. }
  (* the purge that made the removed files obsolete is inside the image *)
  assert (HA : A <> [] -> (Go <> [] \/ (1 <= j)%nat) /\
     ple (sp_last (run_recs spec0 (jrecs A))) (sp_purged (run_recs spec0 (jrecs Gk)))).
  { intros HAne. destruct (exists_last HAne) as (A0 & [c rsc] & EA).
    assert (Hcr : map fst (A ++ Go ++ [(o, recs)]) = g_created (z_ghost z)).
    { pose proof (gi_ids _ _ _ _ (ji_gi _ _ J)) as Hi.
      rewrite EG, app_assoc, map_app, HC in Hi. apply app_inv_tail in Hi. exact Hi. }
    assert (HcA : In c (map fst A)).
    { rewrite EA, map_app. apply in_or_app. right. now left. }
    assert (Hcc : In c (g_created (z_ghost z))).
    { rewrite <- Hcr, map_app. apply in_or_app. now left. }
    assert (Hcd : ~ In c (map f_id (z_disk z))).
    { rewrite <- Hids. intros Hin. rewrite map_app in Hs1.
      exact (JournalDisk.ss_disj _ _ c Hs1 HcA Hin). }
    destruct (gone_requested cfg z c Hr Hcc Hcd) as (l & U & Hlu & Hcl).
    assert (Hnone : disk_get c (z_disk z) = None) by (apply JournalDisk.disk_get_None; exact Hcd).
    pose proof (kept_durable z d' U (AF.C04_synced_le_written cfg z Hr) Hc
                  (PurgeDurable.C08_removed_after_durable cfg z Hr l U c Hlu Hcl Hnone)) as Hk.
    pose proof (ri_us _ _ HRI l U Hlu) as HU.
    destruct (ri_rem _ _ HRI l U c Hlu Hcl) as (Ga & rsc' & x & st & tl0 & Gb & n & EG2 & Hhd & Hn & Hp).
    assert (EG1 : G = A0 ++ (c, rsc) :: ((Go ++ [(o, recs)]) ++ C)).
    { rewrite EG, EA, <- !app_assoc. reflexivity. }
    assert (Hs2 : StronglySorted N.lt (map fst (A0 ++ (c, rsc) :: ((Go ++ [(o, recs)]) ++ C)))).
    { rewrite <- EG1. exact Hs. }
    rewrite EG1 in EG2. destruct (split_unique _ _ _ _ _ _ _ Hs2 EG2) as (<- & <- & Erest2).
    (* the head of the first file that is left *)
    assert (Est : st = spec_state (run_recs spec0 (jrecs A))).
    { rewrite EG in Hfo. apply files_ok_app in Hfo. destruct Hfo as [_ Hfo].
      rewrite Erest2 in Hfo. cbn [files_ok snd] in Hfo. destruct Hfo as (tl1 & E1 & _).
      now inversion E1. }
    split.
    - destruct Go as [|g0 Go']; [|left; discriminate]. right.
      cbn [app] in Erest2. inversion Erest2; subst x recs.
      eapply (kept_records z d' G A [] C o (RState st :: tl0) j tl older' nf' U); eauto.
      reflexivity.
    - assert (Hn2 : (n <= length (jrecs Gk))%nat) by (specialize (Hkept U HU Hk); lia).
      rewrite Ejr, (firstn_prefix_eq _ _ _ Hn2) in Hp.
      rewrite <- (firstn_skipn n (jrecs Gk)), run_recs_app.
      unfold ple in *. eapply opair_le_trans; [|apply run_recs_purged].
      rewrite Est in Hp. exact Hp. }
  pose proof (recovered_cut cfg' A Go o recs j s1 Hfo1 Hs1 Hrep HA) as HR0. fold Gk in HR0.
  exists y', (length (jrecs Gk)), (run_recs spec0 (jrecs Gk)).
  split; [exact Hopen|]. split; [|split; [|split; [|split]]].
  - intros cb U n He Hk. destruct (sp_fl _ _ HSP _ _ _ He) as [_ Hnb].
    eapply Nat.le_trans; [exact Hnb|]. apply Hkept; [|exact Hk].
    unfold AD.flushed_us. apply in_map_iff. exists (cb, U, n). auto.
  - unfold issued. rewrite <- (sp_tr _ _ HSP), rtrace_length, Ejr, app_length. lia.
  - unfold ref_states. rewrite <- (sp_tr _ _ HSP), Ejr. apply rtrace_nth.
  - rewrite Hrs. apply (PL.R0_rs _ _ HR0).
  - rewrite Hlog. apply (PL.R0_log _ _ HR0).
Qed.

(* Crash safety, removed chunk files included; C03_prefix in CrashPurged.v restates it and
   says what it means for the store.  What an acknowledged flush made durable (C04), every
   crash image keeps. *)
Lemma C03_recovers cfg cfg' z d' :
  zreach cfg z -> hist_wf z -> PL.hist_legal z -> crash_image z d' ->
  ~ gap_class d' -> c_truncate cfg' = true ->
  exists y' k sp, open_dir cfg' d' = OpenOk y' /\
    (acked z <= k)%nat /\ (k <= issued z)%nat /\
    nth_error (ref_states (PL.hist z)) k = Some sp /\
    m_rs (k_sm (y_core y')) = spec_state sp /\
    map f_log (m_log (k_sm (y_core y'))) = map g_ent (sp_entries sp).
Proof.
  intros Hr Hw Hl Hc Hng Ht.
  destruct (image_reopens cfg cfg' z d' Hr Hw Hl Hc Hng (or_introl Ht)) as (y' & k & sp & Ho & Hk & H).
  exists y', k, sp. split; [exact Ho|]. split; [|exact H].
  apply (acked_le cfg z _ Hr). intros c U n He Hdur. apply (Hk _ _ _ He).
  exact (kept_durable z d' U (AF.C04_synced_le_written cfg z Hr) Hc Hdur).
Qed.

(* C03 when no chunk file has been deleted yet: the first chunk file is still present
   (purge calls and purge records are allowed, only the physical removal of chunk 0 is
   not).  A special case of [C03_recovers]. *)
Theorem C03_prefix_no_purge_partial : forall cfg cfg' z d',
  zreach cfg z -> hist_wf z -> PL.hist_legal z -> crash_image z d' ->
  ~ gap_class d' -> hd_error (map f_id d') = Some 0 -> c_truncate cfg' = true ->
  exists y' k sp, open_dir cfg' d' = OpenOk y' /\
    (acked z <= k)%nat /\ (k <= issued z)%nat /\
    nth_error (ref_states (PL.hist z)) k = Some sp /\
    m_rs (k_sm (y_core y')) = spec_state sp /\
    map f_log (m_log (k_sm (y_core y'))) = map g_ent (sp_entries sp).
Proof. intros. eapply C03_recovers; eauto. Qed.

Print Assumptions C03_prefix_no_purge_partial.

Definition cut_last (d : disk) (n : nat) : disk :=
  match rev d with
  | [] => []
  | f :: r => rev r ++ [mkFile (f_id f) (firstn n (f_data f)) (f_synced f)]
  end.

Lemma cut_last_image cfg z n pre f : zreach cfg z -> z_disk z = pre ++ [f] ->
  f_synced f <= N.of_nat n -> (n <= length (f_data f))%nat ->
  crash_image z (cut_last (z_disk z) n).
Proof.
  intros Hr Ed Hs Hn. pose proof (AF.C04_synced_le_written cfg z Hr) as Hsyn.
  unfold crash_image, cut_last. rewrite Ed in *. rewrite rev_unit, rev_involutive.
  apply Forall_app in Hsyn. destruct Hsyn as [Hsyn _].
  apply Forall2_app.
  - clear - Hsyn. induction Hsyn as [|g l Hg _ IH]; constructor; [|exact IH].
    split; [reflexivity|]. exists (length (f_data g)), 0%nat. simpl.
    split; [exact Hg|]. split; [lia|]. split; [now rewrite firstn_all, app_nil_r|now left].
  - constructor; [|constructor]. split; [reflexivity|]. exists n, 0%nat. simpl.
    split; [exact Hs|]. split; [lia|]. split; [now rewrite app_nil_r|now left].
Qed.

Definition ex_cfg : config := mkConfig 10 1000 3 1000 true.
Definition ex_events : list zev :=
  let W := ZWork true in
  [ZCall (OW (OVote (1, 2))); ZCall (OFlush true); ZEff; ZRecv 0 false; W; W; W; W; W; W; W; W; W; W;
   ZCall (OW (OCommit (0, 0))); ZEff; ZEff; ZEff; ZEff; ZRecv 0 true; W; W; W; W; W; W; W; W; W; W;
   ZCall (OW (OVote (2, 2))); ZCall (OFlush false); ZEff; ZRecv 0 false; W].

Definition ex_z : sys2 :=
  match zrun (AF.zstart ex_cfg) ex_events with Some (z, _) => z | None => AF.zstart ex_cfg end.
Definition ex_d : disk := cut_last (z_disk ex_z) 75.

(* coqchk re-evaluates a [vm_compute] step with the kernel's lazy machine, several times slower than the VM:
   the run is evaluated in one lemma, against a constant holding its normal form, and every fact is read off the
   constant; otherwise every [vm_compute; reflexivity] about the state would run the whole run again. *)
Definition ex_z_nf : sys2 := Eval vm_compute in ex_z.
Definition ex_vis_nf : list vis :=
  Eval vm_compute in match zrun (AF.zstart ex_cfg) ex_events with Some (_, v) => v | None => [] end.
Lemma ex_run_eq : zrun (AF.zstart ex_cfg) ex_events = Some (ex_z_nf, ex_vis_nf).
Proof. vm_compute. reflexivity. Qed.
Lemma ex_z_eq : ex_z = ex_z_nf.
Proof. unfold ex_z. rewrite ex_run_eq. reflexivity. Qed.

Definition ex_d_nf : disk := Eval vm_compute in ex_d.
Lemma ex_d_eq : ex_d = ex_d_nf.
Proof. unfold ex_d. rewrite ex_z_eq. vm_compute. reflexivity. Qed.

Lemma ex_reach : zreach ex_cfg ex_z_nf.
Proof. exists (AF.zstart ex_cfg), ex_events, ex_vis_nf. split; [apply AF.zinit_eq|exact ex_run_eq]. Qed.

Lemma ex_hist : PL.hist ex_z_nf = [OVote (1, 2); OCommit (0, 0); OVote (2, 2)].
Proof. vm_compute. reflexivity. Qed.

(* a reachable state with an acknowledged flush (one record before it), a rotation
   (two chunk files) and three journalled records, and a crash image that cuts the
   last record (the newest file loses its last 3 bytes): all hypotheses of
   C03_prefix_no_purge_partial (hence of C05_recovers_outside_known) hold *)
Example C03_nonvacuous :
  zreach ex_cfg ex_z /\ hist_wf ex_z /\ PL.hist_legal ex_z /\ crash_image ex_z ex_d /\
  ~ gap_class ex_d /\ hd_error (map f_id ex_d) = Some 0 /\ c_truncate ex_cfg = true /\
  acked ex_z = 1%nat /\ issued ex_z = 3%nat /\
  map (fun f => length (f_data f)) (z_disk ex_z) = [74; 78]%nat /\
  map (fun f => length (f_data f)) ex_d = [74; 75]%nat.
Proof.
  rewrite ex_d_eq, ex_z_eq.
  split; [apply ex_reach|].
  split. { unfold hist_wf. change (map fst (g_writes (z_ghost ex_z_nf))) with (PL.hist ex_z_nf).
           rewrite ex_hist. repeat constructor; vm_compute; reflexivity. }
  split. { unfold PL.hist_legal. rewrite ex_hist. vm_compute. reflexivity. }
  split.
  { apply (cut_last_image ex_cfg ex_z_nf 75 (removelast (z_disk ex_z_nf)) (last (z_disk ex_z_nf) (mkFile 0 [] 0))).
    - apply ex_reach.
    - vm_compute. reflexivity.
    - vm_compute. discriminate.
    - vm_compute. lia. }
  split.
  { intros (pre & f & g & post & Eq & Hne).
    assert (Hl : length ex_d_nf = 2%nat) by (vm_compute; reflexivity).
    rewrite Eq, app_length in Hl. simpl in Hl.
    destruct pre; [|simpl in Hl; lia]. destruct post; [|simpl in Hl; lia]. simpl in Eq.
    assert (Hf : f = nth 0 ex_d_nf (mkFile 0 [] 0)) by (rewrite Eq; reflexivity).
    assert (Hg : g = nth 1 ex_d_nf (mkFile 0 [] 0)) by (rewrite Eq; reflexivity).
    apply Hne. rewrite Hf, Hg. vm_compute. reflexivity. }
  split; [vm_compute; reflexivity|]. split; [reflexivity|].
  split; [vm_compute; reflexivity|]. split; [vm_compute; reflexivity|].
  split; vm_compute; reflexivity.
Qed.

(* the conclusion of C03 for this image: the reopened store shows the reference state
   after k records with 1 <= k <= 3 *)
Example C03_example : exists y' k sp, open_dir ex_cfg ex_d = OpenOk y' /\
  (1 <= k)%nat /\ (k <= 3)%nat /\ nth_error (ref_states (PL.hist ex_z)) k = Some sp /\
  m_rs (k_sm (y_core y')) = spec_state sp.
Proof.
  destruct C03_nonvacuous as (H1 & H2 & H3 & H4 & H5 & H6 & H7 & H8 & H9 & _).
  destruct (C03_prefix_no_purge_partial ex_cfg ex_cfg ex_z ex_d H1 H2 H3 H4 H5 H6 H7)
    as (y' & k & sp & Ho & Ha & Hi & Hn & Hrs & _).
  exists y', k, sp. rewrite H8 in Ha. rewrite H9 in Hi. auto.
Qed.

Print Assumptions C03_nonvacuous.
