(* C16: no argument makes a public operation panic. In the model a panic of the real code is the [Panic]
   outcome of the write path (only source: [ck_last_segment] on a chunk without a record), which [run_op]
   reports as [ResPanic]. The invariant that excludes it is [open_nonempty] (the open chunk has a record); it
   holds after [open_dir] on every directory with strictly increasing file ids ([disk_sorted]) and every
   operation preserves both. Two statements one would like are FALSE for the model; each appears as a
   [_partial] theorem with the missing hypothesis next to a [_refuted] witness. *)
From Coq Require Import List NArith Bool Lia Sorting.Sorted.
From RaftLog Require Import Model.Types Model.Codec Model.Cache Model.Core Model.Recover Model.Run.
From RaftLog Require Import Proofs.OrderFacts Proofs.RecoverFacts Proofs.JournalDisk Proofs.JournalChunk Proofs.SmFacts.
From RaftLog Require Import Proofs.Opens.
Import ListNotations.
Local Open Scope N_scope.


Definition open_nonempty (k : core) : Prop := ck_ends (k_open k) <> [].

Lemma append_and_apply_open : forall k r k' w effs,
  append_and_apply k r = Ret (k', w, effs) -> open_nonempty k -> open_nonempty k'.
Proof.
  intros k r k' w effs H Hk. destruct (aaa_spec k r) as (k0 & w0 & e0 & E & D).
  rewrite E in H. inversion H; subst.
  destruct D as [(-> & _)|(_ & _ & _ & sm1 & _ & [[-> _]|[-> _]])];
    [exact Hk|apply ck_push_ends_nonempty|apply ck_push_ends_nonempty].
Qed.

Lemma do_write_open : forall k w k' r effs,
  do_write k w = Ret (k', r, effs) -> open_nonempty k -> open_nonempty k'.
Proof.
  intros k w k' r effs H Hk. apply (do_write_inv (fun k _ => open_nonempty k) w) with (3 := Hk) (4 := H).
  - intros k0 _ r0 k1 res ef H0 _ Ha. exact (append_and_apply_open _ _ _ _ _ Ha H0).
  - intros k0 _ u ids rest H0 _. exact H0.
Qed.

Theorem C16_write_no_panic : forall k w, open_nonempty k ->
  exists k' r effs, do_write k w = Ret (k', r, effs) /\ open_nonempty k'.
Proof.
  intros k w H. destruct (do_write k w) as [[[k' r] effs]|] eqn:E.
  - exists k', r, effs. split; [reflexivity|exact (do_write_open _ _ _ _ _ E H)].
  - destruct (do_write_no_panic k w H E).
Qed.

Definition file_lt (f g : file) : Prop := f_id f < f_id g.
Definition disk_sorted (d : disk) : Prop := StronglySorted file_lt d.

Lemma disk_sorted_nil : disk_sorted [].
Proof. constructor. Qed.

(* [disk_sorted] is the right-hand side of [JournalDisk.dsorted_iff] *)
Lemma disk_put_sorted : forall f d, disk_sorted d -> disk_sorted (disk_put f d).
Proof. intros f d H. apply dsorted_iff, dsorted_put, dsorted_iff, H. Qed.

Lemma disk_remove_sorted : forall id d, disk_sorted d -> disk_sorted (disk_remove id d).
Proof. intros id d H. apply dsorted_iff, dsorted_remove, dsorted_iff, H. Qed.

Lemma disk_append_sorted : forall id data d, disk_sorted d -> disk_sorted (disk_append id data d).
Proof. intros id data d H. apply dsorted_iff, dsorted_append, dsorted_iff, H. Qed.

Lemma disk_sync_sorted : forall id d, disk_sorted d -> disk_sorted (disk_sync id d).
Proof. intros id d H. apply dsorted_iff, dsorted_sync, dsorted_iff, H. Qed.

Definition sys_ok (y : sys) : Prop := open_nonempty (y_core y) /\ disk_sorted (y_disk y).

Lemma apply_effs_sorted : forall es y, disk_sorted (y_disk y) -> disk_sorted (y_disk (apply_effs y es)).
Proof.
  intros es y Hy. unfold apply_effs.
  apply (fold_left_inv _ _ (fun y => disk_sorted (y_disk y))); [|exact Hy].
  intros y0 [id head|r] H; cbn [apply_eff y_disk]; [apply disk_put_sorted|]; exact H.
Qed.

Lemma worker_idle_sorted : forall y, disk_sorted (y_disk y) -> disk_sorted (y_disk (worker_idle y)).
Proof.
  intros y Hy. rewrite worker_idle_disk. apply dsorted_iff, wrun_sorted, dsorted_iff, Hy.
Qed.

Lemma worker_idle_ok : forall y, sys_ok y -> sys_ok (worker_idle y).
Proof.
  intros y [H1 H2]. split; [|apply worker_idle_sorted; exact H2].
  apply (worker_idle_keeps open_nonempty); [intros k b H; exact H|exact H1].
Qed.

Definition cl_ne (c : closed) : Prop := ck_ends (cl_chunk c) <> [].

Lemma split_last_In : forall (A : Type) (l : list A) i z, split_last l = Some (i, z) -> In z l.
Proof.
  intros A l. induction l as [|x r IH]; intros i z H.
  - discriminate H.
  - cbn [split_last] in H. destruct r as [|x' r'].
    + inversion H. left. reflexivity.
    + destruct (split_last (x' :: r')) as [[i' z']|] eqn:E; [|discriminate H].
      inversion H; subst. right. eapply IH. reflexivity.
Qed.

Lemma loaded_ne cfg t0 pe0 d D cl t pe : loaded cfg t0 pe0 d D cl t pe -> Forall cl_ne cl.
Proof.
  induction 1 as [|d D cl t pe f rs tl t1 _ IH _ Hne _ _]; [constructor|].
  apply Forall_app. split; [exact IH|]. constructor; [|constructor]. now apply chunk_of_ends_nonempty.
Qed.

Lemma open_dir_ok : forall cfg d y,
  disk_sorted d -> open_dir cfg d = OpenOk y -> sys_ok y.
Proof.
  intros cfg d y Hd H. rewrite open_dir_eq in H. unfold open_finish in H.
  destruct (open_loop cfg d (acc0 cfg d)) as [a|[e d']] eqn:EL; [|discriminate H].
  apply (open_loop_opens _ _ _ Hd) in EL as (d0 & hl & pe & -> & L & _).
  pose proof (loaded_ne _ _ _ _ _ _ _ _ L) as Hne.
  assert (Hda : disk_sorted (oa_disk a)).
  { apply (fsorted_ids _ _ (proj1 (loaded_ids _ _ _ _ _ _ _ _ L))), (fsorted_app_inv _ _ Hd). }
  destruct (reusable (oa_closed a)) as [[init lastc]|] eqn:ER.
  - inversion H; subst y. split; [|exact Hda]. unfold open_nonempty. cbn [y_core k_open].
    unfold reusable in ER. destruct (split_last (oa_closed a)) as [[i c]|] eqn:ES; [|discriminate ER].
    destruct (cl_truncated c); inversion ER; subst.
    rewrite Forall_forall in Hne. exact (Hne _ (split_last_In _ _ _ _ ES)).
  - cbv zeta in H. destruct (disk_get _ (oa_disk a)); [discriminate H|]. inversion H; subst y.
    split; [apply ck_push_ends_nonempty|apply disk_put_sorted; exact Hda].
Qed.

Definition no_restart (o : op) : Prop := match o with ORestart _ => False | _ => True end.

Lemma run_op_no_panic : forall y o, open_nonempty (y_core y) -> snd (run_op y o) <> ResPanic.
Proof.
  intros y o H. destruct o as [w|cb|from to| | | | | |cfg]; cbn [run_op]; try discriminate.
  - destruct (do_write (y_core y) w) as [[[k r] effs]|] eqn:E; [discriminate|].
    destruct (do_write_no_panic _ _ H E).
  - destruct (do_read (y_core y) (y_disk y) from to). discriminate.
  - destruct (open_dir cfg (y_disk (worker_idle y))); discriminate.
Qed.

Lemma run_op_open : forall y o y' r, no_restart o -> run_op y o = (Some y', r) ->
  open_nonempty (y_core y) -> open_nonempty (y_core y').
Proof.
  intros y o y' r Ho H H1. apply run_op_cases in H.
  destruct o as [w|cb|from to| | | | | |cfg]; try destruct Ho; subst; try exact H1.
  - destruct H as (k & res & effs & Hw & -> & _). rewrite commit_core.
    exact (do_write_open _ _ _ _ _ Hw H1).
  - rewrite commit_core. exact H1.
  - unfold open_nonempty. cbn [with_core y_core]. rewrite (proj2 (do_read_sm_open _ _ _ _)). exact H1.
  - apply (worker_idle_keeps open_nonempty); [intros k b H; exact H|exact H1].
Qed.

Lemma run_op_sorted : forall y o y' r, no_restart o -> run_op y o = (Some y', r) ->
  disk_sorted (y_disk y) -> disk_sorted (y_disk y').
Proof.
  intros y o y' r Ho H H2. apply run_op_cases in H.
  destruct o as [w|cb|from to| | | | | |cfg]; try destruct Ho; subst; try exact H2.
  - destruct H as (k & res & effs & _ & -> & _). apply apply_effs_sorted. exact H2.
  - apply apply_effs_sorted. exact H2.
  - apply worker_idle_sorted. exact H2.
Qed.

Lemma run_op_sys_ok : forall y o y' r, sys_ok y -> run_op y o = (Some y', r) -> sys_ok y'.
Proof.
  intros y o y' r Hy H.
  assert (N : no_restart o -> sys_ok y').
  { intros Ho. destruct Hy as [H1 H2]. split; [eapply run_op_open|eapply run_op_sorted]; eassumption. }
  destruct o as [w|cb|from to| | | | | |cfg]; try (apply N; exact I).
  apply run_op_cases in H. eapply open_dir_ok; [|exact H]. apply worker_idle_ok. exact Hy.
Qed.

Lemma run_op_ok : forall y o, sys_ok y ->
  snd (run_op y o) <> ResPanic /\ (forall y', fst (run_op y o) = Some y' -> sys_ok y').
Proof.
  intros y o Hy. split; [apply run_op_no_panic; apply Hy|].
  intros y' E. destruct (run_op y o) as [oy r] eqn:H. cbn [fst] in E. subst oy.
  exact (run_op_sys_ok _ _ _ _ Hy H).
Qed.

(* Without [disk_sorted (y_disk y)] the statement

     forall y o, open_nonempty (y_core y) ->
       (match o with ORead _ _ | ODumpIter => False | _ => True end) ->
       snd (run_op y o) <> ResPanic /\
       (forall y', fst (run_op y o) = Some y' -> open_nonempty (y_core y'))

   is FALSE for [o = ORestart cfg] when the directory of [y] is not sorted (two
   files with the same id and no record: the first is inserted into [oa_closed], the
   second is removed, and the first is re-used as the open chunk); see
   [C16_op_no_panic_refuted].  The hypothesis is itself preserved (so the pair is an
   invariant), and is not needed when [o] is not a restart
   ([C16_op_no_panic_norestart]). *)
Theorem C16_op_no_panic_partial : forall y o,
  open_nonempty (y_core y) -> disk_sorted (y_disk y) ->
  snd (run_op y o) <> ResPanic /\
  (forall y', fst (run_op y o) = Some y' ->
     open_nonempty (y_core y') /\ disk_sorted (y_disk y')).
Proof.
  intros y o H1 H2. apply (run_op_ok y o). split; assumption.
Qed.

Theorem C16_op_no_panic_norestart : forall y o, open_nonempty (y_core y) ->
  (match o with ORestart _ => False | _ => True end) ->
  snd (run_op y o) <> ResPanic /\
  (forall y', fst (run_op y o) = Some y' -> open_nonempty (y_core y')).
Proof.
  intros y o H1 Ho. split; [apply run_op_no_panic; exact H1|].
  intros y' E. destruct (run_op y o) as [oy r] eqn:H. cbn [fst] in E. subst oy.
  exact (run_op_open _ _ _ _ Ho H H1).
Qed.

Definition refute_cfg : config := mkConfig 10 1000 10 1000 false.
Definition refute_sys : sys :=
  mkSys (mkCore refute_cfg (sm_new refute_cfg) (mkChunk 0 [12]) [] [] [] 0 0 0)
        [mkFile 5 [] 0; mkFile 5 [] 0] [] [] [].

Theorem C16_op_no_panic_refuted : exists y o,
  open_nonempty (y_core y) /\
  (match o with ORead _ _ | ODumpIter => False | _ => True end) /\
  ~ (snd (run_op y o) <> ResPanic /\
     (forall y', fst (run_op y o) = Some y' -> open_nonempty (y_core y'))).
Proof.
  exists refute_sys, (ORestart refute_cfg). split; [|split].
  - unfold open_nonempty. cbn. discriminate.
  - exact I.
  - intros [_ H].
    remember (run_op refute_sys (ORestart refute_cfg)) as res eqn:E.
    vm_compute in E. subst res. cbn [fst] in H.
    specialize (H _ eq_refl). apply H. reflexivity.
Qed.

Example C16_unsorted_restart_then_panic :
  fst (run_ops refute_sys [ORestart refute_cfg; OW (OAppend [])]) = [ResOpened; ResPanic].
Proof. vm_compute. reflexivity. Qed.

Lemma lm_range_inverted : forall from m, lm_range from from m = [].
Proof.
  intros from m. unfold lm_range. induction m as [|[i ld] r IH]; cbn [filter fst].
  - reflexivity.
  - destruct (N.leb from i) eqn:E1; destruct (N.ltb i from) eqn:E2; cbn [andb]; try exact IH.
    apply N.leb_le in E1. apply N.ltb_lt in E2. lia.
Qed.

Theorem C16_read_inverted_empty : forall k d from to, (to <= from)%N -> snd (do_read k d from to) = [].
Proof.
  intros k d from to H. unfold do_read. rewrite (N.max_r to from H).
  rewrite lm_range_inverted. cbn [read_items snd]. reflexivity.
Qed.

Theorem C16_read_no_top_panic : forall y from to, snd (run_op y (ORead from to)) <> ResPanic.
Proof.
  intros y from to. unfold run_op.
  destruct (do_read (y_core y) (y_disk y) from to) as [k items]. cbn [snd]. discriminate.
Qed.

Theorem C16_dump_no_top_panic : forall y, snd (run_op y ODumpIter) <> ResPanic.
Proof. intros y. unfold run_op. cbn [snd]. discriminate. Qed.

Lemma read_items_length : forall ch cl d m hit miss,
  length (fst (fst (read_items ch cl d m hit miss))) = length m.
Proof.
  intros ch cl d m. induction m as [|[i ld] r IH]; intros hit miss; cbn [read_items].
  - reflexivity.
  - destruct (ent_get (ld_id ld) (ch_entries ch)) as [p|].
    + specialize (IH (hit + 1) miss).
      destruct (read_items ch cl d r (hit + 1) miss) as [[items h] ms].
      cbn [fst length] in *. rewrite IH. reflexivity.
    + specialize (IH hit (miss + 1)).
      destruct (read_items ch cl d r hit (miss + 1)) as [[items h] ms].
      cbn [fst length] in *. rewrite IH. reflexivity.
Qed.

Theorem C16_read_items_exact : forall k d from to,
  length (snd (do_read k d from to)) = length (lm_range from (N.max to from) (m_log (k_sm k))).
Proof. intros k d from to. rewrite do_read_items. apply read_items_length. Qed.

Lemma lm_range_in : forall from to m e,
  In e (lm_range from to m) <-> In e m /\ (from <= fst e < to)%N.
Proof.
  intros from to m e. unfold lm_range. rewrite filter_In.
  rewrite andb_true_iff, N.leb_le, N.ltb_lt. reflexivity.
Qed.

Lemma run_ops_ok : forall ops y res fin, sys_ok y -> run_ops y ops = (res, fin) ->
  ~ In ResPanic res /\ (forall y', fin = Some y' -> sys_ok y').
Proof.
  intros ops y res fin Hy H.
  assert (Hok : Forall (fun _ : op => True) ops) by (apply Forall_forall; intros; exact I).
  split.
  - pose proof (run_ops_results sys_ok _ (fun r => r <> ResPanic) (fun y o Hy _ => run_op_ok y o Hy)
                  ops y res fin Hy Hok H) as G.
    rewrite Forall_forall in G. intros Hi. exact (G _ Hi eq_refl).
  - intros y' ->. refine (run_ops_inv sys_ok _ _ ops y res y' Hy Hok H).
    intros y0 o y1 r H0 _. apply run_op_sys_ok, H0.
Qed.

(* every state reachable from an empty directory by any operations with any
   arguments (restarts with any configuration, update_state, drains included) has a
   non-empty open chunk and a sorted directory *)
Theorem C16_reachable_ok : forall cfg ops res y,
  run_case cfg ops = (res, Some y) -> open_nonempty (y_core y) /\ disk_sorted (y_disk y).
Proof.
  intros cfg ops res y H. unfold run_case in H.
  destruct (open_dir cfg []) as [y0|e d'] eqn:EO.
  - pose proof (open_dir_ok cfg [] y0 disk_sorted_nil EO) as H0.
    destruct (run_ops_ok ops y0 res (Some y) H0 H) as [_ Hf]. apply Hf. reflexivity.
  - inversion H.
Qed.

Theorem C16_no_panic : forall cfg ops res fin,
  run_case cfg ops = (res, fin) -> ~ In ResPanic res.
Proof.
  intros cfg ops res fin H. unfold run_case in H.
  destruct (open_dir cfg []) as [y0|e d'] eqn:EO.
  - pose proof (open_dir_ok cfg [] y0 disk_sorted_nil EO) as H0.
    destruct (run_ops_ok ops y0 res fin H0 H) as [Hin _]. exact Hin.
  - inversion H; subst. intros [Hi|[]]. discriminate Hi.
Qed.

Theorem C16_init_opens : forall cfg, exists y, open_dir cfg [] = OpenOk y.
Proof. intros cfg. eexists. reflexivity. Qed.

Theorem C16_index_limit_exact : forall r,
  index_limit r = true <->
  (exists id p, r = RAppend id p /\ lid_index id = U64MAX) \/
  (exists id, r = RPurge id /\ lid_index id = U64MAX).
Proof.
  intros r. split.
  - intros H. destruct r as [v|id p|id|o|id|st]; cbn [index_limit] in H; try discriminate H.
    + left. exists id, p. split; [reflexivity|]. apply N.eqb_eq. exact H.
    + right. exists id. split; [reflexivity|]. apply N.eqb_eq. exact H.
  - intros [(id & p & E & H)|(id & E & H)]; subst r; cbn [index_limit]; apply N.eqb_eq; exact H.
Qed.

Theorem C16_index_limit_refused : forall k r,
  index_limit r = true -> append_and_apply k r = Ret (k, WErr EIndexLimit, []).
Proof. exact aaa_limit. Qed.

Lemma append_accepted_not_limit : forall k r k' off len effs,
  append_and_apply k r = Ret (k', WOk off len, effs) -> index_limit r = false.
Proof.
  intros k r k' off len effs H. destruct (aaa_spec k r) as (k0 & w0 & e0 & E & D). rewrite E in H.
  inversion H; subst. destruct D as [(_ & _ & [[_ D]|(_ & e & _ & D)])|(HL & _)]; [discriminate D..|exact HL].
Qed.

Definition rec_index_u64 (r : record) : Prop :=
  match r with RAppend id _ | RPurge id => (lid_index id <= U64MAX)%N | _ => True end.

(* Without [rec_index_u64 r] the statement

     forall k r k' off len effs,
       append_and_apply k r = Ret (k', WOk off len, effs) ->
       match r with RAppend id _ | RPurge id => (next_index (Some id) <= U64MAX)%N | _ => True end

   is FALSE in the model: indexes are unbounded N and the guard refuses only
   index = U64MAX, so index = U64MAX + 1 is accepted
   ([C16_next_index_in_range_refuted]).  [rec_index_u64 r] says that the index of the
   argument is a u64, which the Rust types guarantee. *)
Theorem C16_next_index_in_range_partial : forall k r k' off len effs,
  rec_index_u64 r ->
  append_and_apply k r = Ret (k', WOk off len, effs) ->
  match r with RAppend id _ | RPurge id => (next_index (Some id) <= U64MAX)%N | _ => True end.
Proof.
  intros k r k' off len effs Hu H. apply append_accepted_not_limit in H.
  destruct r as [v|id p|id|o|id|st]; try exact I;
    cbn [index_limit] in H; apply N.eqb_neq in H; unfold rec_index_u64 in Hu;
    unfold next_index; lia.
Qed.

Theorem C16_accepted_index_below_limit : forall k r k' off len effs,
  rec_index_u64 r ->
  append_and_apply k r = Ret (k', WOk off len, effs) ->
  match r with RAppend id _ | RPurge id => (lid_index id < U64MAX)%N | _ => True end.
Proof.
  intros k r k' off len effs Hu H. apply append_accepted_not_limit in H.
  destruct r as [v|id p|id|o|id|st]; try exact I;
    cbn [index_limit] in H; apply N.eqb_neq in H; unfold rec_index_u64 in Hu; lia.
Qed.

Theorem C16_next_index_in_range_refuted :
  ~ (forall k r k' off len effs,
       append_and_apply k r = Ret (k', WOk off len, effs) ->
       match r with RAppend id _ | RPurge id => (next_index (Some id) <= U64MAX)%N | _ => True end).
Proof.
  intros H.
  pose proof (H (y_core refute_sys) (RPurge (0, U64MAX + 1))) as H'.
  remember (append_and_apply (y_core refute_sys) (RPurge (0, U64MAX + 1))) as res eqn:E.
  vm_compute in E. subst res.
  specialize (H' _ _ _ _ eq_refl). vm_compute in H'. apply H'. reflexivity.
Qed.

Print Assumptions C16_write_no_panic.
Print Assumptions C16_op_no_panic_partial.
Print Assumptions C16_op_no_panic_norestart.
Print Assumptions C16_op_no_panic_refuted.
Print Assumptions C16_read_inverted_empty.
Print Assumptions C16_read_no_top_panic.
Print Assumptions C16_read_items_exact.
Print Assumptions C16_reachable_ok.
Print Assumptions C16_no_panic.
Print Assumptions C16_index_limit_exact.
Print Assumptions C16_next_index_in_range_partial.
Print Assumptions C16_next_index_in_range_refuted.
