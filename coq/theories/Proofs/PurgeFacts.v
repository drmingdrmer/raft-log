(* Properties C08 (chunk files are deleted oldest-first, only after the purge is requested, and all
   requested removals happen) and C14 (a dropped store whose worker has finished is quiescent) over the
   L2 system of Model/Sys.v. The bookkeeping invariant [cinv] ties the files present in the directory to
   the removal requests in flight (worker, queue, pending effects, k_removed) and to the caller's chunk
   list. Each contract is stated once over the invariant ([Inv_contiguous], [idle_removals_done],
   [idle_quiesced]) and holds for an instance started on any directory that opens ([inv_fresh], [Inv_reach]);
   the theorems about the empty directory are the instances at [[]], those of RestartSys.v the instances at [d]. *)
From Coq Require Import List NArith Lia Sorting.Sorted.
From RaftLog Require Import Base.Bytes Model.Types Model.Codec Model.Core
  Model.Recover Model.Sys Spec.Durable.
From RaftLog Require Import Proofs.CacheFacts Proofs.AckFacts Proofs.JournalDisk Proofs.JournalChunk.
From RaftLog Require Proofs.JournalFacts Proofs.AckDurable.
Import ListNotations.
Local Open Scope N_scope.
Local Arguments enc_record : simpl never.

(* ================================================================== pop_obsolete *)
Definition cid (c : closed) : N := ck_id (cl_chunk c).

Lemma pop_obsolete_split upto cl ids rest : pop_obsolete upto cl = (ids, rest) ->
  exists popped, cl = popped ++ rest /\ ids = map cid popped /\
    Forall (fun c => opair_leb (r_last (cl_state c)) (Some upto) = true) popped /\
    match rest with c :: _ => opair_ltb (Some upto) (r_last (cl_state c)) = true | [] => True end.
Proof.
  intros H. apply pop_obsolete_spec in H as (popped & E1 & E2 & E3 & E4). exists popped.
  split; [exact E1|]. split; [exact E2|]. split; [|exact E4].
  eapply Forall_impl; [|exact E3]. intros c. apply opair_ltb_false_iff.
Qed.

Lemma nodup_app_disj {A} (l1 l2 : list A) x : NoDup (l1 ++ l2) -> In x l1 -> In x l2 -> False.
Proof.
  induction l1 as [|a l1 IH]; cbn [app]; intros ND I1 I2; [contradiction|].
  inversion ND as [|? ? Hn ND']; subst. destruct I1 as [E|I1].
  - subst a. apply Hn. apply in_or_app. right. exact I2.
  - apply IH; assumption.
Qed.

(* Over arbitrary lists of closed chunks the statement below is false without [NoDup]: with
   two chunks of the same id the second conjunct fails (C08_pop_obsolete_spec_refuted).
   k_closed is sorted strictly by chunk id in every reachable state ([ci_core]). *)
Theorem C08_pop_obsolete_spec_partial : forall upto cl ids rest,
  NoDup (map (fun c => ck_id (cl_chunk c)) cl) ->
  pop_obsolete upto cl = (ids, rest) ->
  map (fun c => ck_id (cl_chunk c)) cl = ids ++ map (fun c => ck_id (cl_chunk c)) rest /\
  (forall c, In c cl -> In (ck_id (cl_chunk c)) ids -> opair_leb (r_last (cl_state c)) (Some upto) = true) /\
  (match rest with c :: _ => opair_ltb (Some upto) (r_last (cl_state c)) = true | [] => True end).
Proof.
  intros upto cl ids rest ND H.
  destruct (pop_obsolete_split _ _ _ _ H) as (popped & E1 & E2 & E3 & E4). subst cl ids.
  split; [apply map_app|]. split; [|exact E4].
  intros c Hc Hid. apply in_app_or in Hc as [Hc|Hc].
  - rewrite Forall_forall in E3. apply E3. exact Hc.
  - exfalso. rewrite map_app in ND. eapply nodup_app_disj; [exact ND|exact Hid|].
    apply (in_map (fun c => ck_id (cl_chunk c))). exact Hc.
Qed.

Definition refute_c1 : closed := mkClosed (mkChunk 5 []) (mkRState None (Some (1, 1)) None None None) false.
Definition refute_c2 : closed := mkClosed (mkChunk 5 []) (mkRState None (Some (2, 2)) None None None) false.

Theorem C08_pop_obsolete_spec_refuted : exists upto cl ids rest,
  pop_obsolete upto cl = (ids, rest) /\
  ~ (map (fun c => ck_id (cl_chunk c)) cl = ids ++ map (fun c => ck_id (cl_chunk c)) rest /\
     (forall c, In c cl -> In (ck_id (cl_chunk c)) ids -> opair_leb (r_last (cl_state c)) (Some upto) = true) /\
     (match rest with c :: _ => opair_ltb (Some upto) (r_last (cl_state c)) = true | [] => True end)).
Proof.
  exists (1, 1), [refute_c1; refute_c2], [5], [refute_c2]. split; [reflexivity|].
  intros (_ & H & _). specialize (H refute_c2 (or_intror (or_introl eq_refl)) (or_introl eq_refl)).
  vm_compute in H. discriminate.
Qed.

Definition xeffs (effs : list eff) : list xeff := flat_map expand_eff effs.

Definition rm_of (r : wreq) : list N := match r with WRemove ids => ids | _ => [] end.
Definition queue_rm (q : list wreq) : list N := flat_map rm_of q.
Definition xrm_of (x : xeff) : list N := match x with XSend r => rm_of r | _ => [] end.
Definition todo_rm (t : list xeff) : list N := flat_map xrm_of t.
Definition xcr_of (x : xeff) : list N := match x with XCreate id => [id] | _ => [] end.
Definition todo_cr (t : list xeff) : list N := flat_map xcr_of t.

Definition tail_ids (k : core) : list N := map cid (k_closed k) ++ [ck_id (k_open k)].

Definition core_ok (k : core) : Prop :=
  ck_id (k_open k) < ck_end (k_open k) /\ StronglySorted N.lt (tail_ids k).

Lemma xeffs_app a b : xeffs (a ++ b) = xeffs a ++ xeffs b.
Proof. apply flat_map_app. Qed.
Lemma todo_cr_app a b : todo_cr (a ++ b) = todo_cr a ++ todo_cr b.
Proof. apply flat_map_app. Qed.
Lemma queue_rm_app a b : queue_rm (a ++ b) = queue_rm a ++ queue_rm b.
Proof. apply flat_map_app. Qed.

Lemma tail_ids_ne k : tail_ids k <> [].
Proof. unfold tail_ids. intros H. apply app_eq_nil in H as [_ H]. discriminate. Qed.

Definition wstep_ok (k k' : core) (effs : list eff) : Prop :=
  core_ok k' /\ k_removed k' = k_removed k /\
  tail_ids k' = tail_ids k ++ todo_cr (xeffs effs) /\ todo_rm (xeffs effs) = [].

Lemma rotate_effs_cr k : todo_cr (xeffs (rotate_effs k)) = [ck_end (k_open k)].
Proof. unfold rotate_effs. destruct (k_pending k); reflexivity. Qed.
Lemma rotate_effs_rm k : todo_rm (xeffs (rotate_effs k)) = [].
Proof. unfold rotate_effs. destruct (k_pending k); reflexivity. Qed.

Lemma tail_ids_lt k x : StronglySorted N.lt (tail_ids k) -> In x (map cid (k_closed k)) -> x < ck_id (k_open k).
Proof.
  intros S I. apply ss_app_inv in S as (_ & _ & S). apply S; [exact I|left; reflexivity].
Qed.

Lemma blen_enc_pos r : 0 < blen (enc_record r).
Proof. pose proof (rec_size_pos r) as H. rewrite rec_size_blen in H. exact H. Qed.

Lemma rotated_ok k : core_ok k -> wstep_ok k (rotated k) (rotate_effs k).
Proof.
  intros (Hlt & S).
  assert (Hcl : k_closed (rotated k) = k_closed k ++ [mkClosed (k_open k) (m_rs (k_sm k)) false]).
  { unfold rotated. cbn [k_closed]. apply closed_insert_last. rewrite Forall_forall. intros c Hc.
    cbn [cl_chunk]. apply (tail_ids_lt k); [exact S|]. apply in_map_iff. exists c. auto. }
  assert (Ht : tail_ids (rotated k) = tail_ids k ++ [ck_end (k_open k)]).
  { unfold tail_ids at 1. rewrite Hcl, map_app. cbn [map]. unfold rotated. cbn [k_open].
    rewrite ck_id_push. cbn [ck_id]. unfold tail_ids, cid. cbn [cl_chunk]. rewrite <- app_assoc. reflexivity. }
  split; [|split; [reflexivity|split; [rewrite rotate_effs_cr; exact Ht|apply rotate_effs_rm]]].
  split.
  - unfold rotated. cbn [k_open]. rewrite ck_id_push, ck_end_push. cbn [ck_id].
    replace (ck_end (mkChunk (ck_end (k_open k)) [])) with (ck_end (k_open k)) by reflexivity.
    pose proof (blen_enc_pos (RState (m_rs (k_sm k)))). lia.
  - rewrite Ht. apply ss_app; [exact S|repeat constructor|].
    intros a b Ia [Eb|[]]. subst b. unfold tail_ids in Ia. apply in_app_or in Ia as [Ia|[Ea|[]]].
    + pose proof (tail_ids_lt k _ S Ia). lia.
    + subst a. exact Hlt.
Qed.

Lemma appended_ok k r sm1 : core_ok k -> core_ok (appended k r sm1) /\
  tail_ids (appended k r sm1) = tail_ids k /\ k_removed (appended k r sm1) = k_removed k.
Proof.
  intros (Hlt & S). unfold core_ok, tail_ids, appended. cbn [k_open k_closed k_removed].
  rewrite ck_id_push, ck_end_push. repeat split; [|exact S].
  pose proof (rec_size_pos r). lia.
Qed.

(* the write rule of AckFacts ([aa_chain], [post_purge]) in the vocabulary of this file *)
Lemma aa_chain_ok k k' effs : aa_chain k k' effs -> core_ok k -> wstep_ok k k' effs.
Proof.
  intros H [Ho S]. destruct (AckDurable.aa_chain_ids _ _ _ H [] Ho S) as (T & R & S').
  repeat split; [apply (AckDurable.aa_chain_open _ _ _ H Ho)|exact S'|exact R|exact T|
                 apply (AckDurable.aa_chain_norem _ _ _ H)].
Qed.

Lemma append_and_apply_ok k r k' w effs : core_ok k ->
  append_and_apply k r = Ret (k', w, effs) -> wstep_ok k k' effs.
Proof. intros Hk H. exact (aa_chain_ok _ _ _ (aa_chain_one _ _ _ (append_and_apply_inv _ _ _ _ _ H)) Hk). Qed.

Definition write_ok (k k' : core) (effs : list eff) : Prop :=
  exists ids keep, k_removed k' = k_removed k ++ ids /\ tail_ids k = ids ++ keep /\
    tail_ids k' = keep ++ todo_cr (xeffs effs) /\ todo_rm (xeffs effs) = [] /\ core_ok k' /\
    StronglySorted N.lt (tail_ids k ++ todo_cr (xeffs effs)).

Lemma do_write_ok k w k' r effs : core_ok k -> do_write k w = Ret (k', r, effs) -> write_ok k k' effs.
Proof.
  intros Hk H. apply do_write_chain_cases in H as [H|(k1 & H & Ho & _ & _ & ids & Er & Ec)].
  - destruct (aa_chain_ok _ _ _ H Hk) as (C & R & T & M). exists [], (tail_ids k). rewrite app_nil_r.
    repeat split; try assumption; try apply C. rewrite <- T. apply C.
  - destruct (aa_chain_ok _ _ _ (aa_chain_one _ _ _ H) Hk) as (C & R & T & M).
    (* a single record causes at most one rotation, so the popped ids are among the old chunks *)
    assert (Hm : exists m, tail_ids k = cids (k_closed k1) ++ m /\ m ++ todo_cr (xeffs effs) = [ck_id (k_open k1)]).
    { unfold tail_ids in T at 1. fold (cids (k_closed k1)) in T.
      destruct H as [|k1 data _ _ _ _ _ _|k1 data head prev st _ _ Hop _ _ _ _]; cbn [xeffs todo_cr flat_map app] in T |- *.
      1,2: rewrite app_nil_r in T; eexists; split; [symmetry; exact T|apply app_nil_r].
      cbn in T. apply app_inj_tail in T as [T1 T2]. exists []. rewrite app_nil_r, T2. auto. }
    destruct Hm as (m & M1 & M2).
    assert (Sall : StronglySorted N.lt (tail_ids k ++ todo_cr (xeffs effs))) by (rewrite <- T; apply C).
    exists ids, (cids (k_closed k') ++ m).
    split; [rewrite Er, R; reflexivity|].
    split; [rewrite M1, Ec, <- app_assoc; reflexivity|].
    split; [unfold tail_ids; fold (cids (k_closed k')); rewrite <- app_assoc, M2, Ho; reflexivity|].
    split; [exact M|]. split; [|exact Sall].
    destruct C as [C1 C2]. split; [rewrite Ho; exact C1|].
    unfold tail_ids in C2 |- *. change (map cid (k_closed k1)) with (cids (k_closed k1)) in C2.
    rewrite Ec, <- app_assoc in C2.
    apply ss_suffix in C2. rewrite Ho. exact C2.
Qed.

Lemma do_flush_ok k cb k' effs : core_ok k -> do_flush k cb = (k', effs) ->
  core_ok k' /\ tail_ids k' = tail_ids k /\ k_removed k' = [] /\
  todo_cr (xeffs effs) = [] /\ todo_rm (xeffs effs) = k_removed k.
Proof.
  intros Hk H. unfold do_flush in H. inversion H; subst. clear H.
  split; [exact Hk|]. split; [reflexivity|]. split; [reflexivity|].
  destruct (k_removed k) as [|a l]; cbn; [split; reflexivity|]. rewrite app_nil_r. split; reflexivity.
Qed.

Definition batch_rm (b : batch) : list N :=
  match b_pos b with
  | BUnlink rem => rem
  | BDone => []
  | _ => match b_nf b with Some r => rm_of r | None => [] end
  end.
(* the removals the worker has accepted and not carried out yet, in execution order *)
Definition w_rm (w : worker) : list N :=
  w_postponed w ++ match w_batch w with Some b => batch_rm b | None => [] end.

Definition early_post (p : wpos) : bool :=
  match p with BCallbacks _ | BPostponed => true | _ => false end.

(* postponed removals exist only while a failed sync is outstanding (or the batch is
   about to carry them out); RemoveChunks is executed only without an outstanding failure *)
Definition wflags (w : worker) : Prop :=
  w_alive w = true ->
  match w_batch w with
  | Some b => (forall rem, b_pos b = BUnlink rem -> w_sync_failed w = false) /\
              (early_post (b_pos b) = true \/ w_postponed w = [] \/ w_sync_failed w = true)
  | None => w_postponed w = [] \/ w_sync_failed w = true
  end.

Lemma core_eqj_ok k k' : core_eqj k k' -> core_ok k -> core_ok k' /\ tail_ids k' = tail_ids k /\ k_removed k' = k_removed k.
Proof.
  intros (_ & Eo & _ & Ec & Er & _) (H1 & H2). unfold core_ok, tail_ids. rewrite Eo, Ec, Er.
  repeat split; assumption.
Qed.

Lemma work_step_frame z b ok z' v : work_step z b ok z' v ->
  z_todo z' = z_todo z /\ z_queue z' = z_queue z /\ z_ghost z' = z_ghost z /\
  z_dropped z' = z_dropped z /\ core_eqj (z_core z) (z_core z').
Proof. destruct 1; repeat split; first [apply core_eqj_refl|apply core_eqj_cache]. Qed.

Lemma w_rm_batch w b : w_batch w = Some b -> w_rm w = w_postponed w ++ batch_rm b.
Proof. unfold w_rm. intros ->. reflexivity. Qed.

Lemma pos_move_rm w b p : pos_move w b p ->
  batch_rm (mkBatch (b_writes b) (b_nf b) p (b_ok b)) = batch_rm b.
Proof.
  unfold batch_rm. cbn [b_pos b_nf].
  intros [i ww Ep _ _|i Ep _|Ep _|i ww Ep _ _|i Ep _|Ep _|Ep En|ids Ep En _|Ep]; rewrite Ep, ?En; reflexivity.
Qed.

Lemma pos_move_flags w b p : w_batch w = Some b -> wflags w -> pos_move w b p -> wflags (w_set_pos w b p).
Proof.
  unfold wflags. intros -> F M Ha. destruct (F Ha) as [F1 F2]. zproj.
  destruct M as [i ww Ep _ _|i Ep _|Ep _|i ww Ep _ _|i Ep _|Ep Hp|Ep En|ids Ep En Hsf|Ep];
    (split; [intros rem [=]; try exact Hsf|]); rewrite Ep in F2; cbn [early_post] in *;
    first [left; reflexivity|exact F2|destruct Hp; auto].
Qed.

(* Postponed removals exist only under an outstanding failure or at the early positions,
   and the unlink position is entered only without one ([MNfRemove]); the failed syncs lead to
   an early position, [WkPostpone] happens under a failure. *)
Lemma work_step_flags z b ok z' v : w_alive (z_w z) = true -> w_batch (z_w z) = Some b ->
  wflags (z_w z) -> work_step z b ok z' v -> wflags (z_w z').
Proof.
  intros Ha Eb F W. pose proof F as F0. unfold wflags in F |- *. rewrite Eb in F. destruct (F Ha) as [F1 F2]. clear F.
  work_cases W; zproj; [apply (pos_move_flags _ _ _ Eb F0 M)|discriminate|..]; intros _; zproj;
    try (split; [intros rem E; first [discriminate E|rewrite Ep in E; discriminate E|eauto]|]);
    rewrite ?Ep in *; cbn [early_post] in *; intuition congruence.
Qed.

Lemma unlink_pos_flags w b id rest : wflags w -> w_alive w = true -> w_batch w = Some b ->
  b_pos b = BUnlink (id :: rest) -> w_sync_failed w = false /\ w_postponed w = [].
Proof.
  unfold wflags. intros F Ha Eb Ep. rewrite Eb in F. destruct (F Ha) as [F1 F2]. rewrite Ep in F2.
  pose proof (F1 _ Ep) as Hsf. destruct F2 as [[=]|[Hpp|Hsf']]; [auto|congruence].
Qed.

Lemma work_step_rm z b ok z' v : dsorted (z_disk z) -> w_batch (z_w z) = Some b ->
  wflags (z_w z) -> w_alive (z_w z) = true -> work_step z b ok z' v ->
  (ids (z_disk z') = ids (z_disk z) /\ (w_alive (z_w z') = true -> w_rm (z_w z') = w_rm (z_w z))) \/
  (exists id, w_rm (z_w z) = id :: w_rm (z_w z') /\ z_disk z' = disk_remove id (z_disk z) /\
              w_alive (z_w z') = true /\ ok = true /\ w_sync_failed (z_w z) = false).
Proof.
  intros Sd Eb F0 Ha W. rewrite (w_rm_batch _ _ Eb).
  (* the usual case: same files, same removals *)
  assert (same : forall P : Prop, ids (z_disk z') = ids (z_disk z) ->
            w_rm (z_w z') = w_postponed (z_w z) ++ batch_rm b ->
            (ids (z_disk z') = ids (z_disk z) /\ (w_alive (z_w z') = true -> w_rm (z_w z') = w_postponed (z_w z) ++ batch_rm b)) \/ P)
    by auto.
  work_cases W; zproj.
  1: { apply same; [reflexivity|]. unfold w_rm. zproj. rewrite (pos_move_rm _ _ _ M). reflexivity. }
  1: { left. split; [reflexivity|discriminate]. }
  all: unfold w_rm, batch_rm in *; zproj.
  - apply same; [apply ids_append, Sd|]. rewrite Ep. reflexivity.
  - apply same; [apply ids_sync, Sd|]. rewrite Ep. reflexivity.
  - apply same; [reflexivity|]. destruct Ep as [[-> _]| ->]; reflexivity.
  - apply same; [reflexivity|]. rewrite Ep. reflexivity.
  - apply same; [apply ids_sync, Sd|]. rewrite Ep. reflexivity.
  - apply same; [reflexivity|]. rewrite Ep. reflexivity.
  - right. exists id. rewrite Epp. repeat split; assumption.
  - destruct (unlink_pos_flags _ _ _ _ F0 Ha Eb Ep) as [Hsf Hpp].
    right. exists id. rewrite Ep, Hpp. repeat split; assumption.
  - apply same; [reflexivity|]. rewrite Ep, Enf. reflexivity.
  - apply same; [reflexivity|]. rewrite Ep, Enf, app_nil_r. reflexivity.
  - apply same; [reflexivity|]. rewrite Ep. reflexivity.
Qed.

Lemma zwork_cases z ok z' v : zwork z ok = Some (z', v) -> dsorted (z_disk z) -> wflags (z_w z) ->
  z_todo z' = z_todo z /\ z_queue z' = z_queue z /\ z_ghost z' = z_ghost z /\
  z_dropped z' = z_dropped z /\ core_eqj (z_core z) (z_core z') /\ wflags (z_w z') /\
  w_alive (z_w z) = true /\
  ((ids (z_disk z') = ids (z_disk z) /\ (w_alive (z_w z') = true -> w_rm (z_w z') = w_rm (z_w z))) \/
   (exists id, w_rm (z_w z) = id :: w_rm (z_w z') /\ z_disk z' = disk_remove id (z_disk z) /\
               w_alive (z_w z') = true /\ ok = true /\ w_sync_failed (z_w z) = false)).
Proof.
  intros H Sd F. apply zwork_inv in H as (b & Ha & Eb & W).
  destruct (work_step_frame _ _ _ _ _ W) as (Ht & Hq & Hg & Hd & Hc).
  refine (conj Ht (conj Hq (conj Hg (conj Hd (conj Hc (conj _ (conj Ha _))))))).
  - exact (work_step_flags _ _ _ _ _ Ha Eb F W).
  - exact (work_step_rm _ _ _ _ _ Sd Eb F Ha W).
Qed.

(* ================================================================== the bookkeeping invariant *)
(* [gone]: files deleted so far, oldest first. [rmw]: removals accepted by the worker
   and not yet executed (frozen when the worker thread has ended). [keep]: the
   files of the chunks the caller still lists (closed ++ open) that exist already. *)
Record cinv (z : sys2) (gone rmw keep : list N) : Prop := mkCinv {
  ci_core : core_ok (z_core z);
  ci_alive : w_alive (z_w z) = true -> rmw = w_rm (z_w z);
  ci_present : ids (z_disk z) =
               rmw ++ queue_rm (z_queue z) ++ todo_rm (z_todo z) ++ k_removed (z_core z) ++ keep;
  ci_keep : keep ++ todo_cr (z_todo z) = tail_ids (z_core z);
  ci_created : g_created (z_ghost z) = gone ++ ids (z_disk z);
  ci_sorted : StronglySorted N.lt (gone ++ ids (z_disk z) ++ todo_cr (z_todo z));
  ci_flags : wflags (z_w z);
  ci_removed : forall l U id, In (l, U) (g_removals (z_ghost z)) -> In id l ->
     In id gone \/ In id (rmw ++ queue_rm (z_queue z) ++ todo_rm (z_todo z)) }.

Definition Inv (z : sys2) : Prop := exists gone rmw keep, cinv z gone rmw keep.

Lemma cinv_dsorted z gone rmw keep : cinv z gone rmw keep -> dsorted (z_disk z).
Proof.
  intros H. pose proof (ci_sorted _ _ _ _ H) as S. apply ss_suffix in S. apply ss_prefix in S. exact S.
Qed.

Lemma cinv_frame z z' gone rmw keep : cinv z gone rmw keep ->
  core_eqj (z_core z) (z_core z') -> z_todo z' = z_todo z -> z_queue z' = z_queue z ->
  ids (z_disk z') = ids (z_disk z) ->
  g_created (z_ghost z') = g_created (z_ghost z) -> g_removals (z_ghost z') = g_removals (z_ghost z) ->
  (w_alive (z_w z') = true -> w_alive (z_w z) = true /\ w_rm (z_w z') = w_rm (z_w z)) ->
  wflags (z_w z') -> cinv z' gone rmw keep.
Proof.
  intros [C A P K Cr S F R] Hc Ht Hq Hd Hg1 Hg2 Hw Hf.
  destruct (core_eqj_ok _ _ Hc C) as (C' & T' & R').
  constructor; rewrite ?Ht, ?Hq, ?Hd, ?Hg1, ?Hg2, ?T', ?R'; try assumption.
  intros Ha. destruct (Hw Ha) as [Ha' E]. rewrite E. apply A. exact Ha'.
Qed.

(* membership in a concatenation, from the hypotheses reverted into the goal *)
Ltac in_app := rewrite ?in_app_iff; cbn [In]; tauto.

Lemma cinv_set_core z k' gone rmw keep : cinv z gone rmw keep -> core_eqj (z_core z) k' ->
  cinv (set_core z k') gone rmw keep.
Proof.
  intros Hc He. eapply cinv_frame; [exact Hc|exact He|reflexivity..| |apply Hc].
  intros Ha. split; [exact Ha|reflexivity].
Qed.

Lemma inv_zcall z o z' v : Inv z -> zcall z o = Some (z', v) -> Inv z'.
Proof.
  intros (gone & rmw & keep & Hc) H. pose proof Hc as [C A P K Cr S F R].
  apply zcall_inv in H as (Et & _ & H). rewrite Et in P, K, S, R.
  cbn [todo_rm todo_cr flat_map app] in P, K, S, R. rewrite app_nil_r in K. subst keep.
  destruct H as [w k r effs Ew|cb k effs Ef|from to k items Er| |o r _].
  - apply do_write_ok in Ew as (ids0 & keep' & R1 & T1 & T2 & M & C' & S'); [|exact C].
    exists gone, rmw, keep'. constructor; zproj; fold (xeffs effs).
    + exact C'.
    + exact A.
    + rewrite M, R1, P, T1, <- !app_assoc. reflexivity.
    + symmetry. exact T2.
    + exact Cr.
    + assert (P2 : ids (z_disk z) = (rmw ++ queue_rm (z_queue z) ++ k_removed (z_core z)) ++ tail_ids (z_core z))
        by (rewrite P, <- !app_assoc; reflexivity).
      set (P' := rmw ++ queue_rm (z_queue z) ++ k_removed (z_core z)) in *.
      rewrite P2 in S |- *. rewrite app_nil_r in S.
      replace (gone ++ (P' ++ tail_ids (z_core z)) ++ todo_cr (xeffs effs))
        with ((gone ++ P') ++ tail_ids (z_core z) ++ todo_cr (xeffs effs)) by (rewrite <- !app_assoc; reflexivity).
      apply ss_glue; [rewrite <- app_assoc; exact S|exact S'|apply tail_ids_ne].
    + exact F.
    + rewrite M. exact R.
  - apply do_flush_ok in Ef as (C' & T & R0 & Mc & Mr); [|exact C].
    exists gone, rmw, (tail_ids (z_core z)). constructor; unfold flush_ghost; zproj; fold (xeffs effs).
    + exact C'.
    + exact A.
    + rewrite Mr, R0. cbn [app]. exact P.
    + rewrite Mc, T, app_nil_r. reflexivity.
    + exact Cr.
    + rewrite Mc. exact S.
    + exact F.
    + rewrite Mr. intros l U id Hin Hid.
      destruct (k_removed (z_core z)) as [|a rl] eqn:Er.
      * destruct (R _ _ _ Hin Hid) as [G|G]; [left; exact G|right; exact G].
      * apply in_app_or in Hin as [Hin|[Hin|[]]].
        -- destruct (R _ _ _ Hin Hid) as [G|G]; [left; exact G|right; revert G; in_app].
        -- inversion Hin; subst. right. revert Hid; in_app.
  - exists gone, rmw, (tail_ids (z_core z)). apply cinv_set_core; [exact Hc|].
    pose proof (JournalFacts.do_read_core (z_core z) (z_disk z) from to) as E. rewrite Er in E. exact E.
  - exists gone, rmw, (tail_ids (z_core z)). apply cinv_set_core; [exact Hc|apply core_eqj_cache].
  - exists gone, rmw, (tail_ids (z_core z)). exact Hc.
Qed.

Lemma inv_zeff z z' v : Inv z -> zeff z = Some (z', v) -> Inv z'.
Proof.
  intros (gone & rmw & keep & Hc) H. pose proof Hc as [C A P K Cr S F R].
  pose proof (cinv_dsorted _ _ _ _ Hc) as Sd.
  apply zeff_inv in H. destruct H as [id t Et|id data t Et|r t Et]; rewrite Et in P, K, S, R;
    cbn [todo_cr todo_rm flat_map xcr_of xrm_of app] in P, K, S, R;
    fold (todo_cr t) in K, S; fold (todo_rm t) in P, R.
  - (* create: the new file is the newest *)
    assert (Hput : disk_put (mkFile id [] 0) (z_disk z) = z_disk z ++ [mkFile id [] 0]).
    { apply disk_put_last. cbn [f_id]. rewrite Forall_forall. intros j Hj.
      apply ss_suffix in S. apply ss_app_inv in S as (_ & _ & S). apply S; [exact Hj|left; reflexivity]. }
    assert (Hids : ids (z_disk z ++ [mkFile id [] 0]) = ids (z_disk z) ++ [id]).
    { unfold ids. rewrite map_app. reflexivity. }
    exists gone, rmw, (keep ++ [id]). constructor; zproj; rewrite ?Hput, ?Hids.
    + exact C.
    + exact A.
    + rewrite P, <- !app_assoc. reflexivity.
    + rewrite <- app_assoc. exact K.
    + rewrite Cr, app_assoc. reflexivity.
    + rewrite <- app_assoc. exact S.
    + exact F.
    + exact R.
  - exists gone, rmw, keep. constructor; zproj; rewrite ?ids_append by exact Sd; assumption.
  - exists gone, rmw, keep. constructor; zproj; try assumption.
    + rewrite queue_rm_app. unfold queue_rm at 2. cbn [flat_map]. rewrite app_nil_r, <- !app_assoc.
      rewrite <- !app_assoc in P. exact P.
    + intros l U id Hin Hid. destruct (R _ _ _ Hin Hid) as [G|G]; [left; exact G|right].
      rewrite queue_rm_app. unfold queue_rm at 2. cbn [flat_map]. rewrite app_nil_r, <- app_assoc. exact G.
Qed.

Lemma queue_rm_batch_reqs b : queue_rm (batch_reqs b) = match b_nf b with Some r => rm_of r | None => [] end.
Proof.
  unfold batch_reqs. rewrite queue_rm_app. replace (queue_rm (map req_of_ww (b_writes b))) with (@nil N).
  - destruct (b_nf b); [apply app_nil_r|reflexivity].
  - induction (b_writes b) as [|w l IH]; [reflexivity|exact IH].
Qed.

(* the removals of the queue that the new batch holds move to the worker *)
Lemma inv_zrecv z k nf z' v : Inv z -> zrecv z k nf = Some (z', v) -> Inv z'.
Proof.
  intros (gone & rmw & keep & Hc) H. pose proof Hc as [C A P K Cr S F R].
  apply zrecv_inv in H as [_ H]. destruct H as [b q' Ha Eb Eq _ Hp _].
  assert (Hrm : batch_rm b = match b_nf b with Some r => rm_of r | None => [] end).
  { unfold batch_rm. destruct Hp as [[-> _]|[-> _]]; reflexivity. }
  specialize (A Ha). unfold w_rm in A. rewrite Eb, app_nil_r in A. subst rmw.
  rewrite Eq, queue_rm_app, queue_rm_batch_reqs, <- Hrm in P, R.
  exists gone, (w_postponed (z_w z) ++ batch_rm b), keep. constructor; zproj; try assumption.
  - intros _. reflexivity.
  - rewrite P, <- !app_assoc. reflexivity.
  - unfold wflags in F |- *. rewrite Eb in F. zproj. intros _.
    split; [intros rem E; destruct Hp as [[E' _]|[E' _]]; congruence|right; exact (F Ha)].
  - intros l U id Hin Hid. destruct (R _ _ _ Hin Hid) as [G|G]; [left; exact G|right].
    rewrite <- !app_assoc in *. exact G.
Qed.

Lemma inv_zwork z ok z' v : Inv z -> zwork z ok = Some (z', v) -> Inv z'.
Proof.
  intros (gone & rmw & keep & Hc) H. pose proof Hc as [C A P K Cr S F R].
  pose proof (cinv_dsorted _ _ _ _ Hc) as Sd.
  destruct (zwork_cases _ _ _ _ H Sd F) as (Ht & Hq & Hg & _ & He & F' & Ha & Hk).
  specialize (A Ha).
  destruct Hk as [(Hi & Hr)|(id & Hr & Hd & Ha' & _ & _)].
  - exists gone, rmw, keep. eapply cinv_frame; [exact Hc|exact He|exact Ht|exact Hq|exact Hi| | | |exact F'].
    + rewrite Hg. reflexivity.
    + rewrite Hg. reflexivity.
    + intros Ha'. split; [exact Ha|apply Hr; exact Ha'].
  - (* an unlink: the file is the oldest one present *)
    destruct (core_eqj_ok _ _ He C) as (C' & T' & R').
    rewrite Hr in A. subst rmw. cbn [app] in P.
    assert (Hi : ids (z_disk z') = w_rm (z_w z') ++ queue_rm (z_queue z) ++ todo_rm (z_todo z) ++ k_removed (z_core z) ++ keep).
    { rewrite Hd. apply ids_remove_head; [exact P|]. rewrite <- P. exact Sd. }
    exists (gone ++ [id]), (w_rm (z_w z')), keep.
    constructor; rewrite ?Ht, ?Hq, ?Hg, ?T', ?R'; try assumption.
    + intros _. reflexivity.
    + rewrite Cr, P, Hi, <- app_assoc. reflexivity.
    + rewrite P in S. rewrite Hi, <- app_assoc. cbn [app] in S |- *. exact S.
    + intros l U id' Hin Hid. destruct (R _ _ _ Hin Hid) as [G|G]; [left; revert G; in_app|].
      cbn [app] in G. destruct G as [G|G]; [left; subst; in_app|right; exact G].
Qed.

Lemma inv_zstep z e z' v : Inv z -> zstep z e = Some (z', v) -> Inv z'.
Proof.
  intros Hi H. destruct e as [o| |k nf|ok|].
  - eapply inv_zcall; eassumption.
  - eapply inv_zeff; eassumption.
  - eapply inv_zrecv; eassumption.
  - eapply inv_zwork; eassumption.
  - apply zdrop_inv in H as (Et & _ & ->).
    destruct Hi as (gone & rmw & keep & Hc). exists gone, rmw, keep.
    eapply cinv_frame; [exact Hc|apply core_eqj_refl|zproj; symmetry; exact Et|reflexivity..| |apply Hc].
    intros Ha. split; [exact Ha|reflexivity].
Qed.

Definition head0 (cfg : config) : bytes := enc_record (RState (m_rs (sm_new cfg))).
Definition core0 (cfg : config) : core :=
  mkCore cfg (sm_new cfg) (ck_push (mkChunk 0 []) (blen (head0 cfg))) [] [] [] 0 0 0.
Definition z0_of (cfg : config) : sys2 :=
  sys2_of (mkSys (core0 cfg) [mkFile 0 (head0 cfg) 0] [] [mkWF 0 None] []).

Lemma inv_fresh S y old fc : AckDurable.fresh S y old fc -> Inv (sys2_of y).
Proof.
  intros O. pose proof (AckDurable.fresh_ids _ _ _ _ O) as Hids.
  pose proof (proj2 (JournalDisk.dsorted_iff _) (AckDurable.fr_sorted _ _ _ _ O)) as Hsd.
  destruct (AckDurable.fr_files _ _ _ _ O) as [pl Hfl].
  exists [], [], (ids (y_disk y)).
  constructor; unfold sys2_of; zproj; cbn [todo_rm todo_cr flat_map app].
  - split.
    + rewrite <- (AckDurable.fr_id _ _ _ _ O), <- (AckDurable.fr_end _ _ _ _ O). apply (AckDurable.fr_pos _ _ _ _ O).
    + unfold tail_ids. change (map cid (k_closed (y_core y))) with (cids (k_closed (y_core y))).
      rewrite <- Hids. exact Hsd.
  - intros _. reflexivity.
  - rewrite (AckDurable.fr_queue _ _ _ _ O), (AckDurable.fr_removed _ _ _ _ O). reflexivity.
  - rewrite app_nil_r. unfold tail_ids, ids. exact Hids.
  - reflexivity.
  - rewrite app_nil_r. exact Hsd.
  - intros _. left. reflexivity.
  - intros l U id [].
Qed.

Lemma Inv_reach S Q cfg d z : AckDurable.opens_fresh S Q cfg d -> reach cfg d z -> Inv z.
Proof.
  intros Hd. revert z. apply (reach_ind Inv); [|apply inv_zstep].
  intros y Ho. destruct (Hd y Ho) as (old & fc & O & _). exact (inv_fresh S y old fc O).
Qed.

Definition opens_nil cfg := AckDurable.opens_fresh_nil (fun _ => True) (fun _ => True) cfg (fun _ _ => I).

Lemma inv_init cfg : Inv (z0_of cfg).
Proof. destruct (opens_nil cfg _ eq_refl) as (old & fc & O & _). exact (inv_fresh _ _ old fc O). Qed.

Theorem zreach_Inv cfg z : zreach cfg z -> Inv z.
Proof. exact (Inv_reach _ _ cfg [] z (opens_nil cfg)). Qed.

(* ================================================================== C08: oldest first *)
Lemma Inv_contiguous z : Inv z -> files_contiguous z.
Proof. intros (gone & rmw & keep & Hc). exists gone, []. rewrite app_nil_r. apply Hc. Qed.

Theorem C08_oldest_first : forall cfg z, zreach cfg z -> files_contiguous z.
Proof. intros cfg z Hr. apply Inv_contiguous, (zreach_Inv cfg), Hr. Qed.

(* ================================================================== C14: quiescence *)
Lemma idle_quiesced z : z_dropped z = true -> worker_idle2 z -> quiesced z.
Proof.
  intros Hd (Hq & Hb & Ht). split; [exact Hd|].
  intros e. destruct e as [o| |k nf|ok|]; cbn [zstep].
  - left. unfold zcall. rewrite Ht, Hd. reflexivity.
  - left. unfold zeff. rewrite Ht. reflexivity.
  - left. unfold zrecv. rewrite Hb, Hq. destruct (w_alive (z_w z)); reflexivity.
  - left. unfold zwork. rewrite Hb. destruct (w_alive (z_w z)); reflexivity.
  - right. rewrite Ht. eexists. split; reflexivity.
Qed.

Theorem C14_quiescent : forall cfg z, zreach cfg z -> z_dropped z = true -> worker_idle2 z -> quiesced z.
Proof. intros cfg z _. apply idle_quiesced. Qed.

(* ================================================================== C08: liveness *)
Definition ffinv (z : sys2) : Prop :=
  w_alive (z_w z) = true /\ w_sync_failed (z_w z) = false /\ w_postponed (z_w z) = [].

Lemma ff_zwork z z' v : ffinv z -> zwork z true = Some (z', v) -> ffinv z'.
Proof.
  intros (Ha & Hs & Hp) H. apply zwork_inv in H as (b & _ & _ & W). unfold ffinv.
  remember true as ok eqn:Eok. destruct W; zproj; try discriminate; repeat split; congruence.
Qed.

Lemma ff_zstep z e z' v : ffinv z -> ev_fault_free e = true -> zstep z e = Some (z', v) -> ffinv z'.
Proof.
  intros Hf He H. pose proof (zstep_w _ _ _ _ H) as Ew. unfold ffinv in *.
  destruct e as [o| |k nf|ok|]; try (rewrite Ew; exact Hf).
  - apply zrecv_inv in H as [_ []]. exact Hf.
  - cbn [ev_fault_free] in He. subst ok. eapply ff_zwork; eassumption.
Qed.

(* an idle worker that never saw a failure holds no removal back: every requested id is gone *)
Lemma idle_removals_done z : Inv z -> ffinv z -> worker_idle2 z -> removals_done z.
Proof.
  intros (gone & rmw & keep & Hc) (Ha & Hs & Hp) (Hq & Hb & Ht).
  intros l U id Hin Hid. apply disk_get_None.
  pose proof (ci_alive _ _ _ _ Hc Ha) as Erm. unfold w_rm in Erm. rewrite Hb, Hp in Erm. cbn [app] in Erm.
  destruct (ci_removed _ _ _ _ Hc _ _ _ Hin Hid) as [G|G].
  - intros Hi. pose proof (ci_sorted _ _ _ _ Hc) as S. rewrite Ht in S. cbn [todo_cr flat_map] in S.
    rewrite app_nil_r in S. eapply ss_disj; [exact S|exact G|exact Hi].
  - rewrite Erm, Hq, Ht in G. destruct G.
Qed.

Lemma ffinv_reach cfg d z : reach_ff cfg d z -> ffinv z.
Proof.
  revert z. apply (reach_ff_ind ffinv).
  - intros y _. repeat split.
  - intros z e z' v He Hf Hs. eapply ff_zstep; eauto.
Qed.

Lemma removals_done_reach S Q cfg d z : AckDurable.opens_fresh S Q cfg d -> reach_ff cfg d z ->
  worker_idle2 z -> removals_done z.
Proof.
  intros Hd Hff. apply idle_removals_done; [|exact (ffinv_reach cfg d z Hff)].
  exact (Inv_reach S Q cfg d z Hd (reach_ff_reach cfg d z Hff)).
Qed.

Theorem C08_liveness : forall cfg z, zreach_ff cfg z -> worker_idle2 z -> removals_done z.
Proof. intros cfg z. exact (removals_done_reach _ _ cfg [] z (opens_nil cfg)). Qed.

Print Assumptions C08_pop_obsolete_spec_partial.
Print Assumptions C08_pop_obsolete_spec_refuted.
Print Assumptions C14_quiescent.
Print Assumptions C08_oldest_first.
Print Assumptions C08_liveness.
