(* C04 (part 1): flush acknowledgements on the L2 system. The tools for every proof over Model/Sys.v: induction
   over runs ([reach], [reach_ind]; [zreach_ind] at the empty directory), each transition function as an inductive relation ([call_step], [eff_step],
   [recv_step], [work_step] with [work_cases]; exact: [zcall_of_step], [zeff_of_step], [zwork_of_step]), what a
   step does to the disk (one [dop], whatever the directory: [zstep_local]) and what a write call
   does to the caller state ([aa_res], [aa_chain], [do_write_chain]). Then [pend], the callback ids invoked and
   still to be invoked, in request order: C04_synced_le_written, C04_once_in_order, C04_exactly_once. The
   durability theorem C04_ack_after_sync is in AckDurable.v. *)
From Coq Require Import List NArith Bool Lia Arith Sorting.Sorted.
From RaftLog Require Import Base.Bytes Model.Types Model.Codec Model.Cache Model.Core
  Model.Recover Model.Run Model.Sys Spec.Durable.
From RaftLog Require Import Proofs.CodecFacts.
From RaftLog Require Proofs.RecoverFacts Proofs.OrderFacts Proofs.JournalDisk Proofs.JournalChunk Proofs.SmFacts Proofs.JournalFacts.
Import ListNotations.
Local Open Scope N_scope.
(* not Local: these settings hold in every file that imports this one *)
Arguments N.add : simpl never.
Arguments N.sub : simpl never.
Arguments N.mul : simpl never.
Arguments N.eqb : simpl never.
Arguments N.ltb : simpl never.
Arguments N.leb : simpl never.
Arguments N.compare : simpl never.
Arguments N.of_nat : simpl never.
Arguments N.to_nat : simpl never.

Notation blen b := (N.of_nat (length b)).

Lemma zrun_inv (P : sys2 -> Prop) :
  (forall z e z' v, P z -> zstep z e = Some (z', v) -> P z') ->
  forall es z0 z vis, P z0 -> zrun z0 es = Some (z, vis) -> P z.
Proof.
  intros Hstep es. induction es as [|e es IH]; intros z0 z vis H0 Hr; simpl in Hr.
  - inversion Hr; subst; exact H0.
  - destruct (zstep z0 e) as [[z1 v1]|] eqn:E; [|discriminate].
    destruct (zrun z1 es) as [[z2 v2]|] eqn:E2; [|discriminate].
    inversion Hr; subst. eapply IH; [|exact E2]. eapply Hstep; eauto.
Qed.

Lemma zrun_inv_ff (P : sys2 -> Prop) :
  (forall z e z' v, ev_fault_free e = true -> P z -> zstep z e = Some (z', v) -> P z') ->
  forall es z0 z vis, forallb ev_fault_free es = true -> P z0 -> zrun z0 es = Some (z, vis) -> P z.
Proof.
  intros Hstep es. induction es as [|e es IH]; intros z0 z vis Hff H0 Hr; simpl in Hr.
  - inversion Hr; subst; exact H0.
  - simpl in Hff. apply andb_true_iff in Hff. destruct Hff as [He Hff].
    destruct (zstep z0 e) as [[z1 v1]|] eqn:E; [|discriminate].
    destruct (zrun z1 es) as [[z2 v2]|] eqn:E2; [|discriminate].
    inversion Hr; subst. eapply IH; [exact Hff| |exact E2]. eapply Hstep; eauto.
Qed.

Definition head0 (cfg : config) : bytes := enc_record (RState (m_rs (sm_new cfg))).
Definition core0 (cfg : config) : core :=
  mkCore cfg (sm_new cfg) (ck_push (mkChunk 0 []) (blen (head0 cfg))) [] [] [] 0 0 0.
Definition zstart (cfg : config) : sys2 :=
  mkSys2 (core0 cfg) [] [mkFile 0 (head0 cfg) 0] [] (mkWorker [mkWF 0 None] true None false [])
         [] false (mkGhost [] [] [] [0]).

Lemma zinit_eq cfg : zinit cfg [] = Some (zstart cfg).
Proof. reflexivity. Qed.

(* The states an instance reaches when started on directory [d]. [zreach cfg] (Spec/Durable.v) unfolds
   to [reach cfg []] and [zreach_from cfg d] (RestartSys.v) to [reach cfg d], so a theorem over [reach]
   proves both by [exact]. *)
Definition reach (cfg : config) (d : disk) (z : sys2) : Prop :=
  exists z0 es vis, zinit cfg d = Some z0 /\ zrun z0 es = Some (z, vis).
Definition reach_ff (cfg : config) (d : disk) (z : sys2) : Prop :=
  exists z0 es vis, zinit cfg d = Some z0 /\ forallb ev_fault_free es = true /\ zrun z0 es = Some (z, vis).

Lemma zinit_inv cfg d z0 : zinit cfg d = Some z0 -> exists y, open_dir cfg d = OpenOk y /\ z0 = sys2_of y.
Proof.
  unfold zinit. destruct (open_dir cfg d) as [y|e d'] eqn:E; [|discriminate].
  intros H. inversion H. eauto.
Qed.

Lemma reach_ind (P : sys2 -> Prop) cfg d :
  (forall y, open_dir cfg d = OpenOk y -> P (sys2_of y)) ->
  (forall z e z' v, P z -> zstep z e = Some (z', v) -> P z') ->
  forall z, reach cfg d z -> P z.
Proof.
  intros H0 Hs z (z0 & es & vis & Hi & Hr). apply zinit_inv in Hi. destruct Hi as (y & Ho & ->).
  eapply zrun_inv; eauto.
Qed.

Lemma reach_ff_ind (P : sys2 -> Prop) cfg d :
  (forall y, open_dir cfg d = OpenOk y -> P (sys2_of y)) ->
  (forall z e z' v, ev_fault_free e = true -> P z -> zstep z e = Some (z', v) -> P z') ->
  forall z, reach_ff cfg d z -> P z.
Proof.
  intros H0 Hs z (z0 & es & vis & Hi & Hff & Hr). apply zinit_inv in Hi. destruct Hi as (y & Ho & ->).
  eapply zrun_inv_ff; eauto.
Qed.

Lemma reach_ff_reach cfg d z : reach_ff cfg d z -> reach cfg d z.
Proof. intros (z0 & es & vis & H0 & _ & Hr). exists z0, es, vis. auto. Qed.

(* the empty directory: for the files whose invariants start at [zstart cfg] *)
Lemma zreach_ind (P : sys2 -> Prop) cfg :
  P (zstart cfg) ->
  (forall z e z' v, P z -> zstep z e = Some (z', v) -> P z') ->
  forall z, zreach cfg z -> P z.
Proof. intros H0. apply (reach_ind P cfg []). intros y [= <-]. exact H0. Qed.

(* reduce the projections of a state written with the setters of Sys.v, everywhere, and nothing else *)
Ltac zproj := cbn [z_core z_todo z_disk z_queue z_w z_acks z_dropped z_ghost
                   w_files w_alive w_batch w_sync_failed w_postponed
                   b_writes b_nf b_pos b_ok
                   set_core set_todo set_disk set_queue set_w add_ack set_ghost
                   w_set_batch w_set_pos w_die
                   g_writes g_flushed g_removals g_created] in *.

(* Each transition function of Model/Sys.v is characterised once, by an inductive
   relation with one constructor per action; the successor state is written with the
   setters of Sys.v.  [zcall_inv], [zeff_inv], [zrecv_inv] and [zwork_inv] turn a step
   equation into the relation; [zdrop_inv] gives the one successor of a drop.  Back from the
   relation to the step: [zcall_of_step], [zeff_of_step], [zwork_of_step] ([recv_step] forgets how
   many requests were asked for and has no way back). *)

Definition observe (z : sys2) (o : op) : option result :=
  match o with
  | ODumpIter => Some (ResRead (do_dump_iter (z_core z) (z_disk z)))
  | OStat => Some (ResStat (do_stat (z_core z)) (m_rs (k_sm (z_core z))))
  | OSize => Some (ResSize (do_on_disk_size (z_core z)))
  | OIdle => match z_queue z with
             | [] => if worker_quiet z then Some ResUnit else None
             | _ => None
             end
  | _ => None
  end.

Definition flush_ghost (z : sys2) (cb : bool) : ghost :=
  let g := z_ghost z in
  let upto := ck_end (k_open (z_core z)) in
  mkGhost (g_writes g)
          (g_flushed g ++ [(if cb then Some (k_next_cb (z_core z)) else None, upto, length (g_writes g))])
          (match k_removed (z_core z) with [] => g_removals g | ids => g_removals g ++ [(ids, upto)] end)
          (g_created g).

Inductive call_step (z : sys2) : op -> sys2 -> list vis -> Prop :=
| CallWrite w k r effs :
    do_write (z_core z) w = Ret (k, r, effs) ->
    call_step z (OW w)
      (set_ghost (set_todo (set_core z k) (flat_map expand_eff effs))
         (mkGhost (g_writes (z_ghost z) ++ [(w, r)]) (g_flushed (z_ghost z))
                  (g_removals (z_ghost z)) (g_created (z_ghost z))))
      [VResult (ResW r)]
| CallFlush cb k effs :
    do_flush (z_core z) cb = (k, effs) ->
    call_step z (OFlush cb)
      (set_ghost (set_todo (set_core z k) (flat_map expand_eff effs)) (flush_ghost z cb))
      [VResult ResUnit]
| CallRead from to k items :
    do_read (z_core z) (z_disk z) from to = (k, items) ->
    call_step z (ORead from to) (set_core z k) [VResult (ResRead items)]
| CallDrain :
    call_step z ODrain
      (set_core z (core_with_cache (z_core z) (cache_drain (m_cache (k_sm (z_core z))))))
      [VResult ResUnit]
| CallSame o r : observe z o = Some r -> call_step z o z [VResult r].

Lemma zcall_inv z o z' v : zcall z o = Some (z', v) ->
  z_todo z = [] /\ z_dropped z = false /\ call_step z o z' v.
Proof.
  unfold zcall. destruct (z_todo z); [|discriminate]. destruct (z_dropped z); [discriminate|].
  intros H. split; [reflexivity|]. split; [reflexivity|].
  destruct o as [w|cb|from to| | | | | |cfg'].
  - destruct (do_write (z_core z) w) as [[[k r] effs]|] eqn:E; [|discriminate].
    injection H as <- <-. now apply CallWrite.
  - destruct (do_flush (z_core z) cb) as [k effs] eqn:E. injection H as <- <-.
    destruct cb; now apply CallFlush.
  - destruct (do_read (z_core z) (z_disk z) from to) as [k items] eqn:E. injection H as <- <-.
    now apply CallRead.
  - injection H as <- <-. now apply CallSame.
  - injection H as <- <-. now apply CallSame.
  - injection H as <- <-. now apply CallSame.
  - assert (E : observe z OIdle = Some ResUnit /\ (z', v) = (z, [VResult ResUnit])).
    { unfold observe. destruct (z_queue z); [|discriminate]. destruct (worker_quiet z); [|discriminate].
      injection H as <- <-. auto. }
    destruct E as [E E2]. injection E2 as -> ->. now apply CallSame.
  - injection H as <- <-. apply CallDrain.
  - discriminate.
Qed.

Lemma do_flush_eq k cb :
  do_flush k cb =
  (mkCore (k_cfg k) (k_sm k) (k_open k) [] (k_closed k) [] (k_hit k) (k_miss k)
          (if cb then k_next_cb k + 1 else k_next_cb k),
   ESend (WWrite (ck_end (k_open k)) (k_pending k) (if cb then Some (k_next_cb k) else None))
   :: match k_removed k with [] => [] | ids => [ESend (WRemove ids)] end).
Proof. reflexivity. Qed.

Inductive eff_step (z : sys2) : sys2 -> list vis -> Prop :=
| EffCreate id t :
    z_todo z = XCreate id :: t ->
    eff_step z
      (set_ghost (set_todo (set_disk z (disk_put (mkFile id [] 0) (z_disk z))) t)
         (mkGhost (g_writes (z_ghost z)) (g_flushed (z_ghost z)) (g_removals (z_ghost z))
                  (g_created (z_ghost z) ++ [id])))
      [VCreate id]
| EffHead id data t :
    z_todo z = XWriteHead id data :: t ->
    eff_step z (set_todo (set_disk z (disk_append id data (z_disk z))) t)
      [VWrite true id (blen data) true]
| EffSend r t :
    z_todo z = XSend r :: t ->
    eff_step z (set_todo (set_queue z (z_queue z ++ [r])) t) [].

Lemma zeff_inv z z' v : zeff z = Some (z', v) -> eff_step z z' v.
Proof.
  unfold zeff. destruct (z_todo z) as [|[id|id data|r] t] eqn:Et; [discriminate| | |];
    intros H; injection H as <- <-; econstructor; exact Et.
Qed.

Lemma zdrop_inv z z' v : zstep z ZDrop = Some (z', v) ->
  z_todo z = [] /\ v = [] /\
  z' = mkSys2 (z_core z) [] (z_disk z) (z_queue z) (z_w z) (z_acks z) true (z_ghost z).
Proof.
  simpl. destruct (z_todo z); [|discriminate]. intros H. injection H as <- <-. auto.
Qed.

Definition req_of_ww (w : wwrite) : wreq := WWrite (ww_upto w) (ww_data w) (ww_cb w).

Lemma take_writes_spec k : forall q ws rest,
  take_writes k q = Some (ws, rest) -> q = map req_of_ww ws ++ rest.
Proof.
  induction k as [|k IH]; intros q ws rest H; simpl in H.
  - inversion H; subst. reflexivity.
  - destruct q as [|[upto data cb|off p|ids] q]; try discriminate.
    destruct (take_writes k q) as [[ws1 rest1]|] eqn:E; [|discriminate].
    inversion H; subst. simpl. unfold req_of_ww at 1; simpl. f_equal. now apply IH.
Qed.

Definition batch_reqs (b : batch) : list wreq :=
  map req_of_ww (b_writes b) ++ match b_nf b with Some r => [r] | None => [] end.

Inductive recv_step (z : sys2) : sys2 -> Prop :=
| RecvStep b q' :
    w_alive (z_w z) = true -> w_batch (z_w z) = None ->
    z_queue z = batch_reqs b ++ q' ->
    b_ok b = true ->
    (b_pos b = BWrite 0 /\ b_writes b <> [] \/
     b_pos b = BNonFlush /\ b_writes b = [] /\ b_nf b <> None) ->
    (forall u d c, b_nf b <> Some (WWrite u d c)) ->
    recv_step z (set_w (set_queue z q') (w_set_batch (z_w z) (Some b))).

Lemma zrecv_inv z k nf z' v : zrecv z k nf = Some (z', v) -> v = [] /\ recv_step z z'.
Proof.
  unfold zrecv. destruct (w_alive (z_w z)) eqn:Ea; [|discriminate].
  destruct (w_batch (z_w z)) eqn:Eb; [discriminate|].
  destruct (z_queue z) as [|r q] eqn:Eq; [discriminate|].
  assert (G : forall b q', r :: q = batch_reqs b ++ q' -> b_ok b = true ->
            (b_pos b = BWrite 0 /\ b_writes b <> [] \/
             b_pos b = BNonFlush /\ b_writes b = [] /\ b_nf b <> None) ->
            (forall u d c, b_nf b <> Some (WWrite u d c)) ->
            [] = @nil vis /\ recv_step z (set_w (set_queue z q') (w_set_batch (z_w z) (Some b)))).
  { intros b q' Hq Hok Hp Hn. split; [reflexivity|]. apply RecvStep; auto. congruence. }
  destruct r as [u data cb|off prev|rids].
  - destruct (take_writes k q) as [[ws rest]|] eqn:Et; [|discriminate].
    apply take_writes_spec in Et. subst q.
    assert (Hw : forall onf, BWrite 0 = BWrite 0 /\ mkWW u data cb :: ws <> [] \/
                   BWrite 0 = BNonFlush /\ mkWW u data cb :: ws = [] /\ onf <> @None wreq)
      by (left; split; [reflexivity|discriminate]).
    destruct nf.
    + destruct rest as [|[u2 d2 c2|off2 prev2|rids2] rest2]; try discriminate;
        intros H; injection H as <- <-;
        (apply (G (mkBatch _ _ _ _)); [|reflexivity|apply Hw|intros; discriminate]);
        unfold batch_reqs; simpl; rewrite <- app_assoc; reflexivity.
    + intros H.
      assert (H' : Some (set_w (set_queue z rest)
                (w_set_batch (z_w z) (Some (mkBatch (mkWW u data cb :: ws) None (BWrite 0) true))), @nil vis)
                = Some (z', v)) by (destruct rest as [|[] ?]; exact H).
      injection H' as <- <-.
      apply (G (mkBatch _ _ _ _)); [|reflexivity|apply Hw|intros; discriminate].
      unfold batch_reqs; simpl. rewrite app_nil_r. reflexivity.
  - destruct (Nat.eqb k 0 && negb nf); [|discriminate]. intros H; injection H as <- <-.
    apply (G (mkBatch _ _ _ _)); [reflexivity|reflexivity| |intros; discriminate].
    right. repeat split; discriminate.
  - destruct (Nat.eqb k 0 && negb nf); [|discriminate]. intros H; injection H as <- <-.
    apply (G (mkBatch _ _ _ _)); [reflexivity|reflexivity| |intros; discriminate].
    right. repeat split; discriminate.
Qed.

Inductive pos_move (w : worker) (b : batch) : wpos -> Prop :=
| MWriteSkip i ww :
    b_pos b = BWrite i -> nth_error (b_writes b) i = Some ww -> ww_data ww = [] ->
    pos_move w b (BWrite (S i))
| MWriteEnd i :
    b_pos b = BWrite i -> nth_error (b_writes b) i = None -> pos_move w b BSyncOld
| MSyncOldEnd :
    b_pos b = BSyncOld -> (length (w_files w) <= 1)%nat -> pos_move w b BSetEvict
| MCbSkip i ww :
    b_pos b = BCallbacks i -> nth_error (b_writes b) i = Some ww -> ww_cb ww = None ->
    pos_move w b (BCallbacks (S i))
| MCbEnd i :
    b_pos b = BCallbacks i -> nth_error (b_writes b) i = None -> pos_move w b BPostponed
| MPostEnd :
    b_pos b = BPostponed -> w_sync_failed w = true \/ w_postponed w = [] ->
    pos_move w b BNonFlush
| MNfNone : b_pos b = BNonFlush -> b_nf b = None -> pos_move w b BDone
| MNfRemove ids :
    b_pos b = BNonFlush -> b_nf b = Some (WRemove ids) -> w_sync_failed w = false ->
    pos_move w b (BUnlink ids)
| MUnlinkEnd : b_pos b = BUnlink [] -> pos_move w b BDone.

(* a failed write_all or unlink ends the thread *)
Inductive fails (w : worker) (b : batch) : vis -> Prop :=
| FWrite i ww f :
    b_pos b = BWrite i -> nth_error (b_writes b) i = Some ww -> ww_data ww <> [] ->
    newest w = Some f -> fails w b (VWrite false (wf_id f) (blen (ww_data ww)) false)
| FUnlinkPost id rest :
    b_pos b = BPostponed -> w_sync_failed w = false -> w_postponed w = id :: rest ->
    fails w b (VUnlink id false)
| FUnlink id rest : b_pos b = BUnlink (id :: rest) -> fails w b (VUnlink id false).

Inductive work_step (z : sys2) (b : batch) : bool -> sys2 -> list vis -> Prop :=
| WkMove ok p : pos_move (z_w z) b p -> work_step z b ok (set_w z (w_set_pos (z_w z) b p)) []
| WkDie x : fails (z_w z) b x -> work_step z b false (set_w z (w_die (z_w z))) [x]
| WkWriteOk i ww f :
    b_pos b = BWrite i -> nth_error (b_writes b) i = Some ww -> ww_data ww <> [] ->
    newest (z_w z) = Some f ->
    work_step z b true
      (set_w (set_disk z (disk_append (wf_id f) (ww_data ww) (z_disk z)))
             (w_set_pos (z_w z) b (BWrite (S i))))
      [VWrite false (wf_id f) (blen (ww_data ww)) true]
| WkSyncOldOk f g rest :
    b_pos b = BSyncOld -> w_files (z_w z) = f :: g :: rest ->
    work_step z b true
      (set_w (set_disk z (disk_sync (wf_id f) (z_disk z)))
             (w_set_pos (mkWorker (g :: rest) true (Some b) (w_sync_failed (z_w z))
                                  (w_postponed (z_w z))) b BSyncOld))
      [VSync (wf_id f) true]
| WkSyncFail f rest :
    w_files (z_w z) = f :: rest ->
    b_pos b = BSyncOld /\ rest <> [] \/ b_pos b = BSyncNew ->
    work_step z b false
      (set_w z (mkWorker (w_files (z_w z)) true
                         (Some (mkBatch (b_writes b) (b_nf b) (BCallbacks 0) false))
                         true (w_postponed (z_w z))))
      [VSync (wf_id f) false]
| WkSetEvict ok f rest :
    b_pos b = BSetEvict -> w_files (z_w z) = f :: rest ->
    work_step z b ok
      (set_w (set_core z (core_with_cache (z_core z)
                            (cache_set_evictable (m_cache (k_sm (z_core z))) (wf_prev_last f))))
             (w_set_pos (z_w z) b BSyncNew))
      []
| WkSyncNewOk f rest :
    b_pos b = BSyncNew -> w_files (z_w z) = f :: rest ->
    work_step z b true
      (set_w (set_disk z (disk_sync (wf_id f) (z_disk z)))
             (mkWorker (w_files (z_w z)) true
                       (Some (mkBatch (b_writes b) (b_nf b) (BCallbacks 0) true))
                       false (w_postponed (z_w z))))
      [VSync (wf_id f) true]
| WkCallback ok i ww c :
    b_pos b = BCallbacks i -> nth_error (b_writes b) i = Some ww -> ww_cb ww = Some c ->
    work_step z b ok
      (add_ack (set_w z (w_set_pos (z_w z) b (BCallbacks (S i)))) c (b_ok b))
      [VCallback c (b_ok b)]
| WkUnlinkPost id rest :
    b_pos b = BPostponed -> w_sync_failed (z_w z) = false -> w_postponed (z_w z) = id :: rest ->
    work_step z b true
      (set_w (set_disk z (disk_remove id (z_disk z)))
             (mkWorker (w_files (z_w z)) true (Some b) false rest))
      [VUnlink id true]
| WkUnlink id rest :
    b_pos b = BUnlink (id :: rest) ->
    work_step z b true
      (set_w (set_disk z (disk_remove id (z_disk z))) (w_set_pos (z_w z) b (BUnlink rest)))
      [VUnlink id true]
| WkAppendFile ok off prev :
    b_pos b = BNonFlush -> b_nf b = Some (WAppendFile off prev) ->
    work_step z b ok
      (set_w z (w_set_pos (mkWorker (w_files (z_w z) ++ [mkWF off prev]) true (Some b)
                                    (w_sync_failed (z_w z)) (w_postponed (z_w z))) b BDone))
      []
| WkPostpone ok ids :
    b_pos b = BNonFlush -> b_nf b = Some (WRemove ids) -> w_sync_failed (z_w z) = true ->
    work_step z b ok
      (set_w z (w_set_pos (mkWorker (w_files (z_w z)) true (Some b) true
                                    (w_postponed (z_w z) ++ ids)) b BDone))
      []
| WkDone ok : b_pos b = BDone -> work_step z b ok (set_w z (w_set_batch (z_w z) None)) [].

Lemma zwork_inv z ok z' v : zwork z ok = Some (z', v) ->
  exists b, w_alive (z_w z) = true /\ w_batch (z_w z) = Some b /\ work_step z b ok z' v.
Proof.
  unfold zwork. destruct (w_alive (z_w z)); [|discriminate].
  destruct (w_batch (z_w z)) as [b|]; [|discriminate].
  intros H. exists b. split; [reflexivity|]. split; [reflexivity|].
  destruct (b_pos b) as [i| | | |i| | |ids|] eqn:Ep.
  - destruct (nth_error (b_writes b) i) as [ww|] eqn:En.
    + destruct (ww_data ww) as [|x data] eqn:Ed.
      * injection H as <- <-. apply WkMove. eapply MWriteSkip; eassumption.
      * rewrite <- Ed in H. assert (Hd : ww_data ww <> []) by (rewrite Ed; discriminate).
        destruct (newest (z_w z)) as [f|] eqn:Enw; [|discriminate].
        destruct ok; injection H as <- <-.
        -- eapply WkWriteOk; eassumption.
        -- apply WkDie. eapply FWrite; eassumption.
    + injection H as <- <-. apply WkMove. eapply MWriteEnd; eassumption.
  - destruct (w_files (z_w z)) as [|f [|g rest]] eqn:Ef.
    + injection H as <- <-. apply WkMove. apply MSyncOldEnd; [exact Ep|]. rewrite Ef. apply Nat.le_0_l.
    + injection H as <- <-. apply WkMove. apply MSyncOldEnd; [exact Ep|]. rewrite Ef. apply le_n.
    + destruct ok; injection H as <- <-.
      * eapply WkSyncOldOk; eassumption.
      * rewrite <- Ef. eapply WkSyncFail; [exact Ef|]. left. split; [exact Ep|discriminate].
  - destruct (w_files (z_w z)) as [|f rest] eqn:Ef; [discriminate|].
    injection H as <- <-. eapply WkSetEvict; eassumption.
  - destruct (w_files (z_w z)) as [|f rest] eqn:Ef; [discriminate|].
    destruct ok; injection H as <- <-; rewrite <- Ef.
    + eapply WkSyncNewOk; eassumption.
    + eapply WkSyncFail; [exact Ef|]. right. exact Ep.
  - destruct (nth_error (b_writes b) i) as [ww|] eqn:En.
    + destruct (ww_cb ww) as [c|] eqn:Ec; injection H as <- <-.
      * eapply WkCallback; eassumption.
      * apply WkMove. eapply MCbSkip; eassumption.
    + injection H as <- <-. apply WkMove. eapply MCbEnd; eassumption.
  - destruct (w_sync_failed (z_w z)) eqn:Esf.
    { injection H as <- <-. apply WkMove. apply MPostEnd; [exact Ep|]. left. exact Esf. }
    destruct (w_postponed (z_w z)) as [|id rest] eqn:Epp.
    { injection H as <- <-. apply WkMove. apply MPostEnd; [exact Ep|]. right. exact Epp. }
    destruct ok; injection H as <- <-.
    + eapply WkUnlinkPost; eassumption.
    + apply WkDie. eapply FUnlinkPost; eassumption.
  - destruct (b_nf b) as [[u d c|off prev|rids]|] eqn:Enf; [discriminate| | |].
    + injection H as <- <-. eapply WkAppendFile; eassumption.
    + destruct (w_sync_failed (z_w z)) eqn:Esf; injection H as <- <-.
      * eapply WkPostpone; eassumption.
      * apply WkMove. eapply MNfRemove; eassumption.
    + injection H as <- <-. apply WkMove. apply MNfNone; assumption.
  - destruct ids as [|id rest].
    + injection H as <- <-. apply WkMove. apply MUnlinkEnd. exact Ep.
    + destruct ok; injection H as <- <-.
      * eapply WkUnlink; eassumption.
      * apply WkDie. eapply FUnlink; eassumption.
  - injection H as <- <-. apply WkDone. exact Ep.
Qed.

Ltac work_cases W :=
  destruct W as [ok p M|x Fl|i ww f Ep En Ed Enw|f g rest Ep Ef|f rest Ef Ep|ok f rest Ep Ef|f rest Ep Ef
                |ok i ww c Ep En Ec|id rest Ep Esf Epp|id rest Ep|ok off prev Ep Enf|ok ids Ep Enf Esf|ok Ep].

Lemma zstep_w z e z' v : zstep z e = Some (z', v) ->
  match e with ZRecv _ _ | ZWork _ => True | _ => z_w z' = z_w z end.
Proof.
  intros H. destruct e as [o| |k nf|ok|]; [| | exact I | exact I |].
  - apply zcall_inv in H. destruct H as (_ & _ & []); reflexivity.
  - apply zeff_inv in H. destruct H; reflexivity.
  - apply zdrop_inv in H. destruct H as (_ & _ & ->). reflexivity.
Qed.

(* ------------------------------------------------------------------ a step, coarsely *)
(* a call that is neither a write nor a flush: nothing changes but, up to the cache, the core *)
Definition core_step (z z' : sys2) : Prop :=
  JournalDisk.core_eqj (z_core z) (z_core z') /\ z_todo z' = z_todo z /\ z_disk z' = z_disk z /\
  z_queue z' = z_queue z /\ z_w z' = z_w z /\ z_acks z' = z_acks z /\
  z_dropped z' = z_dropped z /\ z_ghost z' = z_ghost z.

Lemma core_step_refl z : core_step z z.
Proof. split; [apply JournalDisk.core_eqj_refl|repeat split]. Qed.

(* the states after the in-memory part of a write call and of a flush call *)
Definition after_write (z : sys2) (w : wop) (k : core) (r : wres) (effs : list eff) : sys2 :=
  set_ghost (set_todo (set_core z k) (flat_map expand_eff effs))
    (mkGhost (g_writes (z_ghost z) ++ [(w, r)]) (g_flushed (z_ghost z))
             (g_removals (z_ghost z)) (g_created (z_ghost z))).

Definition after_flush (z : sys2) (cb : bool) : sys2 :=
  let k := z_core z in
  set_ghost (set_todo (set_core z (fst (do_flush k cb))) (flat_map expand_eff (snd (do_flush k cb))))
    (flush_ghost z cb).

Lemma zcall_kinds z o z' v : zcall z o = Some (z', v) ->
  z_todo z = [] /\
  ((exists w k r effs, o = OW w /\ do_write (z_core z) w = Ret (k, r, effs) /\ z' = after_write z w k r effs) \/
   (exists cb, o = OFlush cb /\ z' = after_flush z cb) \/
   core_step z z' /\ forall w, o <> OW w).
Proof.
  intros H. apply zcall_inv in H. destruct H as (Et & _ & [w k r effs E|cb k effs E|from to k items E| |o0 r E]).
  all: split; [exact Et|].
  - left. exists w, k, r, effs. auto.
  - right; left. exists cb. unfold after_flush. now rewrite E.
  - right; right. pose proof (JournalFacts.do_read_core (z_core z) (z_disk z) from to) as Hc.
    rewrite E in Hc. split; [split; [exact Hc|repeat split]|discriminate].
  - right; right. split; [split; [apply JournalDisk.core_eqj_cache|repeat split]|discriminate].
  - right; right. split; [apply core_step_refl|]. intros w ->. discriminate.
Qed.

(* A step is the in-memory part of a write call, of a flush call, or leaves alone the core, up to the
   cache, and the recorded writes, flushes and removals ([g_created] grows when an effect creates a file). *)
Lemma zstep_cases z e z' v : zstep z e = Some (z', v) ->
  (exists w k r effs, e = ZCall (OW w) /\ z_todo z = [] /\ do_write (z_core z) w = Ret (k, r, effs) /\
                      z' = after_write z w k r effs) \/
  (exists cb, e = ZCall (OFlush cb) /\ z_todo z = [] /\ z' = after_flush z cb) \/
  (JournalDisk.core_eqj (z_core z) (z_core z') /\ g_writes (z_ghost z') = g_writes (z_ghost z) /\
   g_flushed (z_ghost z') = g_flushed (z_ghost z) /\ g_removals (z_ghost z') = g_removals (z_ghost z) /\
   forall w, e <> ZCall (OW w)).
Proof.
  intros H. destruct e as [o| |k nf|ok|].
  - destruct (zcall_kinds _ _ _ _ H) as [Ht [(w & k & r & effs & -> & E & ->)|[(cb & -> & ->)|((Hc & _ & _ & _ & _ & _ & _ & Hg) & Hn)]]].
    + left. exists w, k, r, effs. auto.
    + right; left. exists cb. auto.
    + right; right. rewrite Hg. split; [exact Hc|repeat split]. intros w E. inversion E. now elim (Hn w).
  - right; right. apply zeff_inv in H. destruct H; (split; [apply JournalDisk.core_eqj_refl|repeat split; discriminate]).
  - right; right. apply zrecv_inv in H. destruct H as [_ []].
    split; [apply JournalDisk.core_eqj_refl|repeat split; discriminate].
  - right; right. apply zwork_inv in H. destruct H as (b & _ & _ & []);
      (split; [apply JournalDisk.core_eqj_refl || apply JournalDisk.core_eqj_cache|repeat split; discriminate]).
  - right; right. apply zdrop_inv in H. destruct H as (_ & _ & ->).
    split; [apply JournalDisk.core_eqj_refl|repeat split; discriminate].
Qed.

Lemma writes_step z e z' v : zstep z e = Some (z', v) ->
  (g_writes (z_ghost z') = g_writes (z_ghost z) /\ forall w, e <> ZCall (OW w)) \/
  exists w r, e = ZCall (OW w) /\ g_writes (z_ghost z') = g_writes (z_ghost z) ++ [(w, r)].
Proof.
  intros H. destruct (zstep_cases _ _ _ _ H)
    as [(w & k & r & effs & -> & _ & _ & ->)|[(cb & -> & _ & ->)|(_ & Hw & _ & _ & Hn)]].
  - right. exists w, r. auto.
  - left. split; [reflexivity|discriminate].
  - left. auto.
Qed.

(* ------------------------------------------------------------------ the relations are exact *)
(* a step that the relation allows is the step the model takes *)
Lemma zwork_of_step z b ok z' v : w_alive (z_w z) = true -> w_batch (z_w z) = Some b ->
  work_step z b ok z' v -> zwork z ok = Some (z', v).
Proof.
  intros Ha Eb W. unfold zwork. rewrite Ha, Eb.
  (* in every case the position selects the branch, the conditions of the case what it returns *)
  work_cases W.
  - destruct M as [i ww Ep En Ed|i Ep En| Ep Hl|i ww Ep En Ec|i Ep En|Ep Hs|Ep Enf|ids Ep Enf Esf|Ep];
      rewrite Ep, ?En, ?Ed, ?Ec, ?Enf, ?Esf; try reflexivity.
    + destruct (w_files (z_w z)) as [|f [|g r]]; [reflexivity|reflexivity|].
      cbn in Hl. inversion Hl as [|? Hl']. inversion Hl'.
    + destruct Hs as [-> | Hs]; [reflexivity|]. rewrite Hs. now destruct (w_sync_failed (z_w z)).
  - destruct Fl as [i ww f Ep En Ed Enw|id rest Ep Esf Epp|id rest Ep];
      rewrite Ep, ?En, ?Enw, ?Esf, ?Epp; try reflexivity.
    destruct (ww_data ww); [now elim Ed|reflexivity].
  - rewrite Ep, En, Enw. destruct (ww_data ww); [now elim Ed|reflexivity].
  - now rewrite Ep, Ef.
  - rewrite Ef. destruct Ep as [[-> Hr]| ->]; [|reflexivity]. destruct rest; [now elim Hr|reflexivity].
  - now rewrite Ep, Ef.
  - now rewrite Ep, Ef.
  - now rewrite Ep, En, Ec.
  - now rewrite Ep, Esf, Epp.
  - now rewrite Ep.
  - now rewrite Ep, Enf.
  - now rewrite Ep, Enf, Esf.
  - now rewrite Ep.
Qed.

Lemma zeff_of_step z z' v : eff_step z z' v -> zeff z = Some (z', v).
Proof. unfold zeff. destruct 1 as [id t ->|id data t ->|r t ->]; reflexivity. Qed.

Lemma zcall_of_step z o z' v : z_todo z = [] -> z_dropped z = false ->
  call_step z o z' v -> zcall z o = Some (z', v).
Proof.
  intros Et Ed C. unfold zcall. rewrite Et, Ed.
  destruct C as [w k r effs E|cb k effs E|from to k items E| |o r E].
  - now rewrite E.
  - now rewrite E.
  - now rewrite E.
  - reflexivity.
  - destruct o; try discriminate E; unfold observe in E.
    + now injection E as <-.
    + now injection E as <-.
    + now injection E as <-.
    + destruct (z_queue z); [|discriminate]. destruct (worker_quiet z); [|discriminate]. now injection E as <-.
Qed.

(* ------------------------------------------------------------------ what a step does to the disk *)
(* one operation on the directory *)
Inductive dop : Set :=
  DNone | DCreate (id : N) | DAppend (id : N) (data : bytes) | DSync (id : N) | DRemove (id : N).

Definition dapply (o : dop) (d : disk) : disk :=
  match o with
  | DNone => d
  | DCreate id => disk_put (mkFile id [] 0) d
  | DAppend id data => disk_append id data d
  | DSync id => disk_sync id d
  | DRemove id => disk_remove id d
  end.

Definition disk_op (d d' : disk) : Prop := exists o, d' = dapply o d.

(* ---- a step is local in the directory: it applies one operation that the rest of the state
   determines and, in a call, reads records; from any other directory with the same records
   the same step is possible and applies the same operation *)
Lemma work_step_local z b ok z' v : work_step z b ok z' v ->
  exists o, z_disk z' = dapply o (z_disk z) /\
    forall d2, work_step (set_disk z d2) b ok (set_disk z' (dapply o d2)) v.
Proof.
  intros W. work_cases W;
    [exists DNone|exists DNone|exists (DAppend (wf_id f) (ww_data ww))|exists (DSync (wf_id f))|exists DNone
    |exists DNone|exists (DSync (wf_id f))|exists DNone|exists (DRemove id)|exists (DRemove id)
    |exists DNone|exists DNone|exists DNone]; (split; [reflexivity|intros d2]).
  - exact (WkMove (set_disk z d2) b ok p M).
  - exact (WkDie (set_disk z d2) b x Fl).
  - exact (WkWriteOk (set_disk z d2) b i ww f Ep En Ed Enw).
  - exact (WkSyncOldOk (set_disk z d2) b f g rest Ep Ef).
  - exact (WkSyncFail (set_disk z d2) b f rest Ef Ep).
  - exact (WkSetEvict (set_disk z d2) b ok f rest Ep Ef).
  - exact (WkSyncNewOk (set_disk z d2) b f rest Ep Ef).
  - exact (WkCallback (set_disk z d2) b ok i ww c Ep En Ec).
  - exact (WkUnlinkPost (set_disk z d2) b id rest Ep Esf Epp).
  - exact (WkUnlink (set_disk z d2) b id rest Ep).
  - exact (WkAppendFile (set_disk z d2) b ok off prev Ep Enf).
  - exact (WkPostpone (set_disk z d2) b ok ids Ep Enf Esf).
  - exact (WkDone (set_disk z d2) b ok Ep).
Qed.

Lemma eff_step_local z z' v : eff_step z z' v ->
  exists o, z_disk z' = dapply o (z_disk z) /\
    forall d2, eff_step (set_disk z d2) (set_disk z' (dapply o d2)) v.
Proof.
  intros [id t Et|id data t Et|r t Et].
  - exists (DCreate id). split; [reflexivity|intros d2]. exact (EffCreate (set_disk z d2) id t Et).
  - exists (DAppend id data). split; [reflexivity|intros d2]. exact (EffHead (set_disk z d2) id data t Et).
  - exists DNone. split; [reflexivity|intros d2]. exact (EffSend (set_disk z d2) r t Et).
Qed.

Definition same_records (d d2 : disk) : Prop :=
  forall c off len, read_record d c off len = read_record d2 c off len.

Lemma read_items_same ch cl d d2 : same_records d d2 -> forall m h ms,
  read_items ch cl d m h ms = read_items ch cl d2 m h ms.
Proof.
  intros H. induction m as [|[i ld] m IH]; intros h ms; cbn [read_items]; [reflexivity|].
  rewrite !IH. unfold load_payload. destruct (closed_get (ld_chunk ld) cl); [|reflexivity]. now rewrite H.
Qed.

Lemma observe_same z o d2 : same_records (z_disk z) d2 -> observe (set_disk z d2) o = observe z o.
Proof.
  intros Hd. destruct o; try reflexivity.
  unfold observe, do_dump_iter. cbn [set_disk z_core z_disk]. now rewrite (read_items_same _ _ _ d2 Hd).
Qed.

Lemma call_step_local z o z' v d2 : same_records (z_disk z) d2 -> call_step z o z' v ->
  z_disk z' = z_disk z /\ call_step (set_disk z d2) o (set_disk z' d2) v.
Proof.
  intros Hd C. split; [destruct C; reflexivity|].
  destruct C as [w k r effs E|cb k effs E|from to k items E| |o r E].
  - exact (CallWrite (set_disk z d2) w k r effs E).
  - exact (CallFlush (set_disk z d2) cb k effs E).
  - apply (CallRead (set_disk z d2)). cbn [set_disk z_core z_disk]. unfold do_read in *.
    now rewrite <- (read_items_same _ _ _ d2 Hd).
  - exact (CallDrain (set_disk z d2)).
  - apply (CallSame (set_disk z d2)). now rewrite observe_same.
Qed.

(* [recv_step] forgets how many requests were asked for, so this one is about the function *)
Lemma zrecv_local z k nf z' v d2 : zrecv z k nf = Some (z', v) ->
  z_disk z' = z_disk z /\ zrecv (set_disk z d2) k nf = Some (set_disk z' d2, v).
Proof.
  intros H. split; [apply zrecv_inv in H; destruct H as [_ []]; reflexivity|]. revert H.
  unfold zrecv. cbn [set_disk z_w z_queue].
  destruct (w_alive (z_w z)); [|discriminate]. destruct (w_batch (z_w z)); [discriminate|].
  destruct (z_queue z) as [|[u data cb|off prev|ids] q]; [discriminate| | |].
  - destruct (take_writes k q) as [[ws rest]|]; [|discriminate].
    destruct nf; destruct rest as [|[| |] rest2]; try discriminate; intros H; injection H as <- <-; reflexivity.
  - destruct (Nat.eqb k 0 && negb nf); [|discriminate]. intros H; injection H as <- <-. reflexivity.
  - destruct (Nat.eqb k 0 && negb nf); [|discriminate]. intros H; injection H as <- <-. reflexivity.
Qed.

Lemma zstep_local z e z' v : zstep z e = Some (z', v) ->
  exists o, z_disk z' = dapply o (z_disk z) /\
    forall d2, same_records (z_disk z) d2 -> zstep (set_disk z d2) e = Some (set_disk z' (dapply o d2), v).
Proof.
  intros H. destruct e as [o| |k nf|ok|]; cbn [zstep] in *.
  - apply zcall_inv in H. destruct H as (Et & Ed & C). exists DNone.
    split; [exact (proj1 (call_step_local z o z' v (z_disk z) (fun _ _ _ => eq_refl) C))|].
    intros d2 Hd. exact (zcall_of_step (set_disk z d2) o _ v Et Ed (proj2 (call_step_local z o z' v d2 Hd C))).
  - apply zeff_inv, eff_step_local in H. destruct H as (o & Hm & H). exists o. split; [exact Hm|].
    intros d2 _. apply zeff_of_step, H.
  - exists DNone. split; [exact (proj1 (zrecv_local z k nf z' v (z_disk z) H))|].
    intros d2 _. now apply zrecv_local.
  - apply zwork_inv in H. destruct H as (b & Ha & Eb & W).
    destruct (work_step_local _ _ _ _ _ W) as (o & Hm & H). exists o. split; [exact Hm|].
    intros d2 _. exact (zwork_of_step (set_disk z d2) b ok _ v Ha Eb (H d2)).
  - exists DNone. apply zdrop_inv in H. destruct H as (Et & -> & ->). split; [reflexivity|].
    intros d2 _. cbn [set_disk z_todo]. now rewrite Et.
Qed.

Lemma zstep_disk z e z' v : zstep z e = Some (z', v) -> disk_op (z_disk z) (z_disk z').
Proof. intros H. destruct (zstep_local _ _ _ _ H) as (o & Hm & _). exists o. exact Hm. Qed.

Lemma disk_get_In_id id d f : disk_get id d = Some f -> In f d /\ f_id f = id.
Proof. intros H. split; [eapply JournalDisk.disk_get_In|eapply JournalDisk.disk_get_id]; eauto. Qed.

Lemma disk_op_Forall (P : file -> Prop) d d' :
  (forall id, P (mkFile id [] 0)) ->
  (forall f data, P f -> P (mkFile (f_id f) (f_data f ++ data) (f_synced f))) ->
  (forall f, P f -> P (mkFile (f_id f) (f_data f) (blen (f_data f)))) ->
  disk_op d d' -> Forall P d -> Forall P d'.
Proof.
  intros Hc Ha Hs [o ->] Hd. destruct o as [|id|id data|id|id]; cbn [dapply].
  - exact Hd.
  - apply JournalDisk.disk_put_Forall; [apply Hc|exact Hd].
  - unfold disk_append. destruct (disk_get id d) as [f|] eqn:E; [|exact Hd].
    destruct (disk_get_In_id _ _ _ E) as [Hin Hid]. apply JournalDisk.disk_put_Forall; [|exact Hd].
    rewrite <- Hid. apply Ha. rewrite Forall_forall in Hd. now apply Hd.
  - unfold disk_sync. destruct (disk_get id d) as [f|] eqn:E; [|exact Hd].
    destruct (disk_get_In_id _ _ _ E) as [Hin Hid]. apply JournalDisk.disk_put_Forall; [|exact Hd].
    rewrite <- Hid. apply Hs. rewrite Forall_forall in Hd. now apply Hd.
  - unfold disk_remove. rewrite Forall_forall in *. intros f Hf. apply filter_In in Hf. now apply Hd.
Qed.

(* ------------------------------------------------------------------ C04: synced <= written *)
Definition synced_le (f : file) : Prop := (f_synced f <= blen (f_data f))%N.

Lemma synced_le_step d d' : disk_op d d' -> Forall synced_le d -> Forall synced_le d'.
Proof.
  apply disk_op_Forall; unfold synced_le; simpl.
  - intros _. lia.
  - intros f data H. rewrite app_length. lia.
  - intros f _. lia.
Qed.

Lemma open_loop_Forall (P : file -> Prop) cfg : (forall id data, P (mkFile id data (blen data))) ->
  forall files a a', open_loop cfg files a = inl a' -> Forall P (oa_disk a) -> Forall P (oa_disk a').
Proof.
  intros HP.
  assert (Ht : forall id oc d, Forall P d -> Forall P (RecoverFacts.trunc_disk id oc d)).
  { intros id oc d Hd. unfold RecoverFacts.trunc_disk. destruct (oc_truncated oc); [|exact Hd].
    apply JournalDisk.disk_put_Forall; [apply HP|exact Hd]. }
  induction files as [|f rest IH]; intros a a' H Hd; [inversion H; subst; exact Hd|].
  apply RecoverFacts.open_loop_inl in H as [(oc & _ & _ & _ & _ & ->)|(a1 & E1 & H & _)].
  - cbn [oa_disk]. unfold disk_remove. rewrite Forall_forall. intros x Hx. apply filter_In in Hx.
    specialize (Ht (f_id f) oc _ Hd). rewrite Forall_forall in Ht. now apply Ht.
  - apply (IH _ _ H). apply RecoverFacts.open_step_inl in E1 as (oc & s1 & _ & _ & _ & ->). apply Ht, Hd.
Qed.

Lemma open_dir_Forall (P : file -> Prop) cfg d y : (forall id data, P (mkFile id data (blen data))) ->
  (forall id data, P (mkFile id data 0)) ->
  open_dir cfg d = OpenOk y -> Forall P d -> Forall P (y_disk y).
Proof.
  intros HP HP0 H Hd. apply RecoverFacts.open_dir_inv in H as (a & El & H). apply (open_loop_Forall P cfg HP) in El; [|exact Hd].
  destruct H as [(? & ? & _ & ->)|(? & _ & _ & _ & ->)]; [exact El|].
  apply JournalDisk.disk_put_Forall; [apply HP0|exact El].
Qed.

Lemma synced_le_full id data : synced_le (mkFile id data (blen data)).
Proof. unfold synced_le. cbn [f_synced f_data]. lia. Qed.
Lemma synced_le_zero id data : synced_le (mkFile id data 0).
Proof. unfold synced_le. cbn [f_synced f_data]. lia. Qed.

Lemma synced_le_reach cfg d z : Forall synced_le d -> reach cfg d z -> Forall synced_le (z_disk z).
Proof.
  intros Hd. revert z. apply (reach_ind (fun z => Forall synced_le (z_disk z))).
  - intros y Ho. exact (open_dir_Forall _ cfg d y synced_le_full synced_le_zero Ho Hd).
  - intros z e z' v Hz Hs. eapply synced_le_step; [eapply zstep_disk; eauto|exact Hz].
Qed.

Theorem C04_synced_le_written : forall cfg z, zreach cfg z ->
  Forall (fun f => (f_synced f <= N.of_nat (length (f_data f)))%N) (z_disk z).
Proof. intros cfg z. exact (synced_le_reach cfg [] z (Forall_nil _)). Qed.

(* ------------------------------------------------------------------ what a write call does *)
Inductive aa_res (k : core) : core -> list eff -> Prop :=
| AASame : aa_res k k []
| AAPlain k' data :
    data <> [] ->
    k_open k' = ck_push (k_open k) (blen data) ->
    k_pending k' = k_pending k ++ data ->
    k_closed k' = k_closed k -> k_removed k' = k_removed k -> k_next_cb k' = k_next_cb k ->
    aa_res k k' []
| AARot k' data head prev st :
    data <> [] -> head <> [] ->
    k_open k' = ck_push (mkChunk (ck_end (k_open k) + blen data) []) (blen head) ->
    k_pending k' = [] ->
    k_closed k' = closed_insert (mkClosed (ck_push (k_open k) (blen data)) st false) (k_closed k) ->
    k_removed k' = k_removed k -> k_next_cb k' = k_next_cb k ->
    aa_res k k' [ECreate (ck_end (k_open k) + blen data) head;
                 ESend (WWrite (ck_end (k_open k) + blen data) (k_pending k ++ data) None);
                 ESend (WAppendFile (ck_end (k_open k) + blen data) prev)].

Lemma enc_record_nonnil r : enc_record r <> [].
Proof.
  intros E. pose proof (enc_record_min_len r) as H. rewrite E in H. simpl in H. lia.
Qed.

Lemma append_and_apply_inv k r k' w effs :
  append_and_apply k r = Ret (k', w, effs) -> aa_res k k' effs.
Proof.
  intros H. destruct (JournalChunk.aaa_spec k r) as (k0 & w0 & e0 & E & C). rewrite E in H. injection H as <- <- <-.
  destruct C as [(-> & -> & _)|(_ & _ & _ & sm1 & _ & [(-> & -> & _)|(-> & -> & _)])].
  - constructor.
  - eapply AAPlain with (data := enc_record r); try reflexivity. apply enc_record_nonnil.
  - unfold JournalChunk.rotated, JournalChunk.rotate_effs, JournalChunk.appended. cbn [k_pending k_open k_sm k_closed k_cfg k_removed k_hit k_miss k_next_cb].
    destruct (k_pending k ++ enc_record r) as [|b p] eqn:Ep.
    { apply app_eq_nil in Ep. destruct Ep as [_ Ep]. now apply enc_record_nonnil in Ep. }
    rewrite <- Ep, JournalChunk.ck_end_push.
    eapply AARot with (data := enc_record r); try reflexivity; apply enc_record_nonnil.
Qed.

Inductive aa_chain : core -> core -> list eff -> Prop :=
| ACNil k : aa_chain k k []
| ACCons k k1 k2 e1 e2 : aa_res k k1 e1 -> aa_chain k1 k2 e2 -> aa_chain k k2 (e1 ++ e2).

Lemma aa_chain_one k k' e : aa_res k k' e -> aa_chain k k' e.
Proof. intros H. rewrite <- (app_nil_r e). econstructor; [exact H|constructor]. Qed.

Lemma do_append_chain es : forall k acc effs0 k' w effs',
  do_append k es acc effs0 = Ret (k', w, effs') ->
  exists effs, effs' = effs0 ++ effs /\ aa_chain k k' effs.
Proof.
  induction es as [|[id p] es IH]; intros k acc effs0 k' w effs' H; simpl in H.
  - inversion H; subst. exists []. rewrite app_nil_r. split; [reflexivity|constructor].
  - destruct (append_and_apply k (RAppend id p)) as [[[k1 w1] ef]|] eqn:E; [|discriminate].
    apply append_and_apply_inv in E.
    destruct w1 as [o l|e].
    + apply IH in H. destruct H as (effs & -> & Hc). exists (ef ++ effs).
      rewrite app_assoc. split; [reflexivity|]. econstructor; eauto.
    + inversion H; subst. exists ef. split; [reflexivity|]. now apply aa_chain_one.
Qed.

Definition cids (l : list closed) : list N := map (fun c => ck_id (cl_chunk c)) l.

Definition post_purge (k1 k' : core) : Prop :=
  k_open k' = k_open k1 /\ k_pending k' = k_pending k1 /\ k_next_cb k' = k_next_cb k1 /\
  exists ids, k_removed k' = k_removed k1 ++ ids /\ cids (k_closed k1) = ids ++ cids (k_closed k').

Lemma post_purge_refl k : post_purge k k.
Proof. repeat split. exists []. now rewrite app_nil_r. Qed.

Lemma pop_obsolete_ids upto cl : forall ids rest,
  pop_obsolete upto cl = (ids, rest) -> cids cl = ids ++ cids rest.
Proof.
  induction cl as [|c r IH]; intros ids rest H; simpl in H.
  - inversion H; subst. reflexivity.
  - destruct (opair_ltb (Some upto) (r_last (cl_state c))).
    + inversion H; subst. reflexivity.
    + destruct (pop_obsolete upto r) as [ids1 rest1] eqn:E. inversion H; subst.
      simpl. f_equal. now apply IH.
Qed.

(* a write call journals a chain of records; only a purge then drops closed chunks, and it
   journals a single record *)
Lemma do_write_chain_cases k w k' r effs :
  do_write k w = Ret (k', r, effs) ->
  aa_chain k k' effs \/ exists k1, aa_res k k1 effs /\ post_purge k1 k'.
Proof.
  intros H. destruct (SmFacts.do_write_cases _ _ _ _ _ H)
    as [(es & w0 & -> & E)|[(_ & -> & ->)|(rc & k1 & _ & E & [->|(upto & rm & rest & -> & _ & Ep & ->)])]].
  - left. apply do_append_chain in E. destruct E as (e1 & -> & Hc). exact Hc.
  - left. constructor.
  - left. eapply aa_chain_one, append_and_apply_inv; eauto.
  - right. exists k1. split; [eapply append_and_apply_inv; eauto|].
    unfold post_purge; simpl. repeat split. exists rm. split; [reflexivity|]. eapply pop_obsolete_ids; eauto.
Qed.

Lemma do_write_chain k w k' r effs :
  do_write k w = Ret (k', r, effs) ->
  exists k1, aa_chain k k1 effs /\ post_purge k1 k'.
Proof.
  intros H. apply do_write_chain_cases in H. destruct H as [H|(k1 & H & Hp)].
  - exists k'. split; [exact H|apply post_purge_refl].
  - exists k1. split; [now apply aa_chain_one|exact Hp].
Qed.

Lemma do_read_fields k d from to :
  let k' := fst (do_read k d from to) in
  k_open k' = k_open k /\ k_pending k' = k_pending k /\ k_closed k' = k_closed k /\
  k_removed k' = k_removed k /\ k_next_cb k' = k_next_cb k.
Proof.
  unfold do_read.
  destruct (read_items (m_cache (k_sm k)) (k_closed k) d
              (lm_range from (N.max to from) (m_log (k_sm k))) (k_hit k) (k_miss k)) as [[items h] ms].
  simpl. repeat split.
Qed.

(* ------------------------------------------------------------------ callbacks in flight *)
Definition cb_of_req (r : wreq) : list N := match r with WWrite _ _ (Some c) => [c] | _ => [] end.
Definition cb_of_ww (w : wwrite) : list N := match ww_cb w with Some c => [c] | None => [] end.
Definition cb_of_xeff (x : xeff) : list N := match x with XSend r => cb_of_req r | _ => [] end.

Definition batch_cbs (w : worker) : list N :=
  match w_batch w with
  | None => []
  | Some b =>
    match b_pos b with
    | BWrite _ | BSyncOld | BSetEvict | BSyncNew => flat_map cb_of_ww (b_writes b)
    | BCallbacks i => flat_map cb_of_ww (skipn i (b_writes b))
    | _ => []
    end
  end.

Definition pend (z : sys2) : list N :=
  map fst (z_acks z) ++ batch_cbs (z_w z) ++ flat_map cb_of_req (z_queue z) ++ flat_map cb_of_xeff (z_todo z).

Lemma cb_of_req_ww ws : flat_map cb_of_req (map req_of_ww ws) = flat_map cb_of_ww ws.
Proof. induction ws as [|w ws IH]; simpl; [reflexivity|]. now rewrite IH. Qed.

Lemma aa_res_nocb k k' effs : aa_res k k' effs ->
  k_next_cb k' = k_next_cb k /\ flat_map cb_of_xeff (flat_map expand_eff effs) = [].
Proof. intros H. destruct H; simpl; auto. Qed.

Lemma aa_chain_nocb k k' effs : aa_chain k k' effs ->
  k_next_cb k' = k_next_cb k /\ flat_map cb_of_xeff (flat_map expand_eff effs) = [].
Proof.
  induction 1 as [k|k k1 k2 e1 e2 H1 H2 IH]; [auto|].
  destruct (aa_res_nocb _ _ _ H1) as [Ha Hb]. destruct IH as [Hc Hd].
  split; [congruence|]. rewrite !flat_map_app, Hb, Hd. reflexivity.
Qed.

Lemma skipn_nth_cons {A} (l : list A) i x : nth_error l i = Some x -> skipn i l = x :: skipn (S i) l.
Proof.
  revert i. induction l as [|a l IH]; intros [|i] H; simpl in *; try discriminate.
  - now inversion H.
  - now apply IH.
Qed.

Lemma skipn_nth_none {A} (l : list A) i : nth_error l i = None -> skipn i l = [].
Proof. intros H. apply skipn_all2. now apply nth_error_None. Qed.

Definition cbs_at (p : wpos) (b : batch) : list N :=
  match p with
  | BWrite _ | BSyncOld | BSetEvict | BSyncNew => flat_map cb_of_ww (b_writes b)
  | BCallbacks i => flat_map cb_of_ww (skipn i (b_writes b))
  | _ => []
  end.

Lemma batch_cbs_eq w b : w_batch w = Some b -> batch_cbs w = cbs_at (b_pos b) b.
Proof. unfold batch_cbs. intros ->. now destruct (b_pos b). Qed.
Lemma batch_cbs_set_pos w b p : batch_cbs (w_set_pos w b p) = cbs_at p b.
Proof. now destruct p. Qed.

Lemma cbs_at_move w b p : pos_move w b p -> cbs_at p b = cbs_at (b_pos b) b.
Proof.
  destruct 1 as [i ww Ep En Ed|i Ep En|Ep _|i ww Ep En Ec|i Ep En|Ep _|Ep Enf|ids Ep Enf _|Ep];
    rewrite Ep; simpl; try reflexivity.
  - rewrite (skipn_nth_cons _ _ _ En). simpl. unfold cb_of_ww at 2. now rewrite Ec.
  - now rewrite (skipn_nth_none _ _ En).
Qed.

Lemma cb_batch_reqs b : (forall u d c, b_nf b <> Some (WWrite u d c)) ->
  flat_map cb_of_req (batch_reqs b) = flat_map cb_of_ww (b_writes b).
Proof.
  intros Hn. unfold batch_reqs. rewrite flat_map_app, cb_of_req_ww.
  destruct (b_nf b) as [[u d c| |]|]; simpl; rewrite ?app_nil_r; try reflexivity. now elim (Hn u d c).
Qed.

Definition pend_dead (z : sys2) : list N :=
  map fst (z_acks z) ++ flat_map cb_of_req (z_queue z) ++ flat_map cb_of_xeff (z_todo z).

Lemma pend_same z z' :
  z_acks z' = z_acks z -> batch_cbs (z_w z') = batch_cbs (z_w z) -> z_queue z' = z_queue z ->
  z_todo z' = z_todo z -> pend z' = pend z.
Proof. unfold pend. now intros -> -> -> ->. Qed.

(* A step leaves [pend] alone (requests only move along todo, queue, batch, acks), except
   that a flush with callback appends the next id, and the death of the worker drops the
   callbacks of its batch. *)
Lemma pend_step z e z' v : zstep z e = Some (z', v) ->
  (pend z' = pend z /\ k_next_cb (z_core z') = k_next_cb (z_core z)) \/
  (pend z' = pend z ++ [k_next_cb (z_core z)] /\ k_next_cb (z_core z') = k_next_cb (z_core z) + 1) \/
  (e = ZWork false /\ pend z' = pend_dead z /\ k_next_cb (z_core z') = k_next_cb (z_core z)).
Proof.
  intros H. destruct e as [o| |k nf|ok|]; simpl in H.
  - apply zcall_inv in H. destruct H as (Et & _ & C). unfold pend.
    destruct C as [w k r effs E|cb k effs E|from to k items E| |o r _]; simpl; rewrite ?Et; simpl; auto.
    + apply do_write_chain in E. destruct E as (k1 & Hc & _ & _ & Hn' & _).
      apply aa_chain_nocb in Hc. destruct Hc as [Hn Hcb]. rewrite Hcb. left. split; [reflexivity|congruence].
    + rewrite do_flush_eq in E. injection E as <- <-.
      destruct cb; [right|]; left; (split; [|reflexivity]);
        destruct (k_removed (z_core z)); simpl; rewrite ?app_nil_r, <- ?app_assoc; reflexivity.
    + pose proof (do_read_fields (z_core z) (z_disk z) from to) as Hf. rewrite E in Hf. left. split; [reflexivity|apply Hf].
  - apply zeff_inv in H. left. unfold pend.
    destruct H as [id t Et|id data t Et|r t Et]; simpl; rewrite Et; simpl; (split; [|reflexivity]); try reflexivity.
    rewrite flat_map_app. simpl. now rewrite app_nil_r, <- !app_assoc.
  - apply zrecv_inv in H. destruct H as [_ [b q' _ Eb Eq _ Hp Hn]]. left. split; [|reflexivity].
    unfold pend. simpl. rewrite Eq, flat_map_app, (cb_batch_reqs _ Hn), <- app_assoc.
    unfold batch_cbs. rewrite Eb. simpl. do 2 f_equal.
    destruct Hp as [[-> _]|(-> & -> & _)]; reflexivity.
  - apply zwork_inv in H. destruct H as (b & _ & Eb & W).
    work_cases W; try (destruct Ep as [[Ep _]|Ep]);
      try (left; split; [apply pend_same; try reflexivity; unfold batch_cbs; simpl; rewrite Eb, ?Ep; reflexivity|reflexivity]).
    + left. split; [|reflexivity]. apply pend_same; try reflexivity. simpl z_w.
      now rewrite batch_cbs_set_pos, (cbs_at_move _ _ _ M), (batch_cbs_eq _ _ Eb).
    + right; right. split; [reflexivity|]. split; reflexivity.
    + left. split; [|reflexivity]. unfold pend. simpl. rewrite (batch_cbs_eq _ _ Eb), Ep. simpl.
      rewrite (skipn_nth_cons _ _ _ En). simpl. unfold cb_of_ww at 1. rewrite Ec, map_app. simpl.
      now rewrite <- !app_assoc.
  - apply zdrop_inv in H. destruct H as (Et & _ & ->). left. unfold pend. simpl. rewrite Et. auto.
Qed.

Lemma ss_strictly_increasing l : StronglySorted N.lt l -> strictly_increasing l.
Proof.
  induction l as [|a r IH]; intros H; simpl; [exact I|].
  apply StronglySorted_inv in H. destruct H as [Hs Hf]. split; [|now apply IH].
  destruct r as [|b r']; [exact I|]. now inversion Hf.
Qed.

Definition incb (l : list N) (b : N) : Prop := StronglySorted N.lt l /\ Forall (fun x => x < b) l.

Lemma incb_snoc l b : incb l b -> incb (l ++ [b]) (b + 1).
Proof.
  intros [Hs Hf]. split.
  - apply OrderFacts.SS_app_iff. split; [exact Hs|]. split; [repeat constructor|].
    intros x y Hx [<-|[]]. rewrite Forall_forall in Hf. now apply Hf.
  - rewrite Forall_app. split.
    + eapply Forall_impl; [|exact Hf]. simpl. intros; lia.
    + repeat constructor. lia.
Qed.

Lemma incb_drop_mid a m c b : incb (a ++ m ++ c) b -> incb (a ++ c) b.
Proof.
  intros [Hs Hf]. split; [eapply OrderFacts.SS_drop_mid; eauto|].
  rewrite !Forall_app in *. tauto.
Qed.

(* ------------------------------------------------------------------ C04: at most once, in order *)
Definition pend_ok (z : sys2) : Prop := incb (pend z) (k_next_cb (z_core z)).

Lemma open_dir_fresh cfg d y : open_dir cfg d = OpenOk y ->
  y_queue y = [] /\ y_acks y = [] /\ k_next_cb (y_core y) = 0 /\ exists f, y_files y = [f].
Proof. intros H. apply RecoverFacts.open_dir_inv in H as (a & _ & [(? & ? & _ & ->)|(? & _ & _ & _ & ->)]); cbn; eauto. Qed.

Lemma pend_opened cfg d y : open_dir cfg d = OpenOk y -> pend (sys2_of y) = [].
Proof.
  intros H. destruct (open_dir_fresh _ _ _ H) as (Hq & Ha & _ & _).
  unfold pend, sys2_of, batch_cbs. simpl. now rewrite Hq, Ha.
Qed.

Lemma pend_ok_opened cfg d y : open_dir cfg d = OpenOk y -> pend_ok (sys2_of y).
Proof. intros H. unfold pend_ok. rewrite (pend_opened _ _ _ H). split; constructor. Qed.

Lemma pend_ok_step z e z' v : pend_ok z -> zstep z e = Some (z', v) -> pend_ok z'.
Proof.
  unfold pend_ok. intros Hz Hs. destruct (pend_step _ _ _ _ Hs) as [[Hp Hn]|[[Hp Hn]|(_ & Hp & Hn)]].
  - now rewrite Hp, Hn.
  - rewrite Hp, Hn. now apply incb_snoc.
  - rewrite Hp, Hn. unfold pend in Hz. unfold pend_dead. eapply incb_drop_mid; eauto.
Qed.

Lemma pend_ok_reach cfg d z : reach cfg d z -> pend_ok z.
Proof. revert z. apply (reach_ind pend_ok); [apply pend_ok_opened|apply pend_ok_step]. Qed.

Lemma pend_ok_in_order z : pend_ok z -> acks_in_order z.
Proof.
  intros [Hs _]. unfold pend in Hs. apply OrderFacts.SS_app_iff in Hs. destruct Hs as [Hs _].
  now apply ss_strictly_increasing.
Qed.

Theorem C04_once_in_order : forall cfg z, zreach cfg z -> acks_in_order z.
Proof. intros cfg z H. exact (pend_ok_in_order z (pend_ok_reach cfg [] z H)). Qed.

(* ------------------------------------------------------------------ C04: exactly once without failures *)
Definition pend_full (z : sys2) : Prop :=
  pend z = map N.of_nat (seq 0 (N.to_nat (k_next_cb (z_core z)))).

Lemma pend_full_step z e z' v :
  ev_fault_free e = true -> pend_full z -> zstep z e = Some (z', v) -> pend_full z'.
Proof.
  unfold pend_full. intros Hff Hz Hs.
  destruct (pend_step _ _ _ _ Hs) as [[Hp Hn]|[[Hp Hn]|(He & _)]].
  - now rewrite Hp, Hn.
  - rewrite Hp, Hn, Hz.
    replace (N.to_nat (k_next_cb (z_core z) + 1)) with (S (N.to_nat (k_next_cb (z_core z)))) by lia.
    rewrite seq_S, map_app. simpl. now rewrite N2Nat.id.
  - subst e. discriminate.
Qed.

Lemma pend_full_complete z : pend_full z -> worker_idle2 z -> acks_complete z.
Proof.
  intros Hf (Hq & Hb & Ht). unfold pend_full, pend, batch_cbs in Hf. rewrite Hq, Hb, Ht in Hf. simpl in Hf.
  rewrite app_nil_r in Hf. exact Hf.
Qed.

Lemma pend_full_reach cfg d z : reach_ff cfg d z -> pend_full z.
Proof.
  revert z. apply (reach_ff_ind pend_full); [|apply pend_full_step].
  intros y Ho. unfold pend_full. rewrite (pend_opened _ _ _ Ho).
  destruct (open_dir_fresh _ _ _ Ho) as (_ & _ & Hn & _). simpl. rewrite Hn. reflexivity.
Qed.

Theorem C04_exactly_once : forall cfg z, zreach_ff cfg z -> worker_idle2 z -> acks_complete z.
Proof. intros cfg z H. exact (pend_full_complete z (pend_full_reach cfg [] z H)). Qed.

Print Assumptions C04_synced_le_written.
Print Assumptions C04_once_in_order.
Print Assumptions C04_exactly_once.
