(* Recovery of a torn or zero-filled tail (property C10; the record iterator is in ScanFacts.v):
   [chunk_open] on the three file shapes, the decomposition of [open_loop]
   into "older chunks, then the newest file", and the result of [open_dir]
   when the newest file is complete / cut / zero-tailed, with truncation of
   incomplete records enabled and disabled. *)
From Coq Require Import List NArith Lia Bool Arith.
From RaftLog Require Import Base.Bytes Model.Types Model.Codec Model.Cache Model.Core Model.Recover.
From RaftLog Require Import Proofs.CodecFacts Proofs.ScanFacts Proofs.JournalDisk.
From RaftLog Require Proofs.JournalChunk.
Import ListNotations.
Local Open Scope N_scope.

(* ---- tail shapes ---- *)

(* what may follow the complete records of the newest file: nothing, a
   non-empty proper prefix of a record (torn write), or zeros *)
Inductive tail_shape : bytes -> Prop :=
| TS_none : tail_shape []
| TS_torn (r : record) (q : bytes) :
    wf_record r -> pprefix q (enc_record r) -> q <> [] -> tail_shape q
| TS_zero (z : nat) : (1 <= z)%nat -> tail_shape (zeros z).

Definition is_nil {A} (l : list A) : bool := match l with [] => true | _ => false end.

Lemma is_nil_true {A} (l : list A) : is_nil l = true <-> l = [].
Proof. destruct l; cbn; split; congruence. Qed.

Lemma is_nil_false {A} (l : list A) : is_nil l = false <-> l <> [].
Proof. destruct l; cbn; split; congruence. Qed.

(* the chunk that [Chunk::open] builds from complete records [rs] *)
Definition chunk_of (id : N) (rs : list record) : chunk :=
  mkChunk id (ends_from id (map rec_size rs)).

(* ---- chunk_open on the three shapes ---- *)

Lemma chunk_open_of_scan cfg id rs tl e :
  scan_file (encs rs ++ tl) = (sized rs, tl, e) ->
  chunk_open cfg id (encs rs ++ tl) =
  match e with
  | SEnd => inl (mkOC (chunk_of id rs) rs false (encs rs ++ tl))
  | SEof => if c_truncate cfg then inl (mkOC (chunk_of id rs) rs true (encs rs))
            else inr EDecodeEof
  | SInvalid => if all_zero tl && c_truncate cfg
                then inl (mkOC (chunk_of id rs) rs true (encs rs))
                else inr EDecodeInvalid
  | SFuel => inr EDecodeInvalid
  end.
Proof.
  intros H. unfold chunk_open. rewrite H. cbv beta iota zeta.
  rewrite sized_snd, sized_fst, firstn_consumed. reflexivity.
Qed.

Theorem chunk_open_complete : forall cfg id rs,
  Forall wf_record rs ->
  chunk_open cfg id (encs rs) = inl (mkOC (chunk_of id rs) rs false (encs rs)).
Proof.
  intros cfg id rs H.
  pose proof (chunk_open_of_scan cfg id rs [] SEnd) as E.
  rewrite app_nil_r in E. apply E, scan_encs, H.
Qed.

Theorem chunk_open_torn : forall cfg id rs r q,
  Forall wf_record rs -> wf_record r -> pprefix q (enc_record r) -> q <> [] ->
  chunk_open cfg id (encs rs ++ q) =
  if c_truncate cfg then inl (mkOC (chunk_of id rs) rs true (encs rs)) else inr EDecodeEof.
Proof.
  intros cfg id rs r q Hrs Hr Hq Hne.
  exact (chunk_open_of_scan cfg id rs q SEof (scan_torn rs r q Hrs Hr Hq Hne)).
Qed.

Theorem chunk_open_zero_tail : forall cfg id rs z,
  Forall wf_record rs -> (1 <= z)%nat ->
  chunk_open cfg id (encs rs ++ zeros z) =
  if c_truncate cfg then inl (mkOC (chunk_of id rs) rs true (encs rs))
  else inr (if Nat.ltb z 28 then EDecodeEof else EDecodeInvalid).
Proof.
  intros cfg id rs z Hrs Hz.
  destruct (Nat.ltb_spec z 28) as [Hlt|Hge].
  - exact (chunk_open_of_scan cfg id rs _ SEof (scan_zero_tail_short rs z Hrs Hz Hlt)).
  - rewrite (chunk_open_of_scan cfg id rs _ SInvalid (scan_zero_tail_long rs z Hrs Hge)).
    rewrite all_zero_zeros. cbn [andb]. reflexivity.
Qed.

Theorem cut_tail_shape : forall rs p,
  Forall wf_record rs -> (p <= length (encs rs))%nat ->
  exists k q, firstn p (encs rs) = encs (firstn k rs) ++ q /\
              Forall wf_record (firstn k rs) /\ tail_shape q.
Proof.
  intros rs p Hrs Hp. destruct (cut_shape rs p Hp) as [k [q [E Hq]]].
  exists k, q. split; [exact E|]. split; [apply Forall_firstn_, Hrs|].
  destruct q as [|b q]; [constructor|].
  destruct Hq as [Hq|[r [Hn Hq]]]; [discriminate|].
  apply (TS_torn r); [|exact Hq|discriminate].
  rewrite Forall_forall in Hrs. apply Hrs. eapply nth_error_In, Hn.
Qed.

Theorem chunk_open_tail : forall cfg id rs tl,
  tl = [] \/ c_truncate cfg = true -> Forall wf_record rs -> tail_shape tl ->
  chunk_open cfg id (encs rs ++ tl) =
  inl (mkOC (chunk_of id rs) rs (negb (is_nil tl)) (encs rs)).
Proof.
  intros cfg id rs tl Hc Hrs Htl. destruct Htl as [|r q Hr Hq Hne|z Hz].
  - rewrite app_nil_r. apply chunk_open_complete, Hrs.
  - destruct Hc as [E|Ht]; [congruence|].
    rewrite (chunk_open_torn cfg id rs r q Hrs Hr Hq Hne), Ht.
    destruct q; [congruence|reflexivity].
  - destruct z; [lia|]. destruct Hc as [E|Ht]; [discriminate E|].
    rewrite (chunk_open_zero_tail cfg id rs (S z) Hrs Hz), Ht. reflexivity.
Qed.

Theorem chunk_open_tail_no_truncate : forall cfg id rs tl,
  c_truncate cfg = false -> Forall wf_record rs -> tail_shape tl -> tl <> [] ->
  exists e, (e = EDecodeEof \/ e = EDecodeInvalid) /\
            chunk_open cfg id (encs rs ++ tl) = inr e.
Proof.
  intros cfg id rs tl Ht Hrs Htl Hne. destruct Htl as [|r q Hr Hq Hne'|z Hz].
  - congruence.
  - exists EDecodeEof. split; [left; reflexivity|].
    rewrite (chunk_open_torn cfg id rs r q Hrs Hr Hq Hne'), Ht. reflexivity.
  - exists (if Nat.ltb z 28 then EDecodeEof else EDecodeInvalid). split.
    + destruct (Nat.ltb z 28); auto.
    + rewrite (chunk_open_zero_tail cfg id rs z Hrs Hz), Ht. reflexivity.
Qed.

Lemma chunk_open_inv cfg id data oc :
  chunk_open cfg id data = inl oc ->
  exists rs tl e,
    scan_file data = (sized rs, tl, e) /\ data = encs rs ++ tl /\ Forall wf_record rs /\
    stops tl e /\ oc = mkOC (chunk_of id rs) rs (negb (is_nil tl)) (encs rs) /\
    (tl = [] \/ c_truncate cfg = true).
Proof.
  intros H. destruct (scan_file data) as [[recs tl] e] eqn:Es.
  destruct (scan_file_inv _ _ _ _ Es) as (rs & -> & -> & W & S).
  rewrite (chunk_open_of_scan _ _ _ _ _ Es) in H.
  exists rs, tl, e. do 4 (split; [assumption || reflexivity|]).
  destruct e; cbn [stops] in S.
  - subst tl. rewrite app_nil_r in H. inversion H. auto.
  - destruct S as [N _]. destruct (c_truncate cfg); [|discriminate]. inversion H.
    destruct tl; [congruence|]. auto.
  - destruct S as [N _]. destruct (c_truncate cfg); [|rewrite andb_false_r in H; discriminate].
    destruct (all_zero tl); [|discriminate]. inversion H. destruct tl; [congruence|]. auto.
  - destruct S.
Qed.

Lemma chunk_open_id cfg id data oc :
  chunk_open cfg id data = inl oc -> ck_id (oc_chunk oc) = id.
Proof.
  intros H. destruct (chunk_open_inv _ _ _ _ H) as (rs & tl & e & _ & _ & _ & _ & -> & _).
  reflexivity.
Qed.

Lemma chunk_open_truncated cfg id data oc :
  chunk_open cfg id data = inl oc -> oc_truncated oc = true -> c_truncate cfg = true.
Proof.
  intros H Ht. destruct (chunk_open_inv _ _ _ _ H) as (rs & tl & e & _ & _ & _ & _ & -> & [->|T]).
  - discriminate Ht.
  - exact T.
Qed.

Lemma ends_from_nil_inv start sizes : ends_from start sizes = [] -> sizes = [].
Proof. destruct sizes; [reflexivity|discriminate]. Qed.

Lemma chunk_of_ends_nonempty id rs : rs <> [] -> ck_ends (chunk_of id rs) <> [].
Proof.
  destruct rs as [|r rs]; [congruence|]. intros _. discriminate.
Qed.

Lemma chunk_of_ends_nil id rs : ck_ends (chunk_of id rs) = [] -> rs = [].
Proof. destruct rs; [reflexivity|discriminate]. Qed.

Lemma last_ends_from : forall sizes start d,
  last (ends_from start sizes) d =
  match sizes with [] => d | _ => start + fold_right N.add 0 sizes end.
Proof.
  induction sizes as [|n r IH]; intros start d; [reflexivity|].
  cbn [ends_from]. destruct r as [|m r'].
  - cbn [ends_from last fold_right]. lia.
  - specialize (IH (start + n) d). cbn [ends_from] in *. cbn [last] in *.
    rewrite IH. cbn [fold_right]. lia.
Qed.

Lemma ck_end_chunk_of id rs :
  ck_end (chunk_of id rs) = id + N.of_nat (length (encs rs)).
Proof.
  unfold ck_end, chunk_of. cbn [ck_ends ck_id]. rewrite last_ends_from, encs_length.
  destruct rs as [|r rs]; [cbn; lia|reflexivity].
Qed.

Lemma ck_push_fresh id n : ck_push (mkChunk id []) n = mkChunk id [id + n].
Proof. reflexivity. Qed.

Lemma split_last_app {A} (l : list A) (x : A) : split_last (l ++ [x]) = Some (l, x).
Proof.
  induction l as [|a l IH]; [reflexivity|].
  cbn [app split_last]. rewrite IH.
  destruct (l ++ [x]) eqn:E; [|reflexivity].
  destruct l; discriminate E.
Qed.


Lemma closed_insert_Forall (P : closed -> Prop) c l :
  P c -> Forall P l -> Forall P (closed_insert c l).
Proof.
  intros Hc H. induction H as [|c' l Hc' Hl IH]; cbn [closed_insert].
  - constructor; [exact Hc|constructor].
  - destruct (N.compare (ck_id (cl_chunk c)) (ck_id (cl_chunk c'))).
    + constructor; assumption.
    + constructor; [exact Hc|]. constructor; assumption.
    + constructor; assumption.
Qed.

(* ---- open_loop = older chunks, then the newest file ---- *)

(* the state handed to replay: the eviction boundary is set to the last log id
   of the chunks before *)
Definition sm_pre (a : open_acc) : sm :=
  mkSM (m_rs (oa_sm a)) (m_log (oa_sm a))
       (cache_set_evictable (m_cache (oa_sm a)) (oa_last a)).

Definition gap_at (a : open_acc) (id : N) : bool :=
  match oa_prev_end a with Some p => negb (N.eqb p id) | None => false end.

Definition trunc_disk (id : N) (oc : opened_chunk) (d : disk) : disk :=
  if oc_truncated oc
  then disk_put (mkFile id (oc_data oc) (N.of_nat (length (oc_data oc)))) d
  else d.

(* one iteration of the loop for a file that is NOT removed as a record-less
   newest chunk *)
Definition open_step (cfg : config) (f : file) (a : open_acc) : open_acc + (err * disk) :=
  if gap_at a (f_id f) then inr (EGap, oa_disk a)
  else
    match chunk_open cfg (f_id f) (f_data f) with
    | inr e => inr (e, oa_disk a)
    | inl oc =>
      let d1 := trunc_disk (f_id f) oc (oa_disk a) in
      match replay (sm_pre a) (f_id f) (f_id f) (oc_records oc) (ck_ends (oc_chunk oc)) with
      | (s1, Some e) => inr (e, d1)
      | (s1, None) =>
        inl (mkOA s1
               (closed_insert (mkClosed (oc_chunk oc) (m_rs s1) (oc_truncated oc)) (oa_closed a))
               (Some (ck_end (oc_chunk oc))) (r_last (m_rs s1)) d1)
      end
    end.

Fixpoint open_older (cfg : config) (files : list file) (a : open_acc)
  : open_acc + (err * disk) :=
  match files with
  | [] => inl a
  | f :: rest =>
    match open_step cfg f a with
    | inl a' => open_older cfg rest a'
    | inr e => inr e
    end
  end.

Definition acc0 (cfg : config) (d : disk) : open_acc := mkOA (sm_new cfg) [] None None d.

(* what the end of [open_dir] reads off the closed chunks: the last id before the chunk it reopens, and
   whether the last closed chunk can be reopened at all *)
Definition prev_last_of (l : list closed) : option logid :=
  match split_last l with Some (_, c) => r_last (cl_state c) | None => None end.

Definition reusable (l : list closed) : option (list closed * closed) :=
  match split_last l with
  | Some (init, lastc) => if cl_truncated lastc then None else Some (init, lastc)
  | None => None
  end.

Definition open_finish (cfg : config) (r : open_acc + (err * disk)) : open_res :=
  match r with
  | inr (e, d') => OpenErr e d'
  | inl a =>
    match reusable (oa_closed a) with
    | Some (init, lastc) =>
      OpenOk (mkSys (mkCore cfg (oa_sm a) (cl_chunk lastc) [] init [] 0 0 0) (oa_disk a) []
                    [mkWF (ck_id (cl_chunk lastc)) (prev_last_of init)] [])
    | None =>
      let id := match oa_prev_end a with Some p => p | None => 0 end in
      match disk_get id (oa_disk a) with
      | Some _ => OpenErr EExists (oa_disk a)
      | None =>
        let head := enc_record (RState (m_rs (oa_sm a))) in
        OpenOk (mkSys (mkCore cfg (oa_sm a) (ck_push (mkChunk id []) (N.of_nat (length head)))
                              [] (oa_closed a) [] 0 0 0)
                      (disk_put (mkFile id head 0) (oa_disk a)) []
                      [mkWF id (prev_last_of (oa_closed a))] [])
      end
    end
  end.

Lemma open_dir_eq cfg d : open_dir cfg d = open_finish cfg (open_loop cfg d (acc0 cfg d)).
Proof.
  unfold open_dir, open_finish, acc0, reusable, prev_last_of.
  destruct (open_loop cfg d (mkOA (sm_new cfg) [] None None d)) as [a|[e d']];
    [|reflexivity].
  destruct (split_last (oa_closed a)) as [[init lastc]|]; [|reflexivity].
  destruct (cl_truncated lastc); reflexivity.
Qed.

(* the end of [open_dir]: the last closed chunk is reopened, or a new chunk file is created *)
Lemma open_dir_inv cfg d y : open_dir cfg d = OpenOk y -> exists a, open_loop cfg d (acc0 cfg d) = inl a /\
  ((exists init lastc, reusable (oa_closed a) = Some (init, lastc) /\
      y = mkSys (mkCore cfg (oa_sm a) (cl_chunk lastc) [] init [] 0 0 0) (oa_disk a) []
                [mkWF (ck_id (cl_chunk lastc)) (prev_last_of init)] []) \/
   (exists id, id = match oa_prev_end a with Some p => p | None => 0 end /\
      reusable (oa_closed a) = None /\ disk_get id (oa_disk a) = None /\
      y = mkSys (mkCore cfg (oa_sm a) (ck_push (mkChunk id []) (N.of_nat (length (enc_record (RState (m_rs (oa_sm a)))))))
                        [] (oa_closed a) [] 0 0 0)
                (disk_put (mkFile id (enc_record (RState (m_rs (oa_sm a)))) 0) (oa_disk a)) []
                [mkWF id (prev_last_of (oa_closed a))] [])).
Proof.
  rewrite open_dir_eq. unfold open_finish.
  destruct (open_loop cfg d (acc0 cfg d)) as [a|[e d']]; [|discriminate]. intros H. exists a. split; [reflexivity|].
  destruct (reusable (oa_closed a)) as [[init lastc]|].
  - left. exists init, lastc. inversion H. auto.
  - right. eexists. split; [reflexivity|]. destruct (disk_get _ (oa_disk a)); [discriminate|]. inversion H. auto.
Qed.

Lemma open_loop_eq cfg f rest a :
  open_loop cfg (f :: rest) a =
  if gap_at a (f_id f) then inr (EGap, oa_disk a)
  else
    match chunk_open cfg (f_id f) (f_data f) with
    | inr e => inr (e, oa_disk a)
    | inl oc =>
      let d1 := trunc_disk (f_id f) oc (oa_disk a) in
      match ck_ends (oc_chunk oc), rest with
      | [], [] =>
        inl (mkOA (oa_sm a) (oa_closed a) (Some (f_id f)) (oa_last a) (disk_remove (f_id f) d1))
      | _, _ =>
        match replay (sm_pre a) (f_id f) (f_id f) (oc_records oc) (ck_ends (oc_chunk oc)) with
        | (s1, Some e) => inr (e, d1)
        | (s1, None) =>
          open_loop cfg rest
            (mkOA s1
               (closed_insert (mkClosed (oc_chunk oc) (m_rs s1) (oc_truncated oc)) (oa_closed a))
               (Some (ck_end (oc_chunk oc))) (r_last (m_rs s1)) d1)
        end
      end
    end.
Proof. reflexivity. Qed.

Definition obind (x : open_acc + (err * disk)) (k : open_acc -> open_acc + (err * disk)) :=
  match x with inl a => k a | inr e => inr e end.

Lemma obind_ret x : obind x inl = x.
Proof. destruct x; reflexivity. Qed.

Lemma open_step_inl cfg f a a' :
  open_step cfg f a = inl a' ->
  exists oc s1,
    gap_at a (f_id f) = false /\ chunk_open cfg (f_id f) (f_data f) = inl oc /\
    replay (sm_pre a) (f_id f) (f_id f) (oc_records oc) (ck_ends (oc_chunk oc)) = (s1, None) /\
    a' = mkOA s1 (closed_insert (mkClosed (oc_chunk oc) (m_rs s1) (oc_truncated oc)) (oa_closed a))
              (Some (ck_end (oc_chunk oc))) (r_last (m_rs s1))
              (trunc_disk (f_id f) oc (oa_disk a)).
Proof.
  unfold open_step. destruct (gap_at a (f_id f)); [discriminate|].
  destruct (chunk_open cfg (f_id f) (f_data f)) as [oc|e]; [|discriminate]. cbv zeta.
  destruct (replay _ _ _ _ _) as [s1 [e|]] eqn:R; [discriminate|].
  intros H. inversion H. exists oc, s1. auto.
Qed.

Lemma open_loop_step cfg f rest a :
  (rest = [] -> forall oc, chunk_open cfg (f_id f) (f_data f) = inl oc ->
                           ck_ends (oc_chunk oc) <> []) ->
  open_loop cfg (f :: rest) a = obind (open_step cfg f a) (open_loop cfg rest).
Proof.
  intros H. rewrite open_loop_eq. unfold open_step, obind.
  destruct (gap_at a (f_id f)); [reflexivity|].
  destruct (chunk_open cfg (f_id f) (f_data f)) as [oc|e]; [|reflexivity].
  cbv zeta. specialize (fun E => H E oc eq_refl).
  destruct (ck_ends (oc_chunk oc)) as [|x l]; [destruct rest; [now destruct (H eq_refl)|]|];
    destruct (replay _ _ _ _ _) as [s1 [e|]]; reflexivity.
Qed.

Lemma open_loop_cases cfg f rest a :
  open_loop cfg (f :: rest) a = obind (open_step cfg f a) (open_loop cfg rest) \/
  exists a', open_loop cfg (f :: rest) a = inl a'.
Proof.
  rewrite open_loop_eq. unfold open_step, obind.
  destruct (gap_at a (f_id f)); [left; reflexivity|].
  destruct (chunk_open cfg (f_id f) (f_data f)) as [oc|e]; [|left; reflexivity]. cbv zeta.
  destruct (ck_ends (oc_chunk oc)) as [|x l]; [destruct rest; [right; eexists; reflexivity|]|];
    left; destruct (replay _ _ _ _ _) as [s1 [e|]]; reflexivity.
Qed.

Theorem open_loop_app : forall cfg older f rest a,
  open_loop cfg (older ++ f :: rest) a =
  match open_older cfg older a with
  | inl a' => open_loop cfg (f :: rest) a'
  | inr e => inr e
  end.
Proof.
  intros cfg older f rest. induction older as [|g older IH]; intros a; [reflexivity|].
  cbn [app open_older]. rewrite open_loop_step by (destruct older; discriminate).
  destruct (open_step cfg g a) as [a'|e]; [apply IH|reflexivity].
Qed.

Lemma open_older_app cfg xs ys : forall a,
  open_older cfg (xs ++ ys) a = obind (open_older cfg xs a) (open_older cfg ys).
Proof.
  induction xs as [|f xs IH]; intros a; [reflexivity|]. cbn [app open_older].
  destruct (open_step cfg f a) as [a'|e]; [apply IH|reflexivity].
Qed.

(* files that are never dropped as a record-less newest chunk *)
Definition keeps (cfg : config) (f : file) : Prop :=
  forall oc, chunk_open cfg (f_id f) (f_data f) = inl oc -> ck_ends (oc_chunk oc) <> [].

Lemma open_loop_older cfg fs : Forall (keeps cfg) fs -> forall a,
  open_loop cfg fs a = open_older cfg fs a.
Proof.
  induction 1 as [|f fs Hf _ IH]; intros a; [reflexivity|].
  rewrite open_loop_step by (intros _; exact Hf). cbn [open_older].
  destruct (open_step cfg f a) as [a'|e]; [apply IH|reflexivity].
Qed.

Lemma open_loop_last_records cfg f a oc :
  chunk_open cfg (f_id f) (f_data f) = inl oc ->
  ck_ends (oc_chunk oc) <> [] ->
  open_loop cfg [f] a = open_step cfg f a.
Proof.
  intros Hoc Hne. rewrite open_loop_step, obind_ret; [reflexivity|].
  intros _ oc' E. congruence.
Qed.

Lemma open_loop_last_headless cfg f a oc :
  gap_at a (f_id f) = false ->
  chunk_open cfg (f_id f) (f_data f) = inl oc ->
  ck_ends (oc_chunk oc) = [] ->
  open_loop cfg [f] a =
  inl (mkOA (oa_sm a) (oa_closed a) (Some (f_id f)) (oa_last a)
            (disk_remove (f_id f) (trunc_disk (f_id f) oc (oa_disk a)))).
Proof.
  intros Hgap Hoc He. rewrite open_loop_eq, Hgap, Hoc. cbv zeta. rewrite He. reflexivity.
Qed.

(* One round of the loop that succeeds: the newest file, holding no complete record, is
   removed; or the file is taken in by [open_step] and the loop goes on. *)
Lemma open_loop_inl cfg f rest a a' : open_loop cfg (f :: rest) a = inl a' ->
  (exists oc, rest = [] /\ gap_at a (f_id f) = false /\ chunk_open cfg (f_id f) (f_data f) = inl oc /\
     ck_ends (oc_chunk oc) = [] /\
     a' = mkOA (oa_sm a) (oa_closed a) (Some (f_id f)) (oa_last a)
               (disk_remove (f_id f) (trunc_disk (f_id f) oc (oa_disk a)))) \/
  (exists a1, open_step cfg f a = inl a1 /\ open_loop cfg rest a1 = inl a' /\
     (rest = [] -> forall oc, chunk_open cfg (f_id f) (f_data f) = inl oc -> ck_ends (oc_chunk oc) <> [])).
Proof.
  intros H. destruct (gap_at a (f_id f)) eqn:Eg; [rewrite open_loop_eq, Eg in H; discriminate|].
  destruct (chunk_open cfg (f_id f) (f_data f)) as [oc|e] eqn:Eoc; [|rewrite open_loop_eq, Eg, Eoc in H; discriminate].
  destruct rest as [|g rest]; [destruct (ck_ends (oc_chunk oc)) as [|e0 el] eqn:Ee|].
  - left. rewrite (open_loop_last_headless _ _ _ _ Eg Eoc Ee) in H. inversion H. exists oc. repeat split; auto.
  - right. rewrite open_loop_step in H.
    2:{ intros _ oc' E. rewrite Eoc in E. injection E as <-. rewrite Ee. discriminate. }
    destruct (open_step cfg f a) as [a1|e]; [|discriminate]. exists a1. split; [reflexivity|]. split; [exact H|].
    intros _ oc' [= <-]. rewrite Ee. discriminate.
  - right. rewrite open_loop_step in H by discriminate.
    destruct (open_step cfg f a) as [a1|e]; [|discriminate]. exists a1. split; [reflexivity|]. split; [exact H|discriminate].
Qed.

Lemma open_loop_cons_gap cfg f rest a a' : open_loop cfg (f :: rest) a = inl a' -> gap_at a (f_id f) = false.
Proof. rewrite open_loop_eq. destruct (gap_at a (f_id f)); [discriminate|reflexivity]. Qed.


Theorem open_dir_newest : forall cfg older f a,
  open_older cfg older (acc0 cfg (older ++ [f])) = inl a ->
  open_dir cfg (older ++ [f]) = open_finish cfg (open_loop cfg [f] a).
Proof.
  intros cfg older f a H. rewrite open_dir_eq, open_loop_app, H. reflexivity.
Qed.

(* ---- chunks that are opened without truncation: the directory is only threaded through ---- *)

Definition no_trunc (cfg : config) (f : file) : Prop :=
  forall oc, chunk_open cfg (f_id f) (f_data f) = inl oc -> oc_truncated oc = false.

Lemma no_trunc_disabled cfg fs : c_truncate cfg = false -> Forall (no_trunc cfg) fs.
Proof.
  intros Ht. apply Forall_forall. intros f _ oc Hoc. destruct (oc_truncated oc) eqn:E; [|reflexivity].
  rewrite (chunk_open_truncated _ _ _ _ Hoc E) in Ht. discriminate.
Qed.

Lemma open_step_disk cfg f a : no_trunc cfg f ->
  match open_step cfg f a with
  | inl a' => oa_disk a' = oa_disk a
  | inr (_, d) => d = oa_disk a
  end.
Proof.
  intros N. unfold open_step. destruct (gap_at a (f_id f)); [reflexivity|].
  destruct (chunk_open cfg (f_id f) (f_data f)) as [oc|e] eqn:E; [|reflexivity].
  cbv zeta. unfold trunc_disk. rewrite (N oc E).
  destruct (replay _ _ _ _ _) as [s1 [e|]]; reflexivity.
Qed.

Lemma open_older_disk cfg fs : Forall (no_trunc cfg) fs -> forall a,
  match open_older cfg fs a with
  | inl a' => oa_disk a' = oa_disk a
  | inr (_, d) => d = oa_disk a
  end.
Proof.
  induction 1 as [|f fs Hf _ IH]; intros a; [reflexivity|]. cbn [open_older].
  pose proof (open_step_disk cfg f a Hf) as S.
  destruct (open_step cfg f a) as [a1|[e d]]; [|exact S].
  specialize (IH a1). destruct (open_older cfg fs a1) as [a2|[e d]]; congruence.
Qed.

Lemma open_older_disk_ok cfg fs a a' :
  Forall (no_trunc cfg) fs -> open_older cfg fs a = inl a' -> oa_disk a' = oa_disk a.
Proof. intros N H. pose proof (open_older_disk cfg fs N a) as D. now rewrite H in D. Qed.

Lemma open_loop_err_disk cfg fs : Forall (no_trunc cfg) fs -> forall a e d',
  open_loop cfg fs a = inr (e, d') -> d' = oa_disk a.
Proof.
  induction 1 as [|f fs Hf _ IH]; intros a e d' H; [discriminate|].
  destruct (open_loop_cases cfg f fs a) as [E|[a' E]]; rewrite E in H; [|discriminate].
  pose proof (open_step_disk cfg f a Hf) as D.
  destruct (open_step cfg f a) as [a1|[e1 d1]]; cbn [obind] in H.
  - rewrite <- D. exact (IH _ _ _ H).
  - inversion H as [[He Hd]]. now rewrite <- Hd.
Qed.

Theorem open_loop_no_truncate_err : forall cfg files a e d',
  c_truncate cfg = false -> open_loop cfg files a = inr (e, d') -> d' = oa_disk a.
Proof.
  intros cfg files a e d' Ht. apply open_loop_err_disk, no_trunc_disabled, Ht.
Qed.

(* ---- what the accumulated state must satisfy when the newest file is met ---- *)

Record acc_ok (a : open_acc) (id : N) : Prop := {
  ok_gap : gap_at a id = false;
  ok_closed : Forall (fun c => ck_id (cl_chunk c) < id) (oa_closed a);
  ok_disk : Forall (fun g => f_id g <= id) (oa_disk a) }.

Lemma trunc_disk_Forall (P : file -> Prop) id oc d :
  (forall data syn, P (mkFile id data syn)) -> Forall P d -> Forall P (trunc_disk id oc d).
Proof.
  intros Hf Hd. unfold trunc_disk. destruct (oc_truncated oc); [|exact Hd].
  apply disk_put_Forall; [apply Hf|exact Hd].
Qed.

Lemma open_older_ids cfg id : forall older a a',
  open_older cfg older a = inl a' ->
  Forall (fun g => f_id g < id) older ->
  Forall (fun c => ck_id (cl_chunk c) < id) (oa_closed a) ->
  Forall (fun g => f_id g <= id) (oa_disk a) ->
  Forall (fun c => ck_id (cl_chunk c) < id) (oa_closed a') /\
  Forall (fun g => f_id g <= id) (oa_disk a').
Proof.
  induction older as [|f older IH]; intros a a' H Hf Hc Hd.
  - inversion H; subst. split; assumption.
  - cbn [open_older] in H. destruct (open_step cfg f a) as [a1|e] eqn:E; [|discriminate].
    inversion Hf as [|? ? Hlt Hf']; subst.
    destruct (open_step_inl _ _ _ _ E) as (oc & s1 & _ & Hoc & _ & ->).
    apply (IH _ a' H Hf'); cbn [oa_closed oa_disk].
    + apply closed_insert_Forall; [|exact Hc]. cbn [cl_chunk].
      now rewrite (chunk_open_id _ _ _ _ Hoc).
    + apply trunc_disk_Forall; [intros; cbn [f_id]; lia|exact Hd].
Qed.

Lemma older_acc_ok_gap cfg older id data syn a :
  open_older cfg older (acc0 cfg (older ++ [mkFile id data syn])) = inl a ->
  Forall (fun g => f_id g < id) older ->
  gap_at a id = false ->
  acc_ok a id.
Proof.
  intros H Hlt Hgap.
  destruct (open_older_ids cfg id older _ _ H Hlt) as [Hc Hd].
  - constructor.
  - cbn [acc0 oa_disk]. apply Forall_app. split.
    + eapply Forall_impl; [|exact Hlt]. cbv beta. intros g Hg. lia.
    + constructor; [cbn [f_id]; lia|constructor].
  - split; assumption.
Qed.

Lemma gap_of_prev_end cfg older a0 a id :
  open_older cfg older a0 = inl a -> oa_prev_end a0 = None ->
  oa_prev_end a = Some id \/ older = [] -> gap_at a id = false.
Proof.
  intros H H0 [E|E]; unfold gap_at.
  - rewrite E, N.eqb_refl. reflexivity.
  - subst older. inversion H; subst a. now rewrite H0.
Qed.

(* ---- the newest file, at the level of the accumulated state ---- *)

Lemma open_step_records cfg a id data syn rs t s1 :
  gap_at a id = false ->
  Forall (fun c => ck_id (cl_chunk c) < id) (oa_closed a) ->
  chunk_open cfg id data = inl (mkOC (chunk_of id rs) rs t (encs rs)) ->
  replay (sm_pre a) id id rs (ends_from id (map rec_size rs)) = (s1, None) ->
  open_step cfg (mkFile id data syn) a =
  inl (mkOA s1 (oa_closed a ++ [mkClosed (chunk_of id rs) (m_rs s1) t])
           (Some (id + N.of_nat (length (encs rs)))) (r_last (m_rs s1))
           (if t then disk_put (mkFile id (encs rs) (N.of_nat (length (encs rs)))) (oa_disk a)
            else oa_disk a)).
Proof.
  intros Hgap Hcl Hoc Hrep. unfold open_step. cbn [f_id f_data]. rewrite Hgap, Hoc.
  cbv zeta. cbn [oc_records oc_chunk oc_truncated]. unfold chunk_of at 1. cbn [ck_ends].
  rewrite Hrep, JournalChunk.closed_insert_last by (cbn [cl_chunk chunk_of ck_id]; exact Hcl).
  rewrite ck_end_chunk_of. reflexivity.
Qed.

(* complete newest file with at least one record: it is reopened for appending *)
Theorem newest_complete : forall cfg a id syn rs,
  acc_ok a id -> Forall wf_record rs -> forall s1,
  rs <> [] ->
  replay (sm_pre a) id id rs (ends_from id (map rec_size rs)) = (s1, None) ->
  open_finish cfg (open_loop cfg [mkFile id (encs rs) syn] a) =
  OpenOk (mkSys (mkCore cfg s1 (chunk_of id rs) [] (oa_closed a) [] 0 0 0) (oa_disk a) []
                [mkWF id (prev_last_of (oa_closed a))] []).
Proof.
  intros cfg a id syn rs Hok Hrs s1 Hne Hrep.
  pose proof (chunk_open_complete cfg id rs Hrs) as Hoc.
  rewrite (open_loop_last_records cfg (mkFile id (encs rs) syn) a _ Hoc)
    by (apply chunk_of_ends_nonempty, Hne).
  rewrite (open_step_records cfg a id _ syn rs false s1 (ok_gap _ _ Hok) (ok_closed _ _ Hok) Hoc Hrep).
  unfold open_finish, reusable. cbn [oa_closed]. rewrite split_last_app. reflexivity.
Qed.

(* newest file with at least one complete record and a discarded tail:
   cut back to the records, a fresh chunk starts at the cut *)
Theorem newest_cut : forall cfg a id syn rs,
  acc_ok a id -> Forall wf_record rs -> forall tl s1,
  c_truncate cfg = true -> tail_shape tl -> tl <> [] -> rs <> [] ->
  replay (sm_pre a) id id rs (ends_from id (map rec_size rs)) = (s1, None) ->
  let len := N.of_nat (length (encs rs)) in
  let id' := id + len in
  let head := enc_record (RState (m_rs s1)) in
  open_finish cfg (open_loop cfg [mkFile id (encs rs ++ tl) syn] a) =
  OpenOk (mkSys (mkCore cfg s1 (mkChunk id' [id' + N.of_nat (length head)]) []
                        (oa_closed a ++ [mkClosed (chunk_of id rs) (m_rs s1) true]) [] 0 0 0)
                (disk_put (mkFile id' head 0) (disk_put (mkFile id (encs rs) len) (oa_disk a)))
                [] [mkWF id' (r_last (m_rs s1))] []).
Proof.
  intros cfg a id syn rs Hok Hrs tl s1 Ht Htl Htlne Hne Hrep len id' head.
  pose proof (chunk_open_tail cfg id rs tl (or_intror Ht) Hrs Htl) as Hoc.
  replace (negb (is_nil tl)) with true in Hoc by (destruct tl; [congruence|reflexivity]).
  rewrite (open_loop_last_records cfg (mkFile id (encs rs ++ tl) syn) a _ Hoc)
    by (apply chunk_of_ends_nonempty, Hne).
  rewrite (open_step_records cfg a id _ syn rs true s1 (ok_gap _ _ Hok) (ok_closed _ _ Hok) Hoc Hrep).
  unfold open_finish, reusable. cbn [oa_closed]. rewrite split_last_app.
  cbn [cl_truncated oa_prev_end oa_disk oa_sm oa_closed]. fold len. fold id'.
  assert (Hlen : 12 <= len).
  { unfold len. destruct rs as [|r rs']; [congruence|].
    rewrite encs_cons, app_length. pose proof (enc_record_min_len r). lia. }
  rewrite disk_get_none.
  - cbv zeta. fold head. rewrite ck_push_fresh.
    unfold prev_last_of. rewrite split_last_app. reflexivity.
  - apply disk_put_Forall; [cbn [f_id]; lia|].
    eapply Forall_impl; [|exact (ok_disk _ _ Hok)]. cbv beta. intros g Hg. lia.
Qed.

(* newest file without a complete record (empty, torn inside its first record,
   or zeros): the file is removed; the last closed chunk is reopened if there is
   one that was not truncated, otherwise the file is created again with a head
   record. The state is the one accumulated from the older chunks (with the
   eviction boundary as they left it). *)
Theorem newest_headless : forall cfg a id syn tl,
  acc_ok a id -> tail_shape tl -> (tl = [] \/ c_truncate cfg = true) ->
  open_finish cfg (open_loop cfg [mkFile id tl syn] a) =
  match reusable (oa_closed a) with
  | Some (init, lastc) =>
    OpenOk (mkSys (mkCore cfg (oa_sm a) (cl_chunk lastc) [] init [] 0 0 0)
                  (disk_remove id (oa_disk a)) []
                  [mkWF (ck_id (cl_chunk lastc)) (prev_last_of init)] [])
  | None =>
    let head := enc_record (RState (m_rs (oa_sm a))) in
    OpenOk (mkSys (mkCore cfg (oa_sm a) (mkChunk id [id + N.of_nat (length head)]) []
                          (oa_closed a) [] 0 0 0)
                  (disk_put (mkFile id head 0) (disk_remove id (oa_disk a))) []
                  [mkWF id (prev_last_of (oa_closed a))] [])
  end.
Proof.
  intros cfg a id syn tl Hok Htl Hc.
  pose proof (chunk_open_tail cfg id [] tl Hc (Forall_nil _) Htl) as Hoc.
  assert (E : open_loop cfg [mkFile id tl syn] a =
              inl (mkOA (oa_sm a) (oa_closed a) (Some id) (oa_last a)
                        (disk_remove id (oa_disk a)))).
  { rewrite (open_loop_last_headless cfg (mkFile id tl syn) a _ (ok_gap _ _ Hok) Hoc eq_refl).
    cbn [f_id]. unfold trunc_disk. cbn [oc_truncated oc_data].
    destruct (negb (is_nil tl)); [|reflexivity].
    rewrite (disk_remove_put (mkFile id _ _)). reflexivity. }
  rewrite E. unfold open_finish. cbn [oa_closed oa_sm oa_disk oa_prev_end].
  destruct (reusable (oa_closed a)) as [[init lastc]|]; [reflexivity|].
  rewrite disk_get_remove, N.eqb_refl. cbv zeta. rewrite ck_push_fresh. reflexivity.
Qed.

(* truncation disabled: an incomplete or zero tail makes the loop fail without
   touching the directory *)
Theorem newest_no_truncate : forall cfg a id syn rs tl,
  acc_ok a id -> Forall wf_record rs -> c_truncate cfg = false ->
  tail_shape tl -> tl <> [] ->
  exists e, (e = EDecodeEof \/ e = EDecodeInvalid) /\
            open_loop cfg [mkFile id (encs rs ++ tl) syn] a = inr (e, oa_disk a).
Proof.
  intros cfg a id syn rs tl Hok Hrs Ht Htl Hne.
  destruct (chunk_open_tail_no_truncate cfg id rs tl Ht Hrs Htl Hne) as [e [He Hoc]].
  exists e. split; [exact He|].
  rewrite open_loop_eq. cbn [f_id f_data]. rewrite (ok_gap _ _ Hok), Hoc. reflexivity.
Qed.

(* ---- C10 for open_dir ---- *)

Lemma replay_nil s id start ends : replay s id start [] ends = (s, None).
Proof. reflexivity. Qed.

Section C10.
Variable cfg : config.
Variable older : list file.
Variables id syn : N.
Variable rs : list record.
Variable tl : bytes.
Variable a : open_acc.

(* the older chunks open without error (possibly after truncations of their own) *)
Hypothesis Holder :
  open_older cfg older (acc0 cfg (older ++ [mkFile id (encs rs ++ tl) syn])) = inl a.
(* the file is the newest one and follows the previous chunk without a gap *)
Hypothesis Hids : Forall (fun g => f_id g < id) older.
Hypothesis Hgap : oa_prev_end a = Some id \/ older = [].
Hypothesis Hrs : Forall wf_record rs.
Hypothesis Htl : tail_shape tl.

Theorem C10_longest_prefix_open : forall s1,
  (* truncation of incomplete records enabled (not needed for a complete file) *)
  c_truncate cfg = true \/ tl = [] ->
  (* the complete records replay without a validation error *)
  replay (sm_pre a) id id rs (ends_from id (map rec_size rs)) = (s1, None) ->
  exists y,
    open_dir cfg (older ++ [mkFile id (encs rs ++ tl) syn]) = OpenOk y /\
    (* Raft state and index map: the older chunks, then exactly the complete records *)
    m_rs (k_sm (y_core y)) = m_rs s1 /\
    m_log (k_sm (y_core y)) = m_log s1 /\
    (rs <> [] -> k_sm (y_core y) = s1) /\
    (rs = [] -> k_sm (y_core y) = oa_sm a) /\
    (* complete file: untouched and reopened for appending *)
    (tl = [] -> rs <> [] ->
       y_disk y = oa_disk a /\ k_open (y_core y) = chunk_of id rs /\
       k_closed (y_core y) = oa_closed a) /\
    (* discarded tail: cut back to the records; a fresh chunk starts at the cut *)
    (tl <> [] -> rs <> [] ->
       let len := N.of_nat (length (encs rs)) in
       let head := enc_record (RState (m_rs s1)) in
       y_disk y = disk_put (mkFile (id + len) head 0)
                           (disk_put (mkFile id (encs rs) len) (oa_disk a)) /\
       k_open (y_core y) = mkChunk (id + len) [id + len + N.of_nat (length head)] /\
       k_closed (y_core y) = oa_closed a ++ [mkClosed (chunk_of id rs) (m_rs s1) true]) /\
    (* no complete record: the file is removed; either the last closed chunk is
       reopened or the file is created again with a head record *)
    (rs = [] ->
       match reusable (oa_closed a) with
       | Some (init, lastc) =>
         y_disk y = disk_remove id (oa_disk a) /\ k_open (y_core y) = cl_chunk lastc /\
         k_closed (y_core y) = init
       | None =>
         let head := enc_record (RState (m_rs (oa_sm a))) in
         y_disk y = disk_put (mkFile id head 0) (disk_remove id (oa_disk a)) /\
         k_open (y_core y) = mkChunk id [id + N.of_nat (length head)] /\
         k_closed (y_core y) = oa_closed a
       end) /\
    (* nothing is queued *)
    k_pending (y_core y) = [] /\ y_queue y = [].
Proof using Holder Hids Hgap Hrs Htl.
  intros s1 Ht Hrep.
  pose proof (older_acc_ok_gap cfg older id _ syn a Holder Hids
                (gap_of_prev_end _ _ _ _ _ Holder eq_refl Hgap)) as Hok.
  rewrite (open_dir_newest cfg older _ a Holder).
  destruct rs as [|r rs'] eqn:Ers.
  - rewrite replay_nil in Hrep. inversion Hrep; subst s1.
    cbn [encs map concat app].
    rewrite (newest_headless cfg a id syn tl Hok Htl
               (match Ht with or_introl H => or_intror H | or_intror H => or_introl H end)).
    destruct (reusable (oa_closed a)) as [[init lastc]|] eqn:Er.
    + eexists. split; [reflexivity|]. cbn [y_core y_disk y_queue k_sm k_open k_closed k_pending].
      repeat split; try reflexivity; try congruence.
    + eexists. split; [reflexivity|]. cbn [y_core y_disk y_queue k_sm k_open k_closed k_pending].
      repeat split; try reflexivity; try congruence.
  - rewrite <- Ers in *. assert (Hne : rs <> []) by (rewrite Ers; discriminate).
    clear Ers. destruct tl as [|b tl'] eqn:Etl.
    + rewrite app_nil_r.
      rewrite (newest_complete cfg a id syn rs Hok Hrs s1 Hne Hrep).
      eexists. split; [reflexivity|]. cbn [y_core y_disk y_queue k_sm k_open k_closed k_pending].
      repeat split; try reflexivity; try congruence.
    + rewrite <- Etl in *. assert (Htlne : tl <> []) by (rewrite Etl; discriminate).
      clear Etl. destruct Ht as [Ht|Ht]; [|congruence].
      rewrite (newest_cut cfg a id syn rs Hok Hrs tl s1 Ht Htl Htlne Hne Hrep).
      eexists. split; [reflexivity|]. cbn [y_core y_disk y_queue k_sm k_open k_closed k_pending].
      repeat split; try reflexivity; try congruence.
Qed.

Theorem C10_truncate_disabled :
  c_truncate cfg = false -> tl <> [] ->
  exists e, (e = EDecodeEof \/ e = EDecodeInvalid) /\
    open_dir cfg (older ++ [mkFile id (encs rs ++ tl) syn]) =
    OpenErr e (older ++ [mkFile id (encs rs ++ tl) syn]).
Proof using Holder Hids Hgap Hrs Htl.
  intros Ht Hne.
  pose proof (older_acc_ok_gap cfg older id _ syn a Holder Hids
                (gap_of_prev_end _ _ _ _ _ Holder eq_refl Hgap)) as Hok.
  destruct (newest_no_truncate cfg a id syn rs tl Hok Hrs Ht Htl Hne) as [e [He E]].
  exists e. split; [exact He|].
  rewrite (open_dir_newest cfg older _ a Holder), E.
  rewrite (open_older_disk_ok cfg older _ a (no_trunc_disabled cfg older Ht) Holder). reflexivity.
Qed.

End C10.

Corollary open_dir_no_truncate_loop_err : forall cfg d e d',
  c_truncate cfg = false -> open_loop cfg d (acc0 cfg d) = inr (e, d') -> d' = d.
Proof.
  intros cfg d e d' Ht H. exact (open_loop_no_truncate_err cfg d _ e d' Ht H).
Qed.

Print Assumptions cut_tail_shape.
Print Assumptions chunk_open_complete.
Print Assumptions chunk_open_torn.
Print Assumptions chunk_open_zero_tail.
Print Assumptions open_loop_app.
Print Assumptions newest_complete.
Print Assumptions newest_cut.
Print Assumptions newest_headless.
Print Assumptions newest_no_truncate.
Print Assumptions C10_longest_prefix_open.
Print Assumptions C10_truncate_disabled.
Print Assumptions open_loop_no_truncate_err.
