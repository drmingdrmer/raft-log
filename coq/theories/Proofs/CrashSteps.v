(* C03/C05, stage A, system side: the L2 journal invariant [JI] holds in every
   reachable state of the L2 system (L2_journal). *)
From Coq Require Import List NArith Lia Sorting.Sorted.
From RaftLog Require Import Model.Types Model.Codec Model.Core
  Model.Run Model.Sys Spec.Durable.
From RaftLog Require Import Proofs.NoPanic Proofs.JournalDisk Proofs.JournalChunk
  Proofs.JournalFacts.
From RaftLog Require Import Proofs.SmFacts Proofs.CrashBase Proofs.CrashJournal.
From RaftLog Require Proofs.PurgeDurable.
Import ListNotations.
Local Open Scope N_scope.
Local Arguments enc_record : simpl never.

(* a worker step as the journal invariant sees it: what it does to the stream still to be carried
   out, to the worker's newest file [cur0] and to the disk. The thirteen cases of [AF.work_step]
   come down to these six ([zwork_wk]): the head request of the stream is carried out ([KWrite],
   [KTrack]) or has nothing to do ([KDrop]), or the stream stays ([KSame], [KRemove]), or the
   thread ends *)
Inductive wk (z z' : sys2) : Prop :=
| KSame : AD.stream z' = AD.stream z -> cur0 z' = cur0 z ->
    (z_disk z' = z_disk z \/ exists id, z_disk z' = disk_sync id (z_disk z)) ->
    wk z z'
| KDrop r : AD.stream z = XSend r :: AD.stream z' ->
    (match r with WWrite _ [] _ => True | WRemove _ => True | _ => False end) ->
    cur0 z' = cur0 z -> z_disk z' = z_disk z -> wk z z'
| KWrite u data cb : AD.stream z = XSend (WWrite u data cb) :: AD.stream z' ->
    cur0 z' = cur0 z -> newest (z_w z) <> None ->
    z_disk z' = disk_append (cur0 z) data (z_disk z) -> wk z z'
| KTrack off p : AD.stream z = XSend (WAppendFile off p) :: AD.stream z' ->
    cur0 z' = off -> z_disk z' = z_disk z -> wk z z'
| KRemove id : AD.stream z' = AD.stream z -> cur0 z' = cur0 z ->
    z_disk z' = disk_remove id (z_disk z) -> wk z z'
| KDie : w_alive (z_w z') = false -> z_disk z' = z_disk z -> wk z z'.

Lemma core_eqj_same k : core_eqj k k.
Proof. apply core_eqj_refl. Qed.

Lemma stream_set_w z z' : z_queue z' = z_queue z -> z_todo z' = z_todo z ->
  AD.stream z' = map XSend (AD.stream_batch (z_w z') ++ z_queue z) ++ z_todo z.
Proof. unfold AD.stream. now intros -> ->. Qed.

Lemma zwork_wk z ok z' v : zwork z ok = Some (z', v) ->
  z_todo z' = z_todo z /\ z_ghost z' = z_ghost z /\ core_eqj (z_core z) (z_core z') /\
  (w_alive (z_w z') = true -> w_alive (z_w z) = true) /\ wk z z'.
Proof.
  intros H. apply AF.zwork_inv in H. destruct H as (b & Hal & Eb & W).
  pose proof (AD.stream_eq z b Eb) as Es.
  assert (Same : forall z1, z_queue z1 = z_queue z -> z_todo z1 = z_todo z ->
            AD.stream_batch (z_w z1) = AD.stream_at (b_pos b) b -> AD.stream z1 = AD.stream z).
  { intros z1 Hq Ht E. now rewrite (stream_set_w z z1 Hq Ht), E, Es. }
  AF.work_cases W;
    (split; [reflexivity|]; split; [reflexivity|];
     split; [apply core_eqj_refl || apply core_eqj_cache|]; split; [intros _; exact Hal|]).
  - (* a move: the stream is unchanged or loses a request that has no effect on the files *)
    assert (E' : AD.stream (set_w z (w_set_pos (z_w z) b p))
                 = map XSend (AD.stream_at p b ++ z_queue z) ++ z_todo z).
    { rewrite (stream_set_w z) by reflexivity. cbn [z_w set_w]. now rewrite AD.stream_batch_set_pos. }
    destruct (AD.stream_at_move _ _ _ M) as [E|[(i & ww & _ & _ & Ed & E)|(ids & _ & _ & E1 & E2)]].
    + apply KSame; [|reflexivity|now left]. now rewrite E', Es, E.
    + apply (KDrop _ _ (AF.req_of_ww ww)); [|unfold AF.req_of_ww; now rewrite Ed|reflexivity|reflexivity].
      now rewrite E', Es, E.
    + apply (KDrop _ _ (WRemove ids)); [|exact I|reflexivity|reflexivity]. now rewrite E', Es, E1, E2.
  - now apply KDie.
  - apply (KWrite _ _ (ww_upto ww) (ww_data ww) (ww_cb ww)); [|reflexivity|congruence|].
    + rewrite Es, (stream_set_w z) by reflexivity. cbn [z_w set_w]. rewrite AD.stream_batch_set_pos, Ep.
      cbn [AD.stream_at]. now rewrite (AF.skipn_nth_cons _ _ _ En).
    + cbn. unfold cur0. now rewrite Enw.
  - apply KSame; [| |right; eexists; reflexivity].
    + apply Same; [reflexivity..|]. cbn [z_w set_w]. now rewrite AD.stream_batch_set_pos, Ep.
    + unfold cur0, newest. cbn. rewrite Ef. now rewrite (PurgeDurable.rev_head_tail f (g :: rest)) by discriminate.
  - apply KSame; [|reflexivity|now left]. apply Same; [reflexivity..|].
    destruct Ep as [[-> _]| ->]; reflexivity.
  - apply KSame; [|reflexivity|now left]. apply Same; [reflexivity..|].
    cbn [z_w set_w set_core]. now rewrite AD.stream_batch_set_pos, Ep.
  - apply KSame; [|reflexivity|right; eexists; reflexivity]. apply Same; [reflexivity..|]. now rewrite Ep.
  - apply KSame; [|reflexivity|now left]. apply Same; [reflexivity..|].
    cbn [z_w set_w add_ack]. now rewrite AD.stream_batch_set_pos, Ep.
  - apply (KRemove _ _ id); [|reflexivity|reflexivity]. apply Same; [reflexivity..|].
    now apply AD.stream_batch_eq.
  - apply (KRemove _ _ id); [|reflexivity|reflexivity]. apply Same; [reflexivity..|].
    cbn [z_w set_w set_disk]. now rewrite AD.stream_batch_set_pos, Ep.
  - apply (KTrack _ _ off prev); [| |reflexivity].
    + rewrite Es, (stream_set_w z) by reflexivity. cbn [z_w set_w]. rewrite AD.stream_batch_set_pos, Ep.
      cbn [AD.stream_at]. unfold AD.nf_list. now rewrite Enf.
    + unfold cur0, newest. cbn. now rewrite rev_unit.
  - apply (KDrop _ _ (WRemove ids)); [|exact I|reflexivity|reflexivity].
    rewrite Es, (stream_set_w z) by reflexivity. cbn [z_w set_w]. rewrite AD.stream_batch_set_pos, Ep.
    cbn [AD.stream_at]. unfold AD.nf_list. now rewrite Enf.
  - apply KSame; [|reflexivity|now left]. apply Same; [reflexivity..|]. now rewrite Ep.
Qed.

(* between a create and its head the caller's effects are not [paired]: the head then goes to a file
   that exists and that nothing later creates *)
Definition tinv (cr : list N) (t : list xeff) : Prop :=
  match t with
  | XWriteHead id _ :: r => In id cr /\ ~ In id (creates r) /\ paired r
  | _ => paired t
  end.

Record JI (z : sys2) (G : list jfile) : Prop := mkJI {
  ji_gi : GI (z_core z) (g_created (z_ghost z)) (z_todo z) G;
  ji_t : tinv (g_created (z_ghost z)) (z_todo z);
  ji_hw : HW (z_disk z) (z_todo z) G;
  ji_e : w_alive (z_w z) = true -> EI (z_core z) (z_disk z) (cur0 z) (AD.stream z) G }.

Lemma paired_tinv cr t : paired t -> tinv cr t.
Proof. destruct t as [|[i|i h|r] t]; simpl; tauto. Qed.

Lemma EI_eqj k k' d c0 S G : core_eqj k k' -> EI k d c0 S G -> EI k' d c0 S G.
Proof. intros (_ & E2 & E3 & _). now apply EI_core. Qed.

Lemma cur0_on_disk z : AD.cinv z -> newest (z_w z) <> None -> In (cur0 z) (map f_id (z_disk z)).
Proof.
  intros (old & tin & fc & fut & fl & st & C) Hn. destruct C.
  unfold cur0. destruct (newest (z_w z)) as [f|] eqn:En; [|congruence].
  rewrite (AD.newest_id _ _ _ _ c_files En), c_disk, !map_app. simpl.
  apply in_or_app. right. apply in_or_app. right. now left.
Qed.

Lemma EI_wk z z' G : wk z z' ->
  (newest (z_w z) <> None -> In (cur0 z) (map f_id (z_disk z))) ->
  (forall c, In c (creates (AD.stream z)) -> ~ In c (map f_id (z_disk z))) ->
  w_alive (z_w z') = true ->
  EI (z_core z) (z_disk z) (cur0 z) (AD.stream z) G ->
  EI (z_core z) (z_disk z') (cur0 z') (AD.stream z') G.
Proof.
  intros W Hcur Hfresh Hal [Hf HE Hh Hb].
  destruct W as [Es Ec Hd|r Es Hr Ec Hd|u data cb Es Ec Hn Hd|off p Es Ec Hd|id Es Ec Hd|Hdead _].
  - rewrite Es, Ec. constructor; try assumption.
    intros id Hin. destruct Hd as [Hd|(i & Hd)]; rewrite Hd in *; [now apply HE|].
    rewrite data_of_sync. apply HE. rewrite in_app_iff in *. rewrite In_ids_sync in Hin. exact Hin.
  - rewrite Es in *. rewrite Ec, Hd. clear Es.
    assert (Hp : forall id, pw (cur0 z) (XSend r :: AD.stream z') id = pw (cur0 z) (AD.stream z') id).
    { intros id. destruct r as [u [|b0 dta] cb|off p|ids]; simpl in *; try tauto.
      destruct (N.eqb (cur0 z) id); reflexivity. }
    destruct r as [u [|b0 dta] cb|off p|ids]; simpl in Hr; try tauto.
    + constructor; try assumption. intros id Hin. rewrite <- Hp. now apply HE.
    + constructor; assumption.
  - rewrite Es in *. rewrite Ec, Hd. clear Es. specialize (Hcur Hn).
    constructor; try assumption.
    intros id Hin. rewrite in_app_iff, In_ids_append, <- in_app_iff in Hin. specialize (HE id Hin).
    simpl in HE. destruct (N.eqb_spec (cur0 z) id) as [E|Hne].
    + rewrite <- E in *. rewrite data_of_append_same by exact Hcur. rewrite <- HE, <- !app_assoc. reflexivity.
    + rewrite data_of_append_other by congruence. exact HE.
  - rewrite Es in *. rewrite Ec, Hd. clear Es. simpl in *. constructor; try assumption.
    + eapply hf_anti; [exact Hh|]. intros y [->|[]]. now left.
    + rewrite Forall_forall in *. intros c Hc. apply Hb.
      eapply (seen_of_mono (AD.stream z') [off]); [|exact Hc]. intros y [->|[]]. now left.
  - rewrite Es, Ec, Hd. constructor; try assumption.
    intros i Hin. destruct (data_of_remove_dom _ _ _ _ Hfresh Hin) as [Hin' ->]. now apply HE.
  - congruence.
Qed.

Lemma stream_split z : AD.stream z = map XSend (AD.stream_batch (z_w z) ++ z_queue z) ++ z_todo z.
Proof. reflexivity. Qed.

Lemma creates_stream z : creates (AD.stream z) = creates (z_todo z).
Proof. rewrite stream_split, creates_app, creates_sends. reflexivity. Qed.

Lemma HW_dom d d' t G :
  (forall i, In i (map f_id d') -> In i (map f_id d)) ->
  (forall i, In i (map f_id d' ++ creates t) -> data_of d' i = data_of d i) ->
  HW d t G -> HW d' t G.
Proof.
  intros Hi Hd H id Hin. rewrite (Hd id Hin). apply H.
  rewrite in_app_iff in *. destruct Hin as [Hin|Hin]; [left; now apply Hi|now right].
Qed.

Lemma HW_wk z z' G : wk z z' -> z_todo z' = z_todo z ->
  (newest (z_w z) <> None -> In (cur0 z) (map f_id (z_disk z))) ->
  (forall c, In c (creates (z_todo z)) -> ~ In c (map f_id (z_disk z))) ->
  EI (z_core z) (z_disk z) (cur0 z) (AD.stream z) G ->
  HW (z_disk z) (z_todo z) G -> HW (z_disk z') (z_todo z') G.
Proof.
  intros W Ht Hcur Hfresh [Hf HE Hh Hb] H. rewrite Ht.
  destruct W as [Es Ec Hd|r Es Hr Ec Hd|u data cb Es Ec Hn Hd|off p Es Ec Hd|id Es Ec Hd|Hdead Hd];
    try (rewrite Hd; exact H).
  - destruct Hd as [Hd|(i & Hd)]; rewrite Hd; [exact H|].
    eapply HW_dom; [| |exact H].
    + intros j. now rewrite In_ids_sync.
    + intros j _. apply data_of_sync.
  - rewrite Hd. specialize (Hcur Hn). set (c0 := cur0 z) in *.
    assert (Hth : theads (z_todo z) c0 = []).
    { apply theads_notin. rewrite stream_split in Hh. apply hf_app in Hh. destruct Hh as [_ Hh].
      eapply hf_hd_ids; [exact Hh|]. apply seen_of_incl. now left. }
    intros id Hin. rewrite in_app_iff, In_ids_append, <- in_app_iff in Hin.
    destruct (N.eq_dec id c0) as [->|Hne].
    + rewrite data_of_append_same by exact Hcur. rewrite Hth, app_nil_r.
      assert (HE' := HE c0 (in_or_app _ _ _ (or_introl Hcur))).
      rewrite Es in HE'. simpl in HE'. rewrite N.eqb_refl in HE'. rewrite <- HE'.
      rewrite <- !app_assoc. rewrite (app_assoc (data_of (z_disk z) c0) data). apply bprefix_app.
    + rewrite data_of_append_other by exact Hne. now apply H.
  - rewrite Hd. intros i Hin. destruct (data_of_remove_dom _ _ _ _ Hfresh Hin) as [Hin' ->]. now apply H.
Qed.

Lemma zrecv_stream z k nf z' v : zrecv z k nf = Some (z', v) ->
  AD.stream z' = AD.stream z /\ cur0 z' = cur0 z /\ w_alive (z_w z') = w_alive (z_w z).
Proof.
  intros H. apply AF.zrecv_inv in H. destruct H as [_ [b q' Hal Eb Eq _ Hp _]].
  split; [|split; reflexivity].
  unfold AD.stream, AD.stream_batch. cbn. rewrite Eb, Eq. cbn [app]. do 3 f_equal.
  unfold AF.batch_reqs, AD.nf_list.
  destruct Hp as [[-> _]|(-> & -> & _)]; reflexivity.
Qed.

Lemma creates_create id t : creates (XCreate id :: t) = id :: creates t.
Proof. reflexivity. Qed.
Lemma creates_head id h t : creates (XWriteHead id h :: t) = creates t.
Proof. reflexivity. Qed.
Lemma creates_send r t : creates (XSend r :: t) = creates t.
Proof. reflexivity. Qed.

Lemma b_fresh z : AD.binv z -> forall c, In c (creates (z_todo z)) -> ~ In c (map f_id (z_disk z)).
Proof.
  intros B c Hc Hin. apply in_map_iff in Hin. destruct Hin as (f & E & Hf).
  pose proof (AD.b_dlt _ B f c Hf Hc). lia.
Qed.

Lemma seen_of_remove_incl a s x b : incl (seen_of s (a ++ b)) (seen_of s (a ++ x :: b)).
Proof.
  rewrite !seen_of_app. change (x :: b) with ([x] ++ b). rewrite seen_of_app.
  apply seen_of_mono, seen_of_incl.
Qed.

(* an effect [x] that is carried out leaves the stream; what it did to the disk makes up
   for what it no longer adds *)
Lemma EI_drop k d d' c0 A x B G :
  (forall off p, x <> XSend (WAppendFile off p)) ->
  (forall i, In i (map f_id d' ++ creates (A ++ B)) ->
     In i (map f_id d ++ creates (A ++ x :: B)) /\
     data_of d' i ++ pw c0 (A ++ B) i = data_of d i ++ pw c0 (A ++ x :: B) i) ->
  EI k d c0 (A ++ x :: B) G -> EI k d' c0 (A ++ B) G.
Proof.
  intros Hx Hi [Hf HE Hh Hb]. constructor.
  - now rewrite <- (fcur_drop A x B c0 Hx).
  - intros i Hin. destruct (Hi i Hin) as [Hin' E]. rewrite app_assoc, E, <- app_assoc. now apply HE.
  - eapply hf_remove_mid; eauto.
  - rewrite Forall_forall in *. intros c Hc. apply Hb. eapply seen_of_remove_incl; eauto.
Qed.

Lemma JI_work z ok z' v G : AD.full z -> JI z G -> zwork z ok = Some (z', v) -> JI z' G.
Proof.
  intros F [Gi Ti Hw He] H.
  destruct (zwork_wk _ _ _ _ H) as (Ht & Hg & Hc & _ & W).
  pose proof (AD.zwork_alive _ _ _ _ H) as Hal.
  destruct (AD.f_a _ F Hal) as [L C]. specialize (He Hal).
  pose proof (b_fresh _ (AD.f_b _ F)) as Hfr.
  constructor.
  - rewrite Ht, Hg. eapply GI_eqj; eauto.
  - rewrite Ht, Hg. exact Ti.
  - eapply HW_wk; eauto. apply cur0_on_disk, C.
  - intros Hal'. eapply EI_eqj; [exact Hc|]. eapply EI_wk; eauto.
    + apply cur0_on_disk, C.
    + intros c. rewrite creates_stream. apply Hfr.
Qed.

Lemma JI_recv z k nf z' v G : JI z G -> zrecv z k nf = Some (z', v) -> JI z' G.
Proof.
  intros [Gi Ti Hw He] H.
  destruct (AD.zrecv_frame _ _ _ _ _ H) as (Ht & Hg & Hc & Hd & _).
  destruct (zrecv_stream _ _ _ _ _ H) as (Hs & Hcu & Hal).
  constructor; rewrite ?Ht, ?Hg, ?Hc, ?Hd, ?Hs, ?Hcu, ?Hal; assumption.
Qed.

Lemma JI_eff z z' v G : AD.full z -> JI z G -> zeff z = Some (z', v) -> JI z' G.
Proof.
  intros F [Gi Ti Hw He] H. pose proof (b_fresh _ (AD.f_b _ F)) as Hfr.
  set (Q := map XSend (AD.stream_batch (z_w z) ++ z_queue z)).
  assert (Es : AD.stream z = Q ++ z_todo z) by reflexivity.
  apply AF.zeff_inv in H. destruct H as [id t Et|id h t Et|r t Et]; rewrite Et in *.
  - assert (Hnd : ~ In id (map f_id (z_disk z))) by (apply Hfr; now left).
    simpl in Ti. destruct t as [|[i'|id' h'|r'] t']; try tauto. destruct Ti as [<- Hp].
    constructor; simpl.
    + destruct Gi as [J Hi Hs Hok Hab Hch Hl Hhd]. constructor; try assumption.
      rewrite Hi, creates_create, creates_head, <- app_assoc. reflexivity.
    + split; [apply in_or_app; right; now left|]. split; [|exact Hp].
      pose proof (gi_sorted _ _ _ _ Gi) as Hs. rewrite (gi_ids _ _ _ _ Gi) in Hs.
      rewrite creates_create, creates_head in Hs. apply ss_nodup_app in Hs. tauto.
    + intros i Hin. rewrite data_of_create by exact Hnd. apply (Hw i).
      rewrite in_app_iff in *. rewrite In_ids_put in Hin. simpl in Hin. rewrite creates_create. simpl.
      intuition (subst; auto).
    + intros Hal. specialize (He Hal). rewrite Es in He.
      refine (EI_drop _ _ _ _ Q (XCreate id) _ _ _ _ He); [discriminate|]. intros i Hin. split.
      * revert Hin. rewrite !in_app_iff, In_ids_put, !creates_app, creates_create, !in_app_iff. simpl.
        intuition (subst; auto).
      * now rewrite data_of_create, pw_create.
  - (* XWriteHead: a head is the first thing written to its file *)
    simpl in Ti. destruct Ti as (Hcr & Hnc & Hp).
    assert (Hdom : forall i S, In i (map f_id (disk_append id h (z_disk z)) ++ S) ->
                               In i (map f_id (z_disk z) ++ S)).
    { intros i S. now rewrite !in_app_iff, In_ids_append. }
    constructor; simpl.
    + destruct Gi as [J Hi Hs Hok Hab Hch Hl Hhd]. constructor; try assumption.
      intros x Hx. apply Hhd. simpl. now right.
    + now apply paired_tinv.
    + intros i Hin. apply Hdom in Hin. specialize (Hw i Hin). simpl in Hw.
      destruct (N.eqb_spec id i) as [E|Hne].
      * subst i. destruct (in_dec N.eq_dec id (map f_id (z_disk z))) as [Hon|Hoff].
        { rewrite data_of_append_same by exact Hon. now rewrite <- app_assoc. }
        { exfalso. rewrite in_app_iff in Hin. tauto. }
      * rewrite data_of_append_other by congruence. exact Hw.
    + intros Hal. specialize (He Hal). rewrite Es in He. pose proof (ei_hf _ _ _ _ _ He) as Hh.
      refine (EI_drop _ _ _ _ Q (XWriteHead id h) _ _ _ _ He); [discriminate|]. intros i Hin.
      apply Hdom in Hin. split; [revert Hin; now rewrite !creates_app, creates_head|].
      destruct (N.eq_dec i id) as [->|Hne].
      * destruct (in_dec N.eq_dec id (map f_id (z_disk z))) as [Hon|Hoff].
        { rewrite data_of_append_same by exact Hon.
          rewrite (pw_head Q (cur0 z) [cur0 z] id h t (or_introl eq_refl) Hh). now rewrite <- !app_assoc. }
        { exfalso. unfold Q in Hin. rewrite creates_app, creates_sends, in_app_iff in Hin. simpl in Hin. tauto. }
      * rewrite data_of_append_other by exact Hne. now rewrite (pw_head_other Q (cur0 z) id h t i Hne).
  - constructor; simpl.
    + destruct Gi as [J Hi Hs Hok Hab Hch Hl Hhd]. constructor; assumption.
    + now apply paired_tinv.
    + exact Hw.
    + intros Hal. specialize (He Hal). rewrite Es in He.
      replace (AD.stream (set_todo (set_queue z (z_queue z ++ [r])) t)) with (Q ++ XSend r :: t); [exact He|].
      unfold AD.stream, Q. simpl. rewrite !map_app, <- !app_assoc. reflexivity.
Qed.

Definition gstep (z : sys2) (e : zev) (G : list jfile) : list jfile :=
  match e with
  | ZCall (OW w) => gfold (z_core z) (SmFacts.wrecs (z_core z) w) G
  | _ => G
  end.

Lemma gstep_other z e G : (forall w, e <> ZCall (OW w)) -> gstep z e G = G.
Proof. intros Hn. destruct e as [[w| | | | | | | |]| | | |]; try reflexivity. now elim (Hn w). Qed.

Lemma JI_frame z z' G : AF.core_step z z' -> JI z G -> JI z' G.
Proof.
  intros (Hc & Ht & Hd & Hq & Hw & _ & _ & Hg) [Gi Ti HW He].
  assert (Es : AD.stream z' = AD.stream z) by (unfold AD.stream; now rewrite Hw, Hq, Ht).
  assert (Ec : cur0 z' = cur0 z) by (unfold cur0; now rewrite Hw).
  constructor; rewrite ?Ht, ?Hd, ?Hg, ?Es, ?Ec, ?Hw; try assumption.
  - eapply GI_eqj; eauto.
  - intros Hal. eapply EI_eqj; eauto.
Qed.

Lemma JI_call z o z' v G :
  AD.full z -> JI z G -> (forall w, o = OW w -> wop_wf w) -> zcall z o = Some (z', v) ->
  JI z' (gstep z (ZCall o) G).
Proof.
  intros F J Hwf H.
  destruct (AF.zcall_kinds _ _ _ _ H) as [Et [(w & k & r & effs & -> & E & ->)|[(cb & -> & ->)|[Hs Hn]]]].
  3: { rewrite gstep_other by (intros w Ew; inversion Ew; now elim (Hn w)). now apply (JI_frame z). }
  all: destruct J as [Gi Ti Hw He]; rewrite Et in Gi, Hw;
    pose proof (AD.b_dle _ (AD.f_b _ F)) as Hd;
    assert (Es : AD.stream z = map XSend (AD.stream_batch (z_w z) ++ z_queue z))
      by (rewrite stream_split, Et; apply app_nil_r); cbn [gstep].
  - destruct (write_step _ _ _ _ _ _ _ _ Gi Hw Hd (Hwf w eq_refl) E) as (G1 & W1 & D1 & E1).
    constructor; simpl.
    + exact G1.
    + apply paired_tinv, paired_expand.
    + exact W1.
    + intros Hal. specialize (E1 _ _ (He Hal)). rewrite Es in E1. exact E1.
  - destruct (flush_step _ _ _ _ cb Gi Hw Hd) as (G1 & W1 & D1 & E1).
    constructor.
    + exact G1.
    + apply paired_tinv. apply (paired_expand (snd (do_flush (z_core z) cb))).
    + exact W1.
    + intros Hal. specialize (E1 _ _ (He Hal)). rewrite Es in E1. exact E1.
Qed.

Lemma JI_step z e z' v G :
  AD.full z -> JI z G -> (forall w, e = ZCall (OW w) -> wop_wf w) -> zstep z e = Some (z', v) ->
  JI z' (gstep z e G).
Proof.
  intros F J Hwf H. destruct e as [o| |k nf|ok|]; simpl in H.
  - eapply JI_call; eauto. intros w ->. now apply Hwf.
  - eapply JI_eff; eauto.
  - eapply JI_recv; eauto.
  - eapply JI_work; eauto.
  - apply AF.zdrop_inv in H. destruct H as (Et & _ & ->).
    destruct J as [Gi Ti Hw He]. constructor; simpl; rewrite ?Et in *; try assumption.
    intros Hal. specialize (He Hal). unfold AD.stream in *. simpl. rewrite Et in He. exact He.
Qed.

Definition G_init : list jfile := [(0, [RState rstate0])].

Lemma gbytes_init : gbytes G_init 0 = enc_record (RState rstate0).
Proof. unfold gbytes, G_init. cbn [glook fst snd]. rewrite N.eqb_refl. apply encs_one. Qed.

Lemma data_of_one x s : data_of [mkFile 0 x s] 0 = x.
Proof. unfold data_of. cbn [disk_get f_id f_data]. now rewrite N.eqb_refl. Qed.

Lemma JI_init cfg : JI (AF.zstart cfg) G_init.
Proof.
  constructor; simpl.
  - constructor.
    + exact (jinv_init cfg _ gbytes_init).
    + reflexivity.
    + repeat constructor.
    + constructor; [|constructor]. split; simpl; [constructor; [exact wf_rstate0|constructor]|].
      exists rstate0, []. reflexivity.
    + simpl. auto.
    + simpl. split; [|exact I]. exists rstate0, []. split; reflexivity.
    + exists [], [RState rstate0]. reflexivity.
    + intros x [].
  - exact I.
  - intros id [<-|[]]. cbn [theads f_id]. rewrite app_nil_r, data_of_one, gbytes_init. apply bprefix_refl.
  - intros _. unfold AD.stream, cur0, newest. cbn. constructor.
    + reflexivity.
    + intros id [<-|[]]. cbn [pw k_open AF.core0 ck_id ck_push k_pending f_id]. rewrite N.eqb_refl.
      rewrite !app_nil_r, data_of_one. symmetry. apply gbytes_init.
    + exact I.
    + cbn [seen_of]. repeat constructor. cbn. lia.
Qed.

Definition hist_wf (z : sys2) : Prop := Forall wop_wf (map fst (g_writes (z_ghost z))).

Lemma hist_wf_step z e z' v : zstep z e = Some (z', v) -> hist_wf z' ->
  hist_wf z /\ forall w, e = ZCall (OW w) -> wop_wf w.
Proof.
  unfold hist_wf. intros H Hw. destruct (AF.writes_step _ _ _ _ H) as [[E Hn]|(w & r & -> & E)]; rewrite E in Hw.
  - split; [exact Hw|]. intros w Ew. now elim (Hn w).
  - rewrite map_app, Forall_app in Hw. destruct Hw as [H1 H2]. split; [exact H1|].
    intros w0 E0. inversion E0; subst. now inversion H2.
Qed.

(* induction over reachable states, with the journal threaded along: an additional
   invariant P of (state, journal) may use [full], [JI] and the well-formedness of the
   write in progress *)
Lemma L2_journal_ind (P : sys2 -> list jfile -> Prop) cfg :
  P (AF.zstart cfg) G_init ->
  (forall z e z' v G, AD.full z -> JI z G -> hist_wf z' -> P z G ->
     zstep z e = Some (z', v) -> P z' (gstep z e G)) ->
  forall z, zreach cfg z -> hist_wf z -> exists G, JI z G /\ P z G.
Proof.
  intros H0 Hs z Hr.
  assert (H : AD.full z /\ (hist_wf z -> exists G, JI z G /\ P z G)).
  { revert z Hr. apply (AF.zreach_ind (fun z => AD.full z /\ (hist_wf z -> exists G, JI z G /\ P z G))).
    - split; [apply AD.full_init|]. intros _. exists G_init. split; [apply JI_init|exact H0].
    - intros z e z' v [F IH] Hst. split; [eapply AD.full_step; eauto|].
      intros Hw. destruct (hist_wf_step _ _ _ _ Hst Hw) as [Hw0 Hwe].
      destruct (IH Hw0) as (G & J & HP). exists (gstep z e G). split.
      + eapply JI_step; eauto.
      + eapply Hs; eauto. }
  apply H.
Qed.

Theorem L2_journal : forall cfg z, zreach cfg z -> hist_wf z -> exists G, JI z G.
Proof.
  intros cfg z Hr Hw.
  destruct (L2_journal_ind (fun _ _ => True) cfg I (fun _ _ _ _ _ _ _ _ _ _ => I) z Hr Hw) as (G & J & _).
  eauto.
Qed.

Print Assumptions L2_journal.

(* [JI] spelled out: every present file holds a PREFIX of its journal file (and synced <= written);
   while the worker is alive, present file ++ pending bytes = journal file *)
Theorem L2_journal_facts : forall cfg z, zreach cfg z -> hist_wf z ->
  exists G,
    jinv (z_core z) (chunk_ids (z_core z)) (gbytes G) /\
    Forall gfile_ok G /\ RF.Abut G /\ RS.Chain (m_rs (k_sm (z_core z))) G /\
    StronglySorted N.lt (map fst G) /\
    map fst G = g_created (z_ghost z) ++ creates (z_todo z) /\
    (forall f, In f (z_disk z) ->
       bprefix (f_data f) (gbytes G (f_id f)) /\
       (f_synced f <= N.of_nat (length (f_data f)))) /\
    (w_alive (z_w z) = true ->
       forall f, In f (z_disk z) -> logical2 z (f_id f) = gbytes G (f_id f)).
Proof.
  intros cfg z Hr Hw. destruct (L2_journal cfg z Hr Hw) as [G [Gi Ti HW He]].
  pose proof (AD.C04_ack_written cfg z Hr) as [_ Hsy].
  assert (Hsd : disk_sorted (z_disk z)) by (apply AD.b_sorted, AD.f_b; eapply AD.zreach_full; eauto).
  exists G. destruct Gi as [J Hi Hs Hok Hab Hch Hl Hhd].
  repeat (split; [assumption|]). split.
  - intros f Hf. split.
    + assert (H := HW (f_id f)). rewrite (data_of_in _ _ Hsd Hf) in H.
      eapply bprefix_trans; [apply bprefix_app|]. apply H. apply in_or_app. left. now apply in_map.
    + rewrite Forall_forall in Hsy. now apply Hsy.
  - intros Hal f Hf. destruct (He Hal) as [Hfc HE _ _].
    unfold logical2, pend. rewrite Hfc. apply HE. apply in_or_app. left. now apply in_map.
Qed.

Print Assumptions L2_journal_facts.
