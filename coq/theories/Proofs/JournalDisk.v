(* Facts about the directory model of Model/Core.v (disk_get/put/append/sync/remove on
   id-sorted file lists) and about the sequential worker seen as a function on
   (disk, worker files).  The shared toolbox of every proof file that speaks of a directory. *)
From Coq Require Import List NArith Lia Bool Sorting.Sorted.
From RaftLog Require Import Base.Bytes Model.Core.
From RaftLog Require Proofs.OrderFacts.
Import ListNotations.
Local Open Scope N_scope.

Definition ids (d : disk) : list N := map f_id d.
Definition file_bytes (d : disk) (id : N) : bytes :=
  match disk_get id d with Some f => f_data f | None => [] end.
Definition dsorted (d : disk) : Prop := StronglySorted N.lt (ids d).

Lemma ss_inv a l : StronglySorted N.lt (a :: l) -> StronglySorted N.lt l /\ Forall (N.lt a) l.
Proof. apply StronglySorted_inv. Qed.

Lemma Forall2_length {A B} (R : A -> B -> Prop) la lb : Forall2 R la lb -> length la = length lb.
Proof. induction 1; simpl; congruence. Qed.

Lemma ss_app_inv (l1 l2 : list N) : StronglySorted N.lt (l1 ++ l2) ->
  StronglySorted N.lt l1 /\ StronglySorted N.lt l2 /\
  (forall a b, In a l1 -> In b l2 -> a < b).
Proof. apply OrderFacts.SS_app_inv. Qed.

Lemma ss_app (l1 l2 : list N) : StronglySorted N.lt l1 -> StronglySorted N.lt l2 ->
  (forall a b, In a l1 -> In b l2 -> a < b) -> StronglySorted N.lt (l1 ++ l2).
Proof. apply OrderFacts.SS_app_intro. Qed.

Lemma ss_NoDup (l : list N) : StronglySorted N.lt l -> NoDup l.
Proof.
  induction l as [|a l IH]; intros H; [constructor|].
  apply ss_inv in H as [H1 H2]. constructor; [|apply IH; assumption].
  intros I. rewrite Forall_forall in H2. specialize (H2 _ I). lia.
Qed.

Lemma ss_head_le a l x : StronglySorted N.lt (a :: l) -> In x (a :: l) -> a <= x.
Proof.
  intros S [E|I]; [lia|]. apply ss_inv in S as [_ S]. rewrite Forall_forall in S. specialize (S x I). lia.
Qed.

Lemma ss_prefix (a b : list N) : StronglySorted N.lt (a ++ b) -> StronglySorted N.lt a.
Proof. intros H. apply ss_app_inv in H as (H & _ & _). exact H. Qed.

Lemma ss_suffix (a b : list N) : StronglySorted N.lt (a ++ b) -> StronglySorted N.lt b.
Proof. intros H. apply ss_app_inv in H as (_ & H & _). exact H. Qed.

Lemma ss_sub (a b c : list N) : StronglySorted N.lt (a ++ b ++ c) -> StronglySorted N.lt b.
Proof. intros H. exact (ss_prefix _ _ (ss_suffix _ _ H)). Qed.

Lemma ss_disj (a b : list N) x : StronglySorted N.lt (a ++ b) -> In x a -> In x b -> False.
Proof. intros H Ia Ib. apply ss_app_inv in H as (_ & _ & H). specialize (H _ _ Ia Ib). lia. Qed.

Lemma ss_nodup_app (A B : list N) x : StronglySorted N.lt (A ++ x :: B) -> ~ In x A /\ ~ In x B.
Proof.
  intros H. split; intros Hin.
  - exact (ss_disj _ _ x H Hin (or_introl eq_refl)).
  - apply ss_suffix, ss_inv in H as [_ H]. rewrite Forall_forall in H. specialize (H _ Hin). lia.
Qed.

Lemma ss_snoc_max l m : StronglySorted N.lt (l ++ [m]) -> Forall (fun x => x < m) l.
Proof.
  intros H. apply ss_app_inv in H as (_ & _ & H). rewrite Forall_forall. intros x Hx.
  apply H; [exact Hx|now left].
Qed.

Lemma ss_last_max (l : list N) o x : StronglySorted N.lt (l ++ [o]) -> In x (l ++ [o]) -> x <= o.
Proof.
  intros H Hin. apply ss_snoc_max in H. rewrite Forall_forall in H.
  apply in_app_or in Hin as [Hin|[<-|[]]]; [|lia]. specialize (H x Hin). lia.
Qed.

Lemma ss_glue (a b c : list N) : StronglySorted N.lt (a ++ b) -> StronglySorted N.lt (b ++ c) ->
  b <> [] -> StronglySorted N.lt (a ++ b ++ c).
Proof.
  intros H1 H2 Hb. apply ss_app_inv in H1 as (Ha & _ & Hab).
  pose proof (ss_app_inv _ _ H2) as (_ & _ & Hbc).
  apply ss_app; [exact Ha|exact H2|].
  intros x y Hx Hy. apply in_app_or in Hy as [Hy|Hy]; [apply Hab; assumption|].
  destruct b as [|b0 b]; [congruence|].
  apply N.lt_trans with b0; [apply Hab; [assumption|left; reflexivity]|].
  apply Hbc; [left; reflexivity|assumption].
Qed.

Lemma ss_extend l m c : StronglySorted N.lt (l ++ [m]) -> StronglySorted N.lt c ->
  Forall (fun x => m < x) c -> StronglySorted N.lt ((l ++ [m]) ++ c).
Proof.
  intros Hl Hc Hm. rewrite <- app_assoc. apply ss_glue; [exact Hl|now constructor|discriminate].
Qed.

Lemma disk_get_id id d f : disk_get id d = Some f -> f_id f = id.
Proof.
  induction d as [|g r IH]; simpl; [discriminate|].
  destruct (N.eqb_spec id (f_id g)) as [E|E]; intros H.
  - inversion H; subst. reflexivity.
  - apply IH; assumption.
Qed.

Lemma disk_get_In id d f : disk_get id d = Some f -> In f d.
Proof.
  induction d as [|g r IH]; simpl; [discriminate|].
  destruct (N.eqb_spec id (f_id g)) as [E|E]; intros H.
  - inversion H; subst. left; reflexivity.
  - right. apply IH; assumption.
Qed.

Lemma disk_get_None id d : disk_get id d = None <-> ~ In id (ids d).
Proof.
  induction d as [|g r IH]; simpl.
  - split; [intros _ []|reflexivity].
  - destruct (N.eqb_spec id (f_id g)) as [E|E].
    + split; [discriminate|]. intros H. exfalso. apply H. left. symmetry; assumption.
    + rewrite IH. split.
      * intros H [H1|H1]; [apply E; symmetry; assumption|apply H; assumption].
      * intros H H1. apply H. right; assumption.
Qed.

Lemma disk_get_Some_In id d : In id (ids d) -> exists f, disk_get id d = Some f.
Proof.
  intros H. destruct (disk_get id d) as [f|] eqn:E; [eauto|].
  apply disk_get_None in E. contradiction.
Qed.

Lemma In_disk_get d f : dsorted d -> In f d -> disk_get (f_id f) d = Some f.
Proof.
  unfold dsorted, ids. induction d as [|g r IH]; simpl; intros S HI; [contradiction|].
  destruct HI as [E|I].
  - subst g. rewrite N.eqb_refl. reflexivity.
  - apply ss_inv in S as [S1 S2].
    destruct (N.eqb_spec (f_id f) (f_id g)) as [E|E].
    + rewrite Forall_forall in S2. specialize (S2 (f_id f) (in_map f_id _ _ I)). lia.
    + apply IH; assumption.
Qed.

Lemma file_bytes_not_in id d : ~ In id (ids d) -> file_bytes d id = [].
Proof. intros H. apply disk_get_None in H. unfold file_bytes. rewrite H. reflexivity. Qed.

Lemma disk_get_fb j d f : disk_get j d = Some f -> file_bytes d j = f_data f.
Proof. intros H. unfold file_bytes. rewrite H. reflexivity. Qed.

Lemma disk_get_In_ids id d f : disk_get id d = Some f -> In id (ids d).
Proof.
  intros H. apply disk_get_In in H as I. apply disk_get_id in H. subst id. apply in_map, I.
Qed.

(* [dsorted] is [NoPanic.disk_sorted], which unfolds to the right-hand side, [fsorted] below *)
Lemma dsorted_iff d : dsorted d <-> StronglySorted (fun f g => f_id f < f_id g) d.
Proof.
  unfold dsorted, ids. induction d as [|f d IH]; simpl; [split; constructor|].
  split; intros H; apply StronglySorted_inv in H as [S F]; constructor; try (apply IH, S).
  - rewrite Forall_forall in *. intros g Hg. apply F, in_map, Hg.
  - rewrite Forall_forall in *. intros j Hj. apply in_map_iff in Hj as (g & <- & Hg). apply F, Hg.
Qed.

Definition fsorted (d : disk) : Prop := StronglySorted (fun f g => f_id f < f_id g) d.

Lemma fsorted_app_inv (a b : disk) : fsorted (a ++ b) ->
  fsorted a /\ fsorted b /\ forall f g, In f a -> In g b -> f_id f < f_id g.
Proof. apply OrderFacts.SS_app_inv. Qed.

Lemma fsorted_ids d d' : ids d' = ids d -> fsorted d -> fsorted d'.
Proof. unfold fsorted. intros E H. apply dsorted_iff. apply dsorted_iff in H. unfold dsorted in *. now rewrite E. Qed.

Lemma fsorted_mid a f b : fsorted (a ++ f :: b) ->
  Forall (fun g => f_id g < f_id f) a /\ Forall (fun g => f_id f < f_id g) b.
Proof. intros H. apply OrderFacts.SS_split_rel in H. now rewrite !Forall_forall. Qed.

Lemma disk_put_Forall (P : file -> Prop) f d : P f -> Forall P d -> Forall P (disk_put f d).
Proof.
  intros Hf H. induction H as [|g l Hg Hl IH]; cbn [disk_put]; [now repeat constructor|].
  destruct (N.compare (f_id f) (f_id g)); repeat (constructor; try assumption).
Qed.

Lemma disk_get_none x d : Forall (fun g => f_id g <> x) d -> disk_get x d = None.
Proof.
  intros H. apply disk_get_None. intros I. apply in_map_iff in I as (g & E & Hg).
  rewrite Forall_forall in H. exact (H g Hg E).
Qed.

Lemma disk_remove_absent id d : Forall (fun f => f_id f <> id) d -> disk_remove id d = d.
Proof.
  intros H. induction H as [|g r Hg _ IH]; simpl; [reflexivity|].
  destruct (N.eqb_spec id (f_id g)); [congruence|]. simpl. now f_equal.
Qed.

(* what the operations do to a sorted directory split at the file they address *)
Lemma disk_get_mid a f b : fsorted (a ++ f :: b) -> disk_get (f_id f) (a ++ f :: b) = Some f.
Proof. intros H. apply In_disk_get; [now apply dsorted_iff|apply in_elt]. Qed.

Lemma disk_put_mid a f f' b : f_id f' = f_id f -> fsorted (a ++ f :: b) ->
  disk_put f' (a ++ f :: b) = a ++ f' :: b.
Proof.
  intros Hid H. apply fsorted_mid in H as [H _]. rewrite <- Hid in H.
  induction H as [|g a Hg _ IH]; simpl.
  - now rewrite Hid, N.compare_refl.
  - destruct (N.compare_spec (f_id f') (f_id g)); try lia. now f_equal.
Qed.

Lemma disk_append_mid a f b data : fsorted (a ++ f :: b) ->
  disk_append (f_id f) data (a ++ f :: b) = a ++ mkFile (f_id f) (f_data f ++ data) (f_synced f) :: b.
Proof. intros H. unfold disk_append. rewrite disk_get_mid by exact H. now apply disk_put_mid. Qed.

Lemma disk_sync_mid a f b : fsorted (a ++ f :: b) ->
  disk_sync (f_id f) (a ++ f :: b) = a ++ mkFile (f_id f) (f_data f) (N.of_nat (length (f_data f))) :: b.
Proof. intros H. unfold disk_sync. rewrite disk_get_mid by exact H. now apply disk_put_mid. Qed.

Lemma disk_remove_mid a f b : fsorted (a ++ f :: b) -> disk_remove (f_id f) (a ++ f :: b) = a ++ b.
Proof.
  intros H. apply fsorted_mid in H as [Ha Hb]. unfold disk_remove. rewrite filter_app. cbn [filter].
  rewrite N.eqb_refl. cbn [negb]. fold (disk_remove (f_id f) a) (disk_remove (f_id f) b).
  rewrite !disk_remove_absent; [reflexivity| |]; (eapply Forall_impl; [|eassumption]); cbn; intros; lia.
Qed.

Lemma disk_remove_last P p : fsorted (P ++ [p]) -> disk_remove (f_id p) (P ++ [p]) = P.
Proof. intros Hs. rewrite (disk_remove_mid P p [] Hs). apply app_nil_r. Qed.

Lemma disk_remove_put f d : disk_remove (f_id f) (disk_put f d) = disk_remove (f_id f) d.
Proof.
  unfold disk_remove. induction d as [|g d IH]; cbn [disk_put filter]; [now rewrite N.eqb_refl|].
  destruct (N.compare_spec (f_id f) (f_id g)) as [E|E|E]; cbn [filter].
  - now rewrite N.eqb_refl, <- E, N.eqb_refl.
  - now rewrite N.eqb_refl.
  - now rewrite IH.
Qed.

Lemma disk_ext d1 : forall d2, dsorted d1 -> dsorted d2 ->
  (forall j, disk_get j d1 = disk_get j d2) -> d1 = d2.
Proof.
  unfold dsorted, ids.
  induction d1 as [|f r1 IH]; intros [|g r2] S1 S2 H.
  - reflexivity.
  - specialize (H (f_id g)). simpl in H. rewrite N.eqb_refl in H. discriminate.
  - specialize (H (f_id f)). simpl in H. rewrite N.eqb_refl in H. discriminate.
  - simpl in S1, S2. apply ss_inv in S1 as [S1 F1]. apply ss_inv in S2 as [S2 F2].
    rewrite Forall_forall in F1, F2.
    assert (Efg : f = g).
    { pose proof (H (f_id f)) as Hf. pose proof (H (f_id g)) as Hg. simpl in Hf, Hg.
      rewrite N.eqb_refl in Hf. rewrite N.eqb_refl in Hg.
      destruct (N.eqb_spec (f_id f) (f_id g)) as [E|E].
      - inversion Hf; reflexivity.
      - destruct (N.eqb_spec (f_id g) (f_id f)) as [E'|E']; [exfalso; auto|].
        symmetry in Hf. apply disk_get_In in Hf. apply disk_get_In in Hg.
        pose proof (F2 _ (in_map f_id _ _ Hf)). pose proof (F1 _ (in_map f_id _ _ Hg)). lia. }
    subst g. f_equal. apply IH; try assumption.
    intros j. specialize (H j). simpl in H.
    destruct (N.eqb_spec j (f_id f)) as [E|E]; [|assumption].
    subst j.
    assert (N1 : disk_get (f_id f) r1 = None).
    { apply disk_get_None. intros I. specialize (F1 _ I). lia. }
    assert (N2 : disk_get (f_id f) r2 = None).
    { apply disk_get_None. intros I. specialize (F2 _ I). lia. }
    rewrite N1, N2. reflexivity.
Qed.

Lemma disk_get_put j f d :
  disk_get j (disk_put f d) = if N.eqb j (f_id f) then Some f else disk_get j d.
Proof.
  induction d as [|g r IH]; simpl.
  - reflexivity.
  - destruct (N.compare_spec (f_id f) (f_id g)) as [E|L|G]; simpl.
    + rewrite <- E. destruct (N.eqb j (f_id f)); reflexivity.
    + reflexivity.
    + rewrite IH. destruct (N.eqb_spec j (f_id g)) as [E1|E1];
        destruct (N.eqb_spec j (f_id f)) as [E2|E2]; try reflexivity. lia.
Qed.

Lemma In_ids_get i d : In i (ids d) <-> disk_get i d <> None.
Proof. rewrite disk_get_None. destruct (in_dec N.eq_dec i (ids d)); tauto. Qed.

Lemma In_ids_put j f d : In j (ids (disk_put f d)) <-> j = f_id f \/ In j (ids d).
Proof. rewrite !In_ids_get, disk_get_put. destruct (N.eqb_spec j (f_id f)); intuition congruence. Qed.

Lemma dsorted_put f d : dsorted d -> dsorted (disk_put f d).
Proof.
  unfold dsorted. induction d as [|g r IH]; simpl; intros S.
  - repeat constructor.
  - destruct (N.compare_spec (f_id f) (f_id g)) as [E|L|G]; simpl.
    + unfold ids in *. simpl in *. rewrite E. assumption.
    + unfold ids in *. simpl in *. constructor; [assumption|].
      apply ss_inv in S as [S1 S2]. constructor; [assumption|].
      eapply Forall_impl; [|exact S2]. simpl. intros; lia.
    + unfold ids in S. simpl in S. apply ss_inv in S as [S1 S2].
      change (StronglySorted N.lt (f_id g :: ids (disk_put f r))).
      constructor; [apply IH; assumption|].
      rewrite Forall_forall in *. intros x Ix. apply In_ids_put in Ix as [Ix|Ix].
      * subst x. assumption.
      * apply S2. assumption.
Qed.

Lemma disk_put_last f d : Forall (fun j => j < f_id f) (ids d) -> disk_put f d = d ++ [f].
Proof.
  unfold ids. induction d as [|g r IH]; simpl; intros H; [reflexivity|].
  inversion H as [|? ? H1 H2]; subst.
  destruct (N.compare_spec (f_id f) (f_id g)) as [E|L|G]; try lia.
  rewrite IH by assumption. reflexivity.
Qed.

Lemma disk_put_end f d : Forall (fun g => f_id g < f_id f) d -> disk_put f d = d ++ [f].
Proof. intros H. apply disk_put_last. now apply Forall_map. Qed.

Lemma disk_put_put f f' d : f_id f' = f_id f -> disk_put f' (disk_put f d) = disk_put f' d.
Proof.
  intros E. induction d as [|g d IH]; cbn [disk_put].
  - rewrite E, N.compare_refl. reflexivity.
  - destruct (N.compare_spec (f_id f) (f_id g)) as [E1|L|G]; cbn [disk_put]; rewrite E.
    + rewrite N.compare_refl, E1, N.compare_refl. reflexivity.
    + rewrite N.compare_refl. destruct (N.compare_spec (f_id f) (f_id g)); try lia. reflexivity.
    + destruct (N.compare_spec (f_id f) (f_id g)); try lia. rewrite IH. reflexivity.
Qed.

Lemma ids_put_existing g d : dsorted d -> In (f_id g) (ids d) -> ids (disk_put g d) = ids d.
Proof.
  unfold dsorted, ids. induction d as [|h r IH]; simpl; intros S I; [contradiction|].
  apply ss_inv in S as [S1 S2].
  destruct (N.compare_spec (f_id g) (f_id h)) as [E|L|G]; simpl.
  - rewrite E. reflexivity.
  - exfalso. destruct I as [I|I]; [lia|]. rewrite Forall_forall in S2. specialize (S2 _ I). lia.
  - f_equal. apply IH; [assumption|]. destruct I as [I|I]; [lia|assumption].
Qed.

Lemma fb_put f d j :
  file_bytes (disk_put f d) j = if N.eqb j (f_id f) then f_data f else file_bytes d j.
Proof. unfold file_bytes. rewrite disk_get_put. destruct (N.eqb j (f_id f)); reflexivity. Qed.

Lemma disk_get_append j i x d :
  disk_get j (disk_append i x d) =
  match disk_get i d with
  | Some g => if N.eqb j i then Some (mkFile i (f_data g ++ x) (f_synced g)) else disk_get j d
  | None => disk_get j d
  end.
Proof.
  unfold disk_append. destruct (disk_get i d) as [g|] eqn:E; [|reflexivity].
  rewrite disk_get_put. reflexivity.
Qed.

Lemma disk_get_sync j i d :
  disk_get j (disk_sync i d) =
  match disk_get i d with
  | Some g => if N.eqb j i then Some (mkFile i (f_data g) (N.of_nat (length (f_data g))))
              else disk_get j d
  | None => disk_get j d
  end.
Proof.
  unfold disk_sync. destruct (disk_get i d) as [g|] eqn:E; [|reflexivity].
  rewrite disk_get_put. reflexivity.
Qed.

Lemma ids_update i f x n d : dsorted d -> disk_get i d = Some f ->
  ids (disk_put (mkFile i x n) d) = ids d.
Proof. intros S E. apply ids_put_existing; [assumption|]. apply (disk_get_In_ids _ _ _ E). Qed.

Lemma ids_append i x d : dsorted d -> ids (disk_append i x d) = ids d.
Proof.
  intros S. unfold disk_append. destruct (disk_get i d) eqn:E; [|reflexivity].
  apply (ids_update _ _ _ _ _ S E).
Qed.

Lemma ids_sync i d : dsorted d -> ids (disk_sync i d) = ids d.
Proof.
  intros S. unfold disk_sync. destruct (disk_get i d) eqn:E; [|reflexivity].
  apply (ids_update _ _ _ _ _ S E).
Qed.

Lemma dsorted_append i x d : dsorted d -> dsorted (disk_append i x d).
Proof. intros S. unfold dsorted. rewrite ids_append; assumption. Qed.
Lemma dsorted_sync i d : dsorted d -> dsorted (disk_sync i d).
Proof. intros S. unfold dsorted. rewrite ids_sync; assumption. Qed.

Lemma fb_append_same i x d : In i (ids d) -> file_bytes (disk_append i x d) i = file_bytes d i ++ x.
Proof.
  intros I. apply disk_get_Some_In in I as [g E]. unfold file_bytes.
  rewrite disk_get_append, E, N.eqb_refl. reflexivity.
Qed.

Lemma fb_append_other i x d j : j <> i -> file_bytes (disk_append i x d) j = file_bytes d j.
Proof.
  intros Hne. unfold file_bytes. rewrite disk_get_append.
  destruct (disk_get i d); [|reflexivity].
  destruct (N.eqb_spec j i); [contradiction|reflexivity].
Qed.

Lemma fb_sync i d j : file_bytes (disk_sync i d) j = file_bytes d j.
Proof.
  unfold file_bytes. rewrite disk_get_sync.
  destruct (disk_get i d) as [g|] eqn:E; [|reflexivity].
  destruct (N.eqb_spec j i) as [E1|E1]; [|reflexivity].
  subst j. rewrite E. reflexivity.
Qed.

Lemma disk_append_nil i d : dsorted d -> disk_append i [] d = d.
Proof.
  intros S. apply disk_ext; [apply dsorted_append; assumption|assumption|].
  intros j. rewrite disk_get_append. destruct (disk_get i d) as [g|] eqn:E; [|reflexivity].
  destruct (N.eqb_spec j i) as [E1|E1]; [|reflexivity].
  subst j. rewrite E, app_nil_r. apply disk_get_id in E. subst i. destruct g; reflexivity.
Qed.

Lemma disk_append_app i a b d : disk_append i (a ++ b) d = disk_append i b (disk_append i a d).
Proof.
  unfold disk_append at 1 3. destruct (disk_get i d) as [g|] eqn:E; [|unfold disk_append; rewrite E; reflexivity].
  unfold disk_append. rewrite disk_get_put. cbn [f_id f_data f_synced]. rewrite N.eqb_refl, disk_put_put, app_assoc; reflexivity.
Qed.

Lemma disk_get_remove j i d :
  disk_get j (disk_remove i d) = if N.eqb j i then None else disk_get j d.
Proof.
  unfold disk_remove. induction d as [|g r IH]; simpl.
  - destruct (N.eqb j i); reflexivity.
  - destruct (N.eqb_spec i (f_id g)) as [E|E]; simpl.
    + rewrite IH. destruct (N.eqb_spec j i) as [E1|E1]; [reflexivity|].
      destruct (N.eqb_spec j (f_id g)) as [E2|E2]; [lia|reflexivity].
    + rewrite IH. destruct (N.eqb_spec j (f_id g)) as [E2|E2]; [|reflexivity].
      destruct (N.eqb_spec j i) as [E1|E1]; [lia|reflexivity].
Qed.

Lemma ids_remove i d : ids (disk_remove i d) = filter (fun j => negb (N.eqb i j)) (ids d).
Proof.
  unfold ids, disk_remove. induction d as [|g r IH]; simpl; [reflexivity|].
  destruct (N.eqb i (f_id g)); simpl; rewrite IH; reflexivity.
Qed.

Lemma dsorted_remove i d : dsorted d -> dsorted (disk_remove i d).
Proof. intros S. unfold dsorted. rewrite ids_remove. apply OrderFacts.SS_filter. assumption. Qed.

Lemma fb_remove i d j : file_bytes (disk_remove i d) j = if N.eqb j i then [] else file_bytes d j.
Proof. unfold file_bytes. rewrite disk_get_remove. destruct (N.eqb j i); reflexivity. Qed.

Lemma ids_remove_head i d l : ids d = i :: l -> StronglySorted N.lt (i :: l) ->
  ids (disk_remove i d) = l.
Proof.
  intros E S. destruct d as [|f r]; [discriminate|]. injection E as <- <-.
  exact (f_equal ids (disk_remove_mid [] f r (proj1 (dsorted_iff (f :: r)) S))).
Qed.

Lemma In_ids_append i id data d : In i (ids (disk_append id data d)) <-> In i (ids d).
Proof.
  unfold disk_append. destruct (disk_get id d) as [f|] eqn:E; [|reflexivity].
  rewrite In_ids_put. cbn [f_id]. split; [|tauto]. intros [->|H]; [|exact H]. exact (disk_get_In_ids _ _ _ E).
Qed.

Lemma In_ids_sync i id d : In i (ids (disk_sync id d)) <-> In i (ids d).
Proof.
  unfold disk_sync. destruct (disk_get id d) as [f|] eqn:E; [|reflexivity].
  rewrite In_ids_put. cbn [f_id]. split; [|tauto]. intros [->|H]; [|exact H]. exact (disk_get_In_ids _ _ _ E).
Qed.

Lemma In_ids_remove i id d : In i (ids (disk_remove id d)) <-> i <> id /\ In i (ids d).
Proof. rewrite ids_remove, filter_In, negb_true_iff, N.eqb_neq. intuition congruence. Qed.

Definition remove_all (rm : list N) (d : disk) : disk := fold_left (fun d i => disk_remove i d) rm d.

Lemma dsorted_remove_all rm : forall d, dsorted d -> dsorted (remove_all rm d).
Proof.
  unfold remove_all. induction rm as [|i rm IH]; simpl; intros d S; [assumption|].
  apply IH. apply dsorted_remove. assumption.
Qed.

Definition mem (i : N) (l : list N) : bool := existsb (N.eqb i) l.
Lemma mem_In i l : mem i l = true <-> In i l.
Proof.
  unfold mem. rewrite existsb_exists. split.
  - intros [x [Hx E]]. apply N.eqb_eq in E. subst x. assumption.
  - intros H. exists i. split; [assumption|apply N.eqb_refl].
Qed.

Lemma ids_remove_all rm : forall d,
  ids (remove_all rm d) = filter (fun j => negb (mem j rm)) (ids d).
Proof.
  unfold remove_all. induction rm as [|i rm IH]; simpl; intros d.
  - induction (ids d) as [|a l IHl]; simpl; [reflexivity|]. rewrite <- IHl. reflexivity.
  - rewrite IH, ids_remove. generalize (ids d) as l. intros l.
    induction l as [|a l IHl]; simpl; [reflexivity|].
    rewrite (N.eqb_sym a i). destruct (N.eqb i a); simpl; rewrite IHl; reflexivity.
Qed.

Lemma fb_remove_all rm : forall d j,
  file_bytes (remove_all rm d) j = if mem j rm then [] else file_bytes d j.
Proof.
  unfold remove_all. induction rm as [|i rm IH]; simpl; intros d j; [reflexivity|].
  rewrite IH, fb_remove. unfold mem. destruct (N.eqb j i); simpl;
    destruct (existsb (N.eqb j) rm); reflexivity.
Qed.

Lemma put_append_comm f i x d : dsorted d -> i <> f_id f ->
  disk_append i x (disk_put f d) = disk_put f (disk_append i x d).
Proof.
  intros S Hne. apply disk_ext.
  - apply dsorted_append, dsorted_put; assumption.
  - apply dsorted_put, dsorted_append; assumption.
  - intros j. rewrite disk_get_append, !disk_get_put, disk_get_append.
    destruct (N.eqb_spec i (f_id f)) as [E|_]; [contradiction|].
    destruct (disk_get i d) as [g|]; [|reflexivity].
    destruct (N.eqb_spec j i) as [E1|E1]; [|reflexivity].
    destruct (N.eqb_spec j (f_id f)) as [E2|E2]; [lia|reflexivity].
Qed.

Lemma put_sync_comm f i d : dsorted d -> i <> f_id f ->
  disk_sync i (disk_put f d) = disk_put f (disk_sync i d).
Proof.
  intros S Hne. apply disk_ext.
  - apply dsorted_sync, dsorted_put; assumption.
  - apply dsorted_put, dsorted_sync; assumption.
  - intros j. rewrite disk_get_sync, !disk_get_put, disk_get_sync.
    destruct (N.eqb_spec i (f_id f)) as [E|_]; [contradiction|].
    destruct (disk_get i d) as [g|]; [|reflexivity].
    destruct (N.eqb_spec j i) as [E1|E1]; [|reflexivity].
    destruct (N.eqb_spec j (f_id f)) as [E2|E2]; [lia|reflexivity].
Qed.

Lemma put_remove_comm f i d : dsorted d -> i <> f_id f ->
  disk_remove i (disk_put f d) = disk_put f (disk_remove i d).
Proof.
  intros S Hne. apply disk_ext.
  - apply dsorted_remove, dsorted_put; assumption.
  - apply dsorted_put, dsorted_remove; assumption.
  - intros j. rewrite disk_get_remove, !disk_get_put, disk_get_remove.
    destruct (N.eqb_spec j i) as [E1|E1]; [|reflexivity].
    destruct (N.eqb_spec j (f_id f)) as [E2|E2]; [lia|reflexivity].
Qed.

Definition sync_all (l : list wfile) (d : disk) : disk :=
  fold_left (fun d f => disk_sync (wf_id f) d) l d.

Lemma dsorted_sync_all l : forall d, dsorted d -> dsorted (sync_all l d).
Proof.
  unfold sync_all. induction l as [|g l IH]; simpl; intros d S; [assumption|].
  apply IH, dsorted_sync, S.
Qed.

Lemma ids_sync_all l : forall d, dsorted d -> ids (sync_all l d) = ids d.
Proof.
  unfold sync_all. induction l as [|g l IH]; simpl; intros d S; [reflexivity|].
  rewrite IH by (apply dsorted_sync; assumption). apply ids_sync; assumption.
Qed.

Lemma fb_sync_all l : forall d j, file_bytes (sync_all l d) j = file_bytes d j.
Proof.
  unfold sync_all. induction l as [|g l IH]; simpl; intros d j; [reflexivity|].
  rewrite IH. apply fb_sync.
Qed.

Lemma put_sync_all_comm f l : forall d, dsorted d -> ~ In (f_id f) (map wf_id l) ->
  sync_all l (disk_put f d) = disk_put f (sync_all l d).
Proof.
  unfold sync_all. induction l as [|g l IH]; simpl; intros d S H; [reflexivity|].
  rewrite put_sync_comm by (try assumption; intros E; apply H; left; assumption).
  apply IH; [apply dsorted_sync; assumption|]. intros I. apply H. right; assumption.
Qed.

Lemma put_remove_all_comm f rm : forall d, dsorted d -> ~ In (f_id f) rm ->
  remove_all rm (disk_put f d) = disk_put f (remove_all rm d).
Proof.
  unfold remove_all. induction rm as [|i rm IH]; simpl; intros d S H; [reflexivity|].
  rewrite put_remove_comm by (try assumption; intros E; apply H; left; assumption).
  apply IH; [apply dsorted_remove; assumption|]. intros I. apply H. right; assumption.
Qed.

(* ------------------------------------------------------------------ the worker on (disk, files) *)
Definition wstate := (disk * list wfile)%type.

Definition wstep (s : wstate) (r : wreq) : wstate :=
  match r with
  | WWrite _ data _ =>
    match rev (snd s) with
    | [] => s
    | newest :: older =>
      (disk_sync (wf_id newest) (sync_all (rev older) (disk_append (wf_id newest) data (fst s))),
       [newest])
    end
  | WAppendFile off prev => (fst s, snd s ++ [mkWF off prev])
  | WRemove rm => (remove_all rm (fst s), snd s)
  end.

Definition wproj (y : sys) : wstate := (y_disk y, y_files y).
Definition wrun (q : list wreq) (s : wstate) : wstate := fold_left wstep q s.
Definition wfinal (y : sys) : wstate := wrun (y_queue y) (wproj y).

Lemma worker_step_proj y r : wproj (worker_step y r) = wstep (wproj y) r.
Proof.
  unfold wproj. destruct r as [u data cb|off prev|rm]; simpl.
  - destruct (rev (y_files y)) as [|nw older]; reflexivity.
  - reflexivity.
  - reflexivity.
Qed.

Lemma fold_worker_step_proj q : forall y, wproj (fold_left worker_step q y) = wrun q (wproj y).
Proof.
  unfold wrun. induction q as [|r q IH]; intros y; simpl; [reflexivity|].
  rewrite IH, worker_step_proj. reflexivity.
Qed.

Lemma worker_idle_proj y : wproj (worker_idle y) = wfinal y.
Proof. unfold worker_idle, wfinal. rewrite fold_worker_step_proj. reflexivity. Qed.

Lemma worker_idle_disk y : y_disk (worker_idle y) = fst (wfinal y).
Proof. rewrite <- worker_idle_proj. reflexivity. Qed.
Lemma worker_idle_files y : y_files (worker_idle y) = snd (wfinal y).
Proof. rewrite <- worker_idle_proj. reflexivity. Qed.

Lemma fold_worker_step_queue q : forall y, y_queue (fold_left worker_step q y) = y_queue y.
Proof.
  induction q as [|r q IH]; intros y; simpl; [reflexivity|]. rewrite IH.
  destruct r as [u data cb|off prev|rm]; simpl; try reflexivity.
  destruct (rev (y_files y)); reflexivity.
Qed.

Lemma worker_idle_queue y : y_queue (worker_idle y) = [].
Proof. unfold worker_idle. rewrite fold_worker_step_queue. reflexivity. Qed.

(* the parts of the caller state that the worker never touches *)
Definition core_eqj (k k' : core) : Prop :=
  k_cfg k' = k_cfg k /\ k_open k' = k_open k /\ k_pending k' = k_pending k /\
  k_closed k' = k_closed k /\ k_removed k' = k_removed k /\
  m_rs (k_sm k') = m_rs (k_sm k) /\ m_log (k_sm k') = m_log (k_sm k).

Lemma core_eqj_refl k : core_eqj k k.
Proof. repeat split. Qed.
Lemma core_eqj_trans k1 k2 k3 : core_eqj k1 k2 -> core_eqj k2 k3 -> core_eqj k1 k3.
Proof.
  unfold core_eqj. intros (a1&a2&a3&a4&a5&a6&a7) (b1&b2&b3&b4&b5&b6&b7).
  repeat split; congruence.
Qed.
Lemma core_eqj_cache k c : core_eqj k (core_with_cache k c).
Proof. repeat split. Qed.

Lemma worker_step_core y r : core_eqj (y_core y) (y_core (worker_step y r)).
Proof.
  destruct r as [u data cb|off prev|rm]; simpl; try apply core_eqj_refl.
  destruct (rev (y_files y)); simpl; [apply core_eqj_refl|apply core_eqj_cache].
Qed.

Lemma fold_worker_step_core q : forall y, core_eqj (y_core y) (y_core (fold_left worker_step q y)).
Proof.
  induction q as [|r q IH]; intros y; simpl; [apply core_eqj_refl|].
  eapply core_eqj_trans; [apply worker_step_core|apply IH].
Qed.

Lemma worker_idle_core y : core_eqj (y_core y) (y_core (worker_idle y)).
Proof.
  unfold worker_idle.
  apply (fold_worker_step_core (y_queue y) (mkSys (y_core y) (y_disk y) [] (y_files y) (y_acks y))).
Qed.

Lemma wstep_sorted s r : dsorted (fst s) -> dsorted (fst (wstep s r)).
Proof.
  intros S. destruct r as [u data cb|off prev|rm]; simpl.
  - destruct (rev (snd s)) as [|nw older]; [assumption|]. simpl.
    apply dsorted_sync, dsorted_sync_all, dsorted_append, S.
  - assumption.
  - apply dsorted_remove_all, S.
Qed.

Lemma wrun_sorted q : forall s, dsorted (fst s) -> dsorted (fst (wrun q s)).
Proof.
  unfold wrun. induction q as [|r q IH]; intros s S; simpl; [assumption|].
  apply IH, wstep_sorted, S.
Qed.

Definition req_ids (r : wreq) : list N :=
  match r with WWrite _ _ _ => [] | WAppendFile off _ => [off] | WRemove rm => rm end.
Definition mentioned (fs : list wfile) (q : list wreq) : list N :=
  map wf_id fs ++ flat_map req_ids q.

Lemma wstep_files_ids s r j :
  In j (map wf_id (snd (wstep s r))) -> In j (map wf_id (snd s)) \/ In j (req_ids r).
Proof.
  destruct r as [u data cb|off prev|rm]; simpl.
  - destruct (rev (snd s)) as [|nw older] eqn:E; [auto|]. simpl.
    intros [H|[]]. left. subst j. apply in_map. apply in_rev. rewrite E. left; reflexivity.
  - rewrite map_app, in_app_iff. simpl. tauto.
  - auto.
Qed.

(* a file created by the caller with an id that the worker does not mention can be
   moved past the whole queue *)
Lemma wstep_put_comm f d fs r : dsorted d ->
  ~ In (f_id f) (map wf_id fs ++ req_ids r) ->
  wstep (disk_put f d, fs) r = (disk_put f (fst (wstep (d, fs) r)), snd (wstep (d, fs) r)).
Proof.
  intros S H. rewrite in_app_iff in H.
  destruct r as [u data cb|off prev|rm]; simpl.
  - destruct (rev fs) as [|nw older] eqn:E; [reflexivity|]. simpl. f_equal.
    assert (Inw : In nw fs) by (apply in_rev; rewrite E; left; reflexivity).
    assert (Hnw : wf_id nw <> f_id f).
    { intros E1. apply H. left. rewrite <- E1. apply in_map. assumption. }
    rewrite put_append_comm by assumption.
    rewrite put_sync_all_comm.
    + rewrite put_sync_comm; [reflexivity| |assumption].
      apply dsorted_sync_all, dsorted_append, S.
    + apply dsorted_append, S.
    + intros I. apply H. left. apply in_map_iff in I as [g [Eg Ig]]. rewrite <- Eg.
      apply in_map. apply in_rev. rewrite E. right. apply in_rev. assumption.
  - reflexivity.
  - f_equal. apply put_remove_all_comm; [assumption|]. intros I. apply H. right. assumption.
Qed.

Lemma wrun_put_comm f q : forall d fs, dsorted d ->
  ~ In (f_id f) (mentioned fs q) ->
  wrun q (disk_put f d, fs) = (disk_put f (fst (wrun q (d, fs))), snd (wrun q (d, fs))).
Proof.
  unfold wrun, mentioned. induction q as [|r q IH]; intros d fs S H; simpl; [reflexivity|].
  simpl in H. rewrite !in_app_iff in H.
  rewrite wstep_put_comm; [|assumption|rewrite in_app_iff; tauto].
  destruct (wstep (d, fs) r) as [d1 fs1] eqn:E. simpl.
  apply IH.
  - change d1 with (fst (d1, fs1)). rewrite <- E. apply wstep_sorted. assumption.
  - rewrite in_app_iff. intros [I|I]; [|tauto].
    change fs1 with (snd (d1, fs1)) in I. rewrite <- E in I.
    apply wstep_files_ids in I. simpl in I. tauto.
Qed.

(* a file that is there after a request was there before, and has grown at most at its end; it
   has grown only if it is the newest file of the worker *)
Lemma wstep_back s r j : dsorted (fst s) -> In j (ids (fst (wstep s r))) ->
  In j (ids (fst s)) /\ exists tl, file_bytes (fst (wstep s r)) j = file_bytes (fst s) j ++ tl /\
    (tl = [] \/ exists nw, hd_error (rev (snd s)) = Some nw /\ wf_id nw = j).
Proof.
  intros S I. destruct r as [u data cb|off prev|rm]; simpl in *.
  - destruct (rev (snd s)) as [|nw older]; [split; [exact I|exists []; rewrite app_nil_r; auto]|].
    simpl in *. rewrite ids_sync in I by (apply dsorted_sync_all, dsorted_append, S).
    rewrite ids_sync_all in I by (apply dsorted_append, S). rewrite ids_append in I by assumption.
    split; [exact I|]. rewrite fb_sync, fb_sync_all.
    destruct (N.eq_dec j (wf_id nw)) as [E|E].
    + subst j. exists data. split; [apply fb_append_same, I|right; exists nw; auto].
    + exists []. rewrite app_nil_r. split; [apply fb_append_other, E|auto].
  - split; [exact I|]. exists []. rewrite app_nil_r. auto.
  - rewrite ids_remove_all in I. apply filter_In in I as [I E]. split; [exact I|].
    rewrite fb_remove_all. destruct (mem j rm); [discriminate E|].
    exists []. rewrite app_nil_r. auto.
Qed.

(* the newest file after a request is the one before, or the file the request adds *)
Lemma wstep_newest s r nw : hd_error (rev (snd (wstep s r))) = Some nw ->
  hd_error (rev (snd s)) = Some nw \/ exists prev, r = WAppendFile (wf_id nw) prev.
Proof.
  destruct r as [u data cb|off prev|rm]; simpl; auto.
  - destruct (rev (snd s)) as [|f older] eqn:E; simpl; rewrite ?E; auto.
  - rewrite rev_unit. simpl. intros E. injection E as <-. right. exists prev. reflexivity.
Qed.

Lemma wrun_back q : forall s j, dsorted (fst s) -> In j (ids (fst (wrun q s))) ->
  In j (ids (fst s)) /\ exists tl, file_bytes (fst (wrun q s)) j = file_bytes (fst s) j ++ tl /\
    (tl = [] \/ (exists nw, hd_error (rev (snd s)) = Some nw /\ wf_id nw = j) \/
     exists prev, In (WAppendFile j prev) q).
Proof.
  unfold wrun. induction q as [|r q IH]; intros s j S I; simpl in *.
  - split; [exact I|]. exists []. rewrite app_nil_r. auto.
  - destruct (IH _ j (wstep_sorted _ r S) I) as (I1 & t2 & E2 & H2).
    destruct (wstep_back s r j S I1) as (I0 & t1 & E1 & H1).
    split; [exact I0|]. exists (t1 ++ t2). split; [rewrite E2, E1, app_assoc; reflexivity|].
    destruct H1 as [->|H1]; [|right; left; exact H1].
    destruct H2 as [->|[(nw & Hn & <-)|(prev & Hq)]]; [left; reflexivity|right..].
    + destruct (wstep_newest _ _ _ Hn) as [Hn0|(prev & ->)]; [left; exists nw; auto|right; exists prev; left; reflexivity].
    + right. exists prev. right. exact Hq.
Qed.

(* ------------------------------------------------------------------ worker states up to sync marks *)
(* [journal_wf] and [logical] of JournalFacts.v read the worker's final state only through the ids, the
   bytes of each file and the newest tracked file: [weq].  Up to [weq] a write request is [disk_append]
   to the newest file. *)
Definition newest_of (fs : list wfile) : option wfile := hd_error (rev fs).

Record weq (s s' : wstate) : Prop := mkWeq {
  we_s1 : dsorted (fst s);
  we_s2 : dsorted (fst s');
  we_ids : ids (fst s) = ids (fst s');
  we_fb : forall j, file_bytes (fst s) j = file_bytes (fst s') j;
  we_nw : newest_of (snd s) = newest_of (snd s') }.

Lemma weq_refl : forall s, dsorted (fst s) -> weq s s.
Proof. intros s S. constructor; auto. Qed.

Lemma weq_sym : forall s s', weq s s' -> weq s' s.
Proof. intros s s' [H1 H2 H3 H4 H5]. constructor; auto. Qed.

Lemma weq_trans : forall s1 s2 s3, weq s1 s2 -> weq s2 s3 -> weq s1 s3.
Proof.
  intros s1 s2 s3 [A1 A2 A3 A4 A5] [B1 B2 B3 B4 B5]. constructor; auto.
  - congruence.
  - intros j. rewrite A4. apply B4.
  - congruence.
Qed.

Lemma fb_append_gen : forall i x d j,
  file_bytes (disk_append i x d) j =
  if N.eqb j i && mem i (ids d) then file_bytes d i ++ x else file_bytes d j.
Proof.
  intros i x d j. destruct (mem i (ids d)) eqn:Em.
  - apply mem_In in Em. destruct (N.eqb_spec j i) as [E|E]; cbn [andb].
    + subst j. apply fb_append_same. exact Em.
    + apply fb_append_other. exact E.
  - rewrite andb_false_r.
    assert (Hn : ~ In i (ids d)) by (intros H; apply mem_In in H; congruence).
    apply disk_get_None in Hn. unfold disk_append. rewrite Hn. reflexivity.
Qed.

Lemma newest_of_cases : forall fs, newest_of fs = None /\ rev fs = [] \/
  exists nw older, newest_of fs = Some nw /\ rev fs = nw :: older.
Proof.
  intros fs. unfold newest_of. destruct (rev fs) as [|nw older]; [left; split; reflexivity|].
  right. exists nw, older. split; reflexivity.
Qed.

Lemma newest_of_snoc : forall fs f, newest_of (fs ++ [f]) = Some f.
Proof. intros fs f. unfold newest_of. rewrite rev_app_distr. reflexivity. Qed.

Lemma newest_of_last : forall fs f, newest_of fs = Some f -> exists older, fs = older ++ [f].
Proof.
  intros fs f H. unfold newest_of in H. destruct (rev fs) as [|x r] eqn:E; [discriminate|].
  cbn [hd_error] in H. inversion H. subst x. exists (rev r).
  rewrite <- (rev_involutive fs), E. reflexivity.
Qed.

Lemma wstep_weq : forall s s' r, weq s s' -> weq (wstep s r) (wstep s' r).
Proof.
  intros [d fs] [d' fs'] r [S1 S2 Hi Hf Hn]. cbn [fst snd] in *.
  destruct r as [u data cb|off prev|rm]; cbn [wstep fst snd].
  - destruct (newest_of_cases fs) as [[N1 R1]|(nw & older & N1 & R1)];
      destruct (newest_of_cases fs') as [[N2 R2]|(nw' & older' & N2 & R2)];
      rewrite N1, N2 in Hn; try discriminate Hn; rewrite R1, R2.
    + constructor; cbn [fst snd]; try assumption. rewrite N1, N2. reflexivity.
    + inversion Hn. subst nw'.
      assert (A1 : dsorted (disk_append (wf_id nw) data d)) by (apply dsorted_append; exact S1).
      assert (A2 : dsorted (disk_append (wf_id nw) data d')) by (apply dsorted_append; exact S2).
      assert (B1 : dsorted (sync_all (rev older) (disk_append (wf_id nw) data d)))
        by (apply dsorted_sync_all; exact A1).
      assert (B2 : dsorted (sync_all (rev older') (disk_append (wf_id nw) data d')))
        by (apply dsorted_sync_all; exact A2).
      constructor; cbn [fst snd].
      * apply dsorted_sync. exact B1.
      * apply dsorted_sync. exact B2.
      * rewrite !ids_sync, !ids_sync_all, !ids_append by assumption. exact Hi.
      * intros j. rewrite !fb_sync, !fb_sync_all, !fb_append_gen by assumption.
        rewrite Hi, !Hf. reflexivity.
      * reflexivity.
  - constructor; cbn [fst snd]; try assumption. rewrite !newest_of_snoc. reflexivity.
  - constructor; cbn [fst snd].
    + apply dsorted_remove_all. exact S1.
    + apply dsorted_remove_all. exact S2.
    + rewrite !ids_remove_all, Hi. reflexivity.
    + intros j. rewrite !fb_remove_all, Hf. reflexivity.
    + exact Hn.
Qed.

Lemma wrun_weq : forall q s s', weq s s' -> weq (wrun q s) (wrun q s').
Proof.
  unfold wrun. intros q. induction q as [|r q IH]; intros s s' H; cbn [fold_left]; [exact H|].
  apply IH. apply wstep_weq. exact H.
Qed.

Lemma wrun_app : forall q1 q2 s, wrun (q1 ++ q2) s = wrun q2 (wrun q1 s).
Proof. intros q1 q2 s. unfold wrun. apply fold_left_app. Qed.

Lemma weq_write : forall d fs u data cb, dsorted d ->
  weq (wstep (d, fs) (WWrite u data cb))
      (match newest_of fs with Some nw => disk_append (wf_id nw) data d | None => d end, fs).
Proof.
  intros d fs u data cb S. cbn [wstep fst snd].
  destruct (newest_of_cases fs) as [[N1 R1]|(nw & older & N1 & R1)]; rewrite N1, R1.
  - apply weq_refl. exact S.
  - assert (A1 : dsorted (disk_append (wf_id nw) data d)) by (apply dsorted_append; exact S).
    assert (B1 : dsorted (sync_all (rev older) (disk_append (wf_id nw) data d)))
      by (apply dsorted_sync_all; exact A1).
    constructor; cbn [fst snd].
    + apply dsorted_sync. exact B1.
    + exact A1.
    + rewrite ids_sync, ids_sync_all by assumption. reflexivity.
    + intros j. rewrite fb_sync, fb_sync_all. reflexivity.
    + rewrite N1. reflexivity.
Qed.

Lemma weq_write_nil : forall d fs u cb, dsorted d -> weq (d, fs) (wstep (d, fs) (WWrite u [] cb)).
Proof.
  intros d fs u cb S. apply weq_sym. eapply weq_trans; [apply weq_write; exact S|].
  destruct (newest_of fs) as [nw|]; [|apply weq_refl; exact S].
  rewrite disk_append_nil by exact S. apply weq_refl. exact S.
Qed.

Lemma weq_write_newest : forall d fs f u data cb, dsorted d -> newest_of fs = Some f ->
  weq (disk_append (wf_id f) data d, fs) (wstep (d, fs) (WWrite u data cb)).
Proof.
  intros d fs f u data cb S Hn. apply weq_sym. pose proof (weq_write d fs u data cb S) as W.
  rewrite Hn in W. exact W.
Qed.

Lemma newest_of_cons : forall f g r, newest_of (f :: g :: r) = newest_of (g :: r).
Proof.
  intros f g r. unfold newest_of. cbn [rev]. destruct (rev r ++ [g]) as [|x l] eqn:E.
  - destruct (rev r); discriminate E.
  - reflexivity.
Qed.

Lemma weq_sync : forall D i fs fs', dsorted D -> newest_of fs' = newest_of fs ->
  weq (disk_sync i D, fs') (D, fs).
Proof.
  intros D i fs fs' S Hn. constructor; cbn [fst snd].
  - apply dsorted_sync. exact S.
  - exact S.
  - apply ids_sync. exact S.
  - intros j. apply fb_sync.
  - exact Hn.
Qed.

Lemma weq_write_opt d fs u data cb : dsorted d ->
  weq (wrun (match data with [] => [] | _ => [WWrite u data cb] end) (d, fs))
      (match newest_of fs with Some nw => disk_append (wf_id nw) data d | None => d end, fs).
Proof.
  intros S. destruct data as [|x data]; [|apply weq_write, S].
  cbn [wrun fold_left]. destruct (newest_of fs); [rewrite disk_append_nil by exact S|]; apply weq_refl, S.
Qed.
