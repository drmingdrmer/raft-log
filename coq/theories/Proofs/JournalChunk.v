(* Chunk bookkeeping facts (ck_push, ck_last_segment, ends_from, try_close,
   append_and_apply) and the caller-side half [jinv] of the journal invariant of
   property C11, as a predicate on (core, ids of the logical directory, bytes of each
   logical file).  No worker, no disk in this file. *)
From Coq Require Import List NArith Lia Sorting.Sorted.
From RaftLog Require Import Base.Bytes Model.Types Model.Codec Model.Core Model.Recover.
From RaftLog Require Import Proofs.CodecFacts Proofs.JournalDisk.
Import ListNotations.
Local Open Scope N_scope.

Definition blen (b : bytes) : N := N.of_nat (length b).
Definition encs (rs : list record) : bytes := concat (map enc_record rs).

Lemma blen_app a b : blen (a ++ b) = blen a + blen b.
Proof. unfold blen. rewrite app_length. lia. Qed.
Lemma blen_nil : blen [] = 0.
Proof. reflexivity. Qed.
Lemma encs_app a b : encs (a ++ b) = encs a ++ encs b.
Proof. unfold encs. rewrite map_app, concat_app. reflexivity. Qed.
Lemma encs_one r : encs [r] = enc_record r.
Proof. unfold encs. cbn [map concat]. apply app_nil_r. Qed.
Lemma encs_cons r rs : encs (r :: rs) = enc_record r ++ encs rs.
Proof. reflexivity. Qed.
Lemma rec_size_blen r : rec_size r = blen (enc_record r).
Proof. reflexivity. Qed.
Lemma rec_size_pos r : 0 < rec_size r.
Proof. unfold rec_size. pose proof (enc_record_min_len r). lia. Qed.

Lemma last_cons {A} (l : list A) : forall x d, last (x :: l) d = last l x.
Proof.
  induction l as [|y l IH]; intros x d; [reflexivity|].
  change (last (x :: y :: l) d) with (last (y :: l) d). rewrite IH.
  symmetry. apply IH.
Qed.

Lemma last_rev {A} (l : list A) d : last l d = match rev l with [] => d | e :: _ => e end.
Proof.
  induction l as [|x l IH] using rev_ind; [reflexivity|].
  rewrite last_last, rev_app_distr. reflexivity.
Qed.

Lemma ck_end_push c n : ck_end (ck_push c n) = ck_end c + n.
Proof. unfold ck_end, ck_push. simpl. apply last_last. Qed.

Lemma ck_id_push c n : ck_id (ck_push c n) = ck_id c.
Proof. reflexivity. Qed.

Lemma ck_last_segment_push c n : ck_last_segment (ck_push c n) = Ret (ck_end c, n).
Proof.
  unfold ck_last_segment, ck_push. simpl. rewrite rev_app_distr. simpl.
  unfold ck_end. rewrite last_rev. destruct (rev (ck_ends c)) as [|e r]; f_equal; f_equal; lia.
Qed.

Lemma ck_records_push c n : ck_records (ck_push c n) = ck_records c + 1.
Proof. unfold ck_records, ck_push. simpl. rewrite app_length. simpl. lia. Qed.

Fixpoint nsum (l : list N) : N := match l with [] => 0 | a :: r => a + nsum r end.

Lemma ends_from_last l : forall s, last (ends_from s l) s = s + nsum l.
Proof.
  induction l as [|a l IH]; intros s; cbn [ends_from nsum]; [simpl; lia|].
  rewrite last_cons, IH. lia.
Qed.

Lemma ends_from_app a : forall s b,
  ends_from s (a ++ b) = ends_from s a ++ ends_from (s + nsum a) b.
Proof.
  induction a as [|x a IH]; intros s b; simpl.
  - rewrite N.add_0_r. reflexivity.
  - rewrite IH. f_equal. f_equal. f_equal. lia.
Qed.

Lemma nsum_sizes rs : nsum (map rec_size rs) = blen (encs rs).
Proof.
  induction rs as [|r rs IH]; [reflexivity|].
  simpl. rewrite IH, encs_cons, blen_app. reflexivity.
Qed.

Lemma ends_from_end s rs : last (ends_from s (map rec_size rs)) s = s + blen (encs rs).
Proof. rewrite ends_from_last, nsum_sizes. reflexivity. Qed.

Lemma ends_from_snoc s rs r :
  ends_from s (map rec_size (rs ++ [r])) =
  ends_from s (map rec_size rs) ++ [s + blen (encs rs) + rec_size r].
Proof. rewrite map_app, ends_from_app, nsum_sizes. reflexivity. Qed.

(* [rotated k1] and [rotate_effs k1]: the core and the effects after try_close has closed a full open
   chunk; [appended k r sm1], below: the core after a record has been applied *)
Definition rotated (k1 : core) : core :=
  let off := ck_end (k_open k1) in
  let head := enc_record (RState (m_rs (k_sm k1))) in
  mkCore (k_cfg k1) (k_sm k1) (ck_push (mkChunk off []) (blen head)) []
         (closed_insert (mkClosed (k_open k1) (m_rs (k_sm k1)) false) (k_closed k1))
         (k_removed k1) (k_hit k1) (k_miss k1) (k_next_cb k1).

Definition rotate_effs (k1 : core) : list eff :=
  let off := ck_end (k_open k1) in
  [ECreate off (enc_record (RState (m_rs (k_sm k1))))] ++
  (match k_pending k1 with [] => [] | _ => [ESend (WWrite off (k_pending k1) None)] end) ++
  [ESend (WAppendFile off (r_last (m_rs (k_sm k1))))].

(* the chunk that try_close inspects always is the result of a push *)
Lemma try_close_cases k1 c n k' effs : k_open k1 = ck_push c n ->
  try_close k1 = Ret (k', effs) ->
  (is_full (k_cfg k1) (k_open k1) = false /\ k' = k1 /\ effs = []) \/
  (is_full (k_cfg k1) (k_open k1) = true /\ k' = rotated k1 /\ effs = rotate_effs k1).
Proof.
  intros Ho H. unfold try_close in H.
  destruct (is_full (k_cfg k1) (k_open k1)) eqn:F.
  - right. rewrite Ho, ck_last_segment_push in H. rewrite <- ck_end_push, <- Ho in H.
    inversion H; subst. split; [reflexivity|]. split; reflexivity.
  - left. inversion H; subst. auto.
Qed.

Lemma try_close_no_panic k1 c n : k_open k1 = ck_push c n -> try_close k1 <> Panic.
Proof.
  intros Ho. unfold try_close. destruct (is_full (k_cfg k1) (k_open k1)); [|discriminate].
  rewrite Ho, ck_last_segment_push. discriminate.
Qed.

Definition appended (k : core) (r : record) (sm1 : sm) : core :=
  mkCore (k_cfg k) sm1 (ck_push (k_open k) (rec_size r)) (k_pending k ++ enc_record r)
         (k_closed k) (k_removed k) (k_hit k) (k_miss k) (k_next_cb k).

Lemma sm_apply_ok s r c seg sm1 oe :
  rs_validate (m_rs s) r = None -> sm_apply s r c seg = (sm1, oe) ->
  oe = None /\ rs_apply (m_rs s) r = inl (m_rs sm1).
Proof.
  intros Hv H. unfold sm_apply in H.
  destruct (rs_apply (m_rs s) r) as [rs'|e] eqn:E.
  - destruct r; simpl in H; inversion H; subst; split; reflexivity.
  - unfold rs_apply in E. rewrite Hv in E. discriminate.
Qed.

(* [append_and_apply] always returns: the record is refused at the index limit or by validation and
   nothing changes, or it is applied by [sm_apply] at the end of the open chunk, which is then closed
   ([rotated]) if it is full. Every other statement about append_and_apply follows from this one. *)
Lemma aaa_spec : forall k r, exists k' w effs, append_and_apply k r = Ret (k', w, effs) /\
  ((k' = k /\ effs = [] /\
    (index_limit r = true /\ w = WErr EIndexLimit \/
     index_limit r = false /\ exists e, rs_validate (m_rs (k_sm k)) r = Some e /\ w = WErr e)) \/
   (index_limit r = false /\ rs_validate (m_rs (k_sm k)) r = None /\
    w = WOk (ck_end (k_open k)) (rec_size r) /\
    exists sm1, sm_apply (k_sm k) r (ck_id (k_open k)) (ck_end (k_open k), rec_size r) = (sm1, None) /\
      (k' = appended k r sm1 /\ effs = [] /\
       is_full (k_cfg k) (k_open (appended k r sm1)) = false \/
       k' = rotated (appended k r sm1) /\ effs = rotate_effs (appended k r sm1) /\
       is_full (k_cfg k) (k_open (appended k r sm1)) = true))).
Proof.
  intros k r. unfold append_and_apply. destruct (index_limit r) eqn:HL.
  { exists k, (WErr EIndexLimit), []. split; [reflexivity|]. left. auto. }
  destruct (rs_validate (m_rs (k_sm k)) r) as [e|] eqn:HV.
  { exists k, (WErr e), []. split; [reflexivity|]. left. split; [reflexivity|]. split; [reflexivity|].
    right. split; [reflexivity|]. exists e. split; reflexivity. }
  cbv zeta. change (N.of_nat (length (enc_record r))) with (rec_size r).
  rewrite ck_last_segment_push, ck_id_push.
  destruct (sm_apply (k_sm k) r (ck_id (k_open k)) (ck_end (k_open k), rec_size r)) as [sm1 oe] eqn:Es.
  destruct (sm_apply_ok _ _ _ _ _ _ HV Es) as [-> _]. fold (appended k r sm1).
  destruct (try_close (appended k r sm1)) as [[k2 ef]|] eqn:Et;
    [|destruct (try_close_no_panic (appended k r sm1) _ _ eq_refl Et)].
  exists k2, (WOk (ck_end (k_open k)) (rec_size r)), ef. split; [reflexivity|]. right.
  split; [reflexivity|]. split; [reflexivity|]. split; [reflexivity|]. exists sm1. split; [reflexivity|].
  eapply try_close_cases in Et; [|reflexivity]. destruct Et as [(F & -> & ->)|(F & -> & ->)]; auto.
Qed.

Lemma append_and_apply_steps k r k' w effs :
  append_and_apply k r = Ret (k', w, effs) ->
  (k' = k /\ effs = [] /\ exists e, w = WErr e) \/
  (exists sm1,
     rs_validate (m_rs (k_sm k)) r = None /\
     sm_apply (k_sm k) r (ck_id (k_open k)) (ck_end (k_open k), rec_size r) = (sm1, None) /\
     w = WOk (ck_end (k_open k)) (rec_size r) /\
     (is_full (k_cfg k) (k_open (appended k r sm1)) = false /\
      k' = appended k r sm1 /\ effs = [] \/
      is_full (k_cfg k) (k_open (appended k r sm1)) = true /\
      k' = rotated (appended k r sm1) /\ effs = rotate_effs (appended k r sm1))).
Proof.
  intros H. destruct (aaa_spec k r) as (k0 & w0 & e0 & E & D). rewrite E in H. inversion H; subst k0 w0 e0.
  destruct D as [(-> & -> & [[_ ->]|(_ & e & _ & ->)])|(_ & Hv & -> & sm1 & Hs & D)];
    [left; split; [reflexivity|split; [reflexivity|eexists; reflexivity]]..|].
  right. exists sm1. split; [exact Hv|]. split; [exact Hs|]. split; [reflexivity|].
  destruct D as [(-> & -> & F)|(-> & -> & F)]; auto.
Qed.

(* C11_rotation: a chunk that is full when a write returns has just been started *)
Theorem C11_rotation : forall k r k' off len effs,
  append_and_apply k r = Ret (k', WOk off len, effs) ->
  is_full (k_cfg k') (k_open k') = true -> ck_records (k_open k') = 1%N.
Proof.
  intros k r k' off len effs H F.
  apply append_and_apply_steps in H as [(_ & _ & e & He)|(sm1 & _ & _ & _ & Ht)]; [discriminate|].
  destruct Ht as [(F' & -> & _)|(_ & -> & _)]; [|reflexivity].
  cbn [appended k_cfg] in F. rewrite F' in F. discriminate.
Qed.

(* what the journal invariant says of the caller's half: its chunk ids are the files' ids [idl], and
   [fb] gives each file the bytes of the records the core believes are in it *)
Definition closed_ids (k : core) : list N := map (fun c => ck_id (cl_chunk c)) (k_closed k).
Definition chunk_ids (k : core) : list N := k_removed k ++ closed_ids k ++ [ck_id (k_open k)].
Definition live_chunks (k : core) : list chunk := map cl_chunk (k_closed k) ++ [k_open k].

Definition chunk_ok (fb : N -> bytes) (c : chunk) : Prop :=
  exists rs, Forall wf_record rs /\ fb (ck_id c) = encs rs /\
             ck_ends c = ends_from (ck_id c) (map rec_size rs) /\
             exists st tl, rs = RState st :: tl.

Fixpoint abut (fb : N -> bytes) (l : list N) : Prop :=
  match l with
  | a :: r => match r with [] => True | b :: _ => b = a + blen (fb a) end /\ abut fb r
  | [] => True
  end.

Definition entry_ok (idl : list N) (fb : N -> bytes) (o : N) (ld : logdata) : Prop :=
  wf_pair (ld_id ld) /\ ld_chunk ld <= o /\
  (In (ld_chunk ld) idl ->
   exists pre p post, wf_bytes p /\
     fb (ld_chunk ld) = pre ++ enc_record (RAppend (ld_id ld) p) ++ post /\
     ld_off ld = ld_chunk ld + blen pre /\ ld_len ld = rec_size (RAppend (ld_id ld) p)).

(* the file that follows a closed chunk starts with the snapshot of the state that
   was current when that chunk was closed *)
Fixpoint heads_ok (fb : N -> bytes) (cl : list closed) (o : N) : Prop :=
  match cl with
  | [] => True
  | c :: r =>
    (exists tl, fb (match r with [] => o | c' :: _ => ck_id (cl_chunk c') end)
                = enc_record (RState (cl_state c)) ++ tl) /\ heads_ok fb r o
  end.

Record jinv (k : core) (idl : list N) (fb : N -> bytes) : Prop := mkJinv {
  ji_ids : idl = chunk_ids k;
  ji_sorted : StronglySorted N.lt idl;
  ji_abut : abut fb idl;
  ji_chunks : Forall (chunk_ok fb) (live_chunks k);
  ji_heads : heads_ok fb (k_closed k) (ck_id (k_open k));
  ji_rs : wf_rstate (m_rs (k_sm k));
  ji_log : Forall (fun e => entry_ok idl fb (ck_id (k_open k)) (snd e)) (m_log (k_sm k)) }.

Lemma abut_ext fb fb' l : (forall j, In j l -> fb' j = fb j) -> abut fb l -> abut fb' l.
Proof.
  induction l as [|a l IH]; intros He H; [exact I|].
  simpl in *. destruct H as [H1 H2]. split.
  - destruct l as [|b l']; [exact I|]. rewrite He by (left; reflexivity). assumption.
  - apply IH; [|assumption]. intros j Ij. apply He. right; assumption.
Qed.

Lemma abut_app_r fb l1 l2 : abut fb (l1 ++ l2) -> abut fb l2.
Proof.
  induction l1 as [|a l1 IH]; intros H; [assumption|].
  simpl in H. apply IH. apply H.
Qed.

Lemma abut_snoc fb pre o off : abut fb (pre ++ [o]) -> off = o + blen (fb o) ->
  abut fb ((pre ++ [o]) ++ [off]).
Proof.
  induction pre as [|a pre IH]; intros H Hoff.
  - simpl. auto.
  - simpl in H. destruct H as [H1 H2]. simpl. split.
    + destruct pre; simpl in *; assumption.
    + apply IH; assumption.
Qed.

Lemma abut_change_last fb fb' pre o : (forall j, In j pre -> fb' j = fb j) ->
  abut fb (pre ++ [o]) -> abut fb' (pre ++ [o]).
Proof.
  induction pre as [|a pre IH]; intros He H.
  - simpl. auto.
  - simpl in H. destruct H as [H1 H2]. simpl. split.
    + rewrite He by (left; reflexivity). assumption.
    + apply IH; [|assumption]. intros j Ij. apply He. right; assumption.
Qed.

Lemma abut_spec fb l : abut fb l ->
  forall pre a b post, l = pre ++ a :: b :: post -> b = a + blen (fb a).
Proof.
  intros H pre a b post E. subst l. apply abut_app_r in H. simpl in H. apply H.
Qed.

Lemma abut_total fb l : forall a, abut fb (a :: l) ->
  a + nsum (map (fun j => blen (fb j)) (a :: l)) = last l a + blen (fb (last l a)).
Proof.
  induction l as [|b l IH]; intros a H; [simpl; lia|].
  destruct H as [H1 H2]. specialize (IH b H2). rewrite last_cons. cbn [map nsum] in *. lia.
Qed.

Lemma heads_ok_ext fb fb' cl o :
  (forall j, In j (map (fun c => ck_id (cl_chunk c)) cl ++ [o]) -> exists t, fb' j = fb j ++ t) ->
  heads_ok fb cl o -> heads_ok fb' cl o.
Proof.
  induction cl as [|c r IH]; intros He H; [exact I|].
  cbn [heads_ok] in H |- *. destruct H as [(tl & H1) H2]. split.
  - destruct (He (match r with [] => o | c' :: _ => ck_id (cl_chunk c') end)) as [t Et].
    { destruct r; cbn [map app]; right; left; reflexivity. }
    exists (tl ++ t). rewrite Et, H1, app_assoc. reflexivity.
  - apply IH; [|assumption]. intros j Ij. apply He. cbn [map app]. right. assumption.
Qed.

Lemma heads_ok_suffix fb pre rest o : heads_ok fb (pre ++ rest) o -> heads_ok fb rest o.
Proof.
  induction pre as [|c pre IH]; intros H; [assumption|]. cbn [app heads_ok] in H. apply IH, H.
Qed.

Lemma heads_ok_snoc fb cl o cnew off :
  heads_ok fb cl o -> ck_id (cl_chunk cnew) = o ->
  (exists tl, fb off = enc_record (RState (cl_state cnew)) ++ tl) ->
  heads_ok fb (cl ++ [cnew]) off.
Proof.
  induction cl as [|c r IH]; intros H Eo Hn.
  - cbn [app heads_ok]. auto.
  - cbn [heads_ok] in H. destruct H as [H1 H2]. cbn [app heads_ok]. split.
    + destruct r as [|c' r']; cbn [app]; [rewrite Eo|]; assumption.
    + apply IH; assumption.
Qed.

Lemma chunk_ok_ext fb fb' c : fb' (ck_id c) = fb (ck_id c) -> chunk_ok fb c -> chunk_ok fb' c.
Proof. intros E (rs & H1 & H2 & H3 & H4). exists rs. rewrite E. auto. Qed.

Lemma chunk_ok_end fb c : chunk_ok fb c -> ck_end c = ck_id c + blen (fb (ck_id c)).
Proof.
  intros (rs & H1 & H2 & H3 & H4). unfold ck_end. rewrite H3, H2. apply ends_from_end.
Qed.

Lemma chunk_ok_nonempty fb c : chunk_ok fb c -> 0 < blen (fb (ck_id c)).
Proof.
  intros (rs & H1 & H2 & H3 & st & tl & H4). subst rs. rewrite H2, encs_cons, blen_app.
  pose proof (rec_size_pos (RState st)). unfold rec_size in H. unfold blen. lia.
Qed.

Lemma chunk_ok_push fb fb' c r : chunk_ok fb c -> wf_record r ->
  fb' (ck_id c) = fb (ck_id c) ++ enc_record r -> chunk_ok fb' (ck_push c (rec_size r)).
Proof.
  intros Hc Hr E. pose proof (chunk_ok_end _ _ Hc) as He.
  destruct Hc as (rs & H1 & H2 & H3 & st & tl & H4).
  exists (rs ++ [r]). split; [|split; [|split]].
  - apply Forall_app. split; [assumption|]. constructor; [assumption|constructor].
  - rewrite ck_id_push, E, H2, encs_app, encs_one. reflexivity.
  - rewrite ck_id_push, ends_from_snoc. unfold ck_push. simpl. rewrite He, H2, H3. reflexivity.
  - exists st, (tl ++ [r]). subst rs. reflexivity.
Qed.

Lemma chunk_ok_fresh fb st off : wf_rstate st -> fb off = enc_record (RState st) ->
  chunk_ok fb (ck_push (mkChunk off []) (blen (enc_record (RState st)))).
Proof.
  intros Hw E. exists [RState st]. split; [|split; [|split]].
  - constructor; [exact Hw|constructor].
  - rewrite ck_id_push. simpl. rewrite E, encs_one. reflexivity.
  - reflexivity.
  - exists st, []. reflexivity.
Qed.

Lemma entry_ok_ext idl idl' fb fb' o o' ld : entry_ok idl fb o ld -> o <= o' ->
  (In (ld_chunk ld) idl' ->
   In (ld_chunk ld) idl /\ exists t, fb' (ld_chunk ld) = fb (ld_chunk ld) ++ t) ->
  entry_ok idl' fb' o' ld.
Proof.
  intros (W & Hle & Hseg) Ho He. split; [exact W|]. split; [lia|]. intros I.
  destruct (He I) as (I0 & t & Et). destruct (Hseg I0) as (pre & p & post & Wp & Ef & Eoff & Elen).
  exists pre, p, (post ++ t). rewrite Et, Ef, <- !app_assoc. auto.
Qed.

Lemma closed_insert_last x l :
  Forall (fun c => ck_id (cl_chunk c) < ck_id (cl_chunk x)) l -> closed_insert x l = l ++ [x].
Proof.
  induction l as [|c l IH]; intros H; [reflexivity|].
  inversion H as [|? ? H1 H2]; subst. simpl.
  destruct (N.compare_spec (ck_id (cl_chunk x)) (ck_id (cl_chunk c))) as [E|L|G]; try lia.
  rewrite IH by assumption. reflexivity.
Qed.

Lemma In_closed_ids k c : In c (k_closed k) -> In (ck_id (cl_chunk c)) (closed_ids k).
Proof. apply (in_map (fun c => ck_id (cl_chunk c))). Qed.

Lemma live_chunk_id k c : In c (live_chunks k) -> In (ck_id c) (closed_ids k ++ [ck_id (k_open k)]).
Proof.
  unfold live_chunks. rewrite !in_app_iff. intros [I|[<-|[]]]; [left|right; left; reflexivity].
  apply in_map_iff in I as (cl & <- & I). apply In_closed_ids, I.
Qed.

Section JinvFacts.
Variables (k : core) (idl : list N) (fb : N -> bytes).
Hypothesis J : jinv k idl fb.

Lemma ji_closed_lt c : In c (k_closed k) -> ck_id (cl_chunk c) < ck_id (k_open k).
Proof.
  intros I. pose proof (ji_sorted _ _ _ J) as S. rewrite (ji_ids _ _ _ J) in S.
  unfold chunk_ids in S. apply ss_app_inv in S as (_ & S & _).
  apply ss_app_inv in S as (_ & _ & S). apply S; [|left; reflexivity].
  apply In_closed_ids, I.
Qed.

Lemma ji_removed_lt j : In j (k_removed k) -> j < ck_id (k_open k).
Proof.
  intros I. pose proof (ji_sorted _ _ _ J) as S. rewrite (ji_ids _ _ _ J) in S.
  unfold chunk_ids in S. apply ss_app_inv in S as (_ & _ & S). apply S; [assumption|].
  apply in_app_iff. right. left. reflexivity.
Qed.

Lemma ji_ids_le j : In j idl -> j <= ck_id (k_open k).
Proof.
  rewrite (ji_ids _ _ _ J). unfold chunk_ids. rewrite !in_app_iff. intros [I|[I|[I|[]]]].
  - apply ji_removed_lt in I. lia.
  - unfold closed_ids in I. apply in_map_iff in I as (c & E & I). subst j.
    apply ji_closed_lt in I. lia.
  - lia.
Qed.

Lemma ji_open_in : In (ck_id (k_open k)) idl.
Proof. rewrite (ji_ids _ _ _ J). unfold chunk_ids. rewrite !in_app_iff. right. right. left. reflexivity. Qed.

Lemma ji_open_ok : chunk_ok fb (k_open k).
Proof.
  pose proof (ji_chunks _ _ _ J) as H. unfold live_chunks in H.
  apply Forall_app in H as [_ H]. inversion H; assumption.
Qed.

Lemma ji_closed_ok c : In c (k_closed k) -> chunk_ok fb (cl_chunk c).
Proof.
  intros I. pose proof (ji_chunks _ _ _ J) as H. unfold live_chunks in H.
  apply Forall_app in H as [H _]. rewrite Forall_forall in H. apply H. apply in_map. assumption.
Qed.

Lemma ji_idl_split : idl = (k_removed k ++ closed_ids k) ++ [ck_id (k_open k)].
Proof. rewrite (ji_ids _ _ _ J). unfold chunk_ids. rewrite app_assoc. reflexivity. Qed.

Lemma ji_pre_lt j : In j (k_removed k ++ closed_ids k) -> j < ck_id (k_open k).
Proof.
  rewrite in_app_iff. intros [I|I]; [apply ji_removed_lt; assumption|].
  unfold closed_ids in I. apply in_map_iff in I as (c & E & I). subst j.
  apply ji_closed_lt. assumption.
Qed.

Lemma ji_open_end : ck_end (k_open k) = ck_id (k_open k) + blen (fb (ck_id (k_open k))).
Proof. apply chunk_ok_end, ji_open_ok. Qed.

Lemma ji_open_lt_end : ck_id (k_open k) < ck_end (k_open k).
Proof. rewrite ji_open_end. pose proof (chunk_ok_nonempty _ _ ji_open_ok). lia. Qed.

Lemma ji_log_In e : In e (m_log (k_sm k)) -> entry_ok idl fb (ck_id (k_open k)) (snd e).
Proof. pose proof (ji_log _ _ _ J) as H. rewrite Forall_forall in H. apply H. Qed.

Lemma ji_live_in j : In j (closed_ids k ++ [ck_id (k_open k)]) -> In j idl.
Proof. rewrite (ji_ids _ _ _ J). unfold chunk_ids. intros H. apply in_or_app. right. exact H. Qed.

Lemma rotated_closed :
  k_closed (rotated k) = k_closed k ++ [mkClosed (k_open k) (m_rs (k_sm k)) false].
Proof.
  apply closed_insert_last. rewrite Forall_forall. intros c Ic. apply ji_closed_lt, Ic.
Qed.
End JinvFacts.

Lemma In_lm_insert e i v m : In e (lm_insert i v m) -> e = (i, v) \/ In e m.
Proof.
  induction m as [|[i' v'] m IH]; simpl.
  - intros [H|[]]. left; symmetry; assumption.
  - destruct (N.compare i i'); simpl.
    + intros [H|H]; [left; symmetry; assumption|right; right; assumption].
    + intros [H|H]; [left; symmetry; assumption|right; assumption].
    + intros [H|H]; [right; left; assumption|].
      destruct (IH H) as [H1|H1]; [left; assumption|right; right; assumption].
Qed.

Lemma sm_apply_log s r c seg e :
  In e (m_log (fst (sm_apply s r c seg))) ->
  In e (m_log s) \/
  exists id p, r = RAppend id p /\ e = (lid_index id, mkLD id c (fst seg) (snd seg)).
Proof.
  unfold sm_apply.
  destruct r as [v|id p|id|o|id|st]; destruct (rs_apply (m_rs s) _); simpl; intros H;
    try (left; assumption).
  - apply In_lm_insert in H as [H|H]; [right; eauto|left; assumption].
  - apply In_lm_insert in H as [H|H]; [right; eauto|left; assumption].
  - left. unfold lm_keep_lt in H. apply filter_In in H. apply H.
  - left. unfold lm_keep_lt in H. apply filter_In in H. apply H.
  - left. unfold lm_keep_ge in H. apply filter_In in H. apply H.
  - left. unfold lm_keep_ge in H. apply filter_In in H. apply H.
Qed.

Lemma rs_apply_wf s r s' : wf_rstate s -> wf_record r -> rs_apply s r = inl s' -> wf_rstate s'.
Proof.
  unfold rs_apply. destruct (rs_validate s r); [discriminate|].
  intros Hs Hr H. inversion H; subst; clear H.
  destruct s as [v l c p u]. unfold wf_rstate in *. simpl in Hs.
  destruct Hs as (H1 & H2 & H3 & H4 & H5).
  destruct r as [v'|id pl|id|o|id|st]; simpl in *.
  - tauto.
  - tauto.
  - tauto.
  - destruct (opair_ltb o l); simpl; tauto.
  - destruct (opair_ltb p (Some id)); simpl;
      match goal with |- context [if ?b then _ else _] => destruct b end; simpl; tauto.
  - exact Hr.
Qed.

Lemma jinv_append k idl fb r sm1 fb' :
  jinv k idl fb -> wf_record r -> rs_validate (m_rs (k_sm k)) r = None ->
  sm_apply (k_sm k) r (ck_id (k_open k)) (ck_end (k_open k), rec_size r) = (sm1, None) ->
  fb' (ck_id (k_open k)) = fb (ck_id (k_open k)) ++ enc_record r ->
  (forall j, j <> ck_id (k_open k) -> fb' j = fb j) ->
  jinv (appended k r sm1) idl fb'.
Proof.
  intros J Hr Hv Hs Eo Eother.
  set (o := ck_id (k_open k)) in *.
  assert (Hpre : forall j, In j (k_removed k ++ closed_ids k) -> fb' j = fb j).
  { intros j I. apply Eother. pose proof (ji_pre_lt _ _ _ J j I). fold o in H. lia. }
  assert (Hext : forall j, exists t, fb' j = fb j ++ t).
  { intros j. destruct (N.eq_dec j o) as [E|E].
    - subst j. exists (enc_record r). exact Eo.
    - exists []. rewrite app_nil_r. apply Eother, E. }
  constructor.
  - rewrite (ji_ids _ _ _ J). reflexivity.
  - apply (ji_sorted _ _ _ J).
  - rewrite (ji_idl_split _ _ _ J). apply abut_change_last with (fb := fb); [exact Hpre|].
    rewrite <- (ji_idl_split _ _ _ J). apply (ji_abut _ _ _ J).
  - unfold live_chunks, appended. simpl. apply Forall_app. split.
    + rewrite Forall_forall. intros c Ic. apply in_map_iff in Ic as (cl & E & Icl). subst c.
      apply chunk_ok_ext with (fb := fb); [|apply (ji_closed_ok _ _ _ J); assumption].
      apply Eother. pose proof (ji_closed_lt _ _ _ J _ Icl). fold o in H. lia.
    + constructor; [|constructor].
      apply chunk_ok_push with (fb := fb); [apply (ji_open_ok _ _ _ J)|assumption|exact Eo].
  - simpl. apply heads_ok_ext with (fb := fb); [|apply (ji_heads _ _ _ J)].
    intros j _. apply Hext.
  - simpl. destruct (sm_apply_ok _ _ _ _ _ _ Hv Hs) as [_ E].
    eapply rs_apply_wf; [apply (ji_rs _ _ _ J)|exact Hr|exact E].
  - simpl. rewrite Forall_forall. intros e Ie.
    replace sm1 with (fst (sm_apply (k_sm k) r o (ck_end (k_open k), rec_size r))) in Ie
      by (rewrite Hs; reflexivity).
    apply sm_apply_log in Ie as [Ie|(id & p & Er & Ee)].
    + apply (entry_ok_ext _ _ _ _ _ _ _ (ji_log_In _ _ _ J e Ie) (N.le_refl _)).
      intros I. split; [exact I|apply Hext].
    + subst e r. unfold entry_ok. cbn [snd fst ld_id ld_chunk ld_off ld_len]. simpl in Hr. destruct Hr as [Wid Wp].
      split; [assumption|]. split; [apply N.le_refl|]. intros _.
      exists (fb o), p, []. split; [assumption|]. split; [|split].
      * rewrite Eo, app_nil_r. reflexivity.
      * apply (ji_open_end _ _ _ J).
      * reflexivity.
Qed.

(* [jinv k idl fb] reads [fb] on [idl] only *)
Lemma jinv_ext_on k idl fb fb' : jinv k idl fb -> (forall j, In j idl -> fb' j = fb j) -> jinv k idl fb'.
Proof.
  intros J He.
  assert (Hl : forall j, In j (closed_ids k ++ [ck_id (k_open k)]) -> fb' j = fb j).
  { intros j Ij. apply He, (ji_live_in _ _ _ J), Ij. }
  constructor.
  - apply (ji_ids _ _ _ J).
  - apply (ji_sorted _ _ _ J).
  - apply abut_ext with (fb := fb); [exact He|apply (ji_abut _ _ _ J)].
  - pose proof (ji_chunks _ _ _ J) as HC. rewrite Forall_forall in *. intros c Ic.
    apply chunk_ok_ext with (fb := fb); [apply Hl, live_chunk_id, Ic|apply HC, Ic].
  - apply heads_ok_ext with (fb := fb); [|apply (ji_heads _ _ _ J)].
    intros j Ij. exists []. rewrite app_nil_r. apply Hl, Ij.
  - apply (ji_rs _ _ _ J).
  - rewrite Forall_forall. intros e Ie.
    apply (entry_ok_ext _ _ _ _ _ _ _ (ji_log_In _ _ _ J e Ie) (N.le_refl _)). intros I.
    split; [exact I|]. exists []. rewrite app_nil_r. apply He, I.
Qed.


Lemma jinv_rotate k1 idl fb fb' :
  jinv k1 idl fb ->
  fb' (ck_end (k_open k1)) = enc_record (RState (m_rs (k_sm k1))) ->
  (forall j, j <> ck_end (k_open k1) -> fb' j = fb j) ->
  jinv (rotated k1) (idl ++ [ck_end (k_open k1)]) fb'.
Proof.
  intros J0 Eh Eother.
  set (o := ck_id (k_open k1)) in *. set (off := ck_end (k_open k1)) in *.
  pose proof (ji_open_lt_end _ _ _ J0) as Hlt. fold o off in Hlt.
  assert (J : jinv k1 idl fb').
  { apply (jinv_ext_on _ _ fb); [exact J0|]. intros j I. apply Eother.
    pose proof (ji_ids_le _ _ _ J0 j I). fold o in H. lia. }
  clear J0 Eother.
  pose proof (rotated_closed _ _ _ J) as Hci.
  constructor.
  - rewrite (ji_ids _ _ _ J). unfold chunk_ids, closed_ids. rewrite Hci, map_app.
    simpl. rewrite <- !app_assoc. reflexivity.
  - apply ss_app; [apply (ji_sorted _ _ _ J)|repeat constructor|].
    intros a b Ia [Eb|[]]. subst b. pose proof (ji_ids_le _ _ _ J a Ia). fold o in H. lia.
  - rewrite (ji_idl_split _ _ _ J). apply abut_snoc; [|apply (ji_open_end _ _ _ J)].
    rewrite <- (ji_idl_split _ _ _ J). apply (ji_abut _ _ _ J).
  - unfold live_chunks. rewrite Hci, map_app. apply Forall_app. split; [apply (ji_chunks _ _ _ J)|].
    constructor; [|constructor]. apply chunk_ok_fresh; [apply (ji_rs _ _ _ J)|exact Eh].
  - rewrite Hci. cbn [rotated k_open]. rewrite ck_id_push. cbn [ck_id]. fold off.
    apply heads_ok_snoc with (o := o); [apply (ji_heads _ _ _ J)|reflexivity|].
    exists []. rewrite app_nil_r. exact Eh.
  - apply (ji_rs _ _ _ J).
  - simpl. fold off. rewrite Forall_forall. intros e Ie.
    pose proof (ji_log_In _ _ _ J e Ie) as HE. pose proof HE as (_ & Hle & _). fold o in Hle.
    apply (entry_ok_ext _ _ _ _ _ _ _ HE); [fold o; lia|]. intros I.
    apply in_app_iff in I as [I|[I|[]]]; [|lia].
    split; [exact I|]. exists []. rewrite app_nil_r. reflexivity.
Qed.

Lemma pop_obsolete_spec upto cl : forall rm rest, pop_obsolete upto cl = (rm, rest) ->
  exists pre, cl = pre ++ rest /\ rm = map (fun c => ck_id (cl_chunk c)) pre /\
    Forall (fun c => opair_ltb (Some upto) (r_last (cl_state c)) = false) pre /\
    match rest with c :: _ => opair_ltb (Some upto) (r_last (cl_state c)) = true | [] => True end.
Proof.
  induction cl as [|c cl IH]; intros rm rest H; simpl in H.
  - inversion H; subst. exists []. auto.
  - destruct (opair_ltb (Some upto) (r_last (cl_state c))) eqn:E.
    + inversion H; subst. exists []. auto.
    + destruct (pop_obsolete upto cl) as [rm' rest'] eqn:E'. inversion H; subst.
      destruct (IH _ _ eq_refl) as (pre & E1 & E2 & E3 & E4). exists (c :: pre). subst. auto.
Qed.

Definition purged_core (k : core) (rm : list N) (rest : list closed) : core :=
  mkCore (k_cfg k) (k_sm k) (k_open k) (k_pending k) rest (k_removed k ++ rm)
         (k_hit k) (k_miss k) (k_next_cb k).

Lemma jinv_purge k idl fb upto rm rest :
  jinv k idl fb -> pop_obsolete upto (k_closed k) = (rm, rest) ->
  jinv (purged_core k rm rest) idl fb.
Proof.
  intros J H. apply pop_obsolete_spec in H as (pre & E1 & E2 & _).
  constructor.
  - rewrite (ji_ids _ _ _ J). unfold chunk_ids, closed_ids, purged_core. simpl.
    rewrite E1, E2, map_app, <- !app_assoc. reflexivity.
  - apply (ji_sorted _ _ _ J).
  - apply (ji_abut _ _ _ J).
  - pose proof (ji_chunks _ _ _ J) as HC. unfold live_chunks, purged_core in *. simpl.
    rewrite E1, map_app, <- app_assoc in HC. apply Forall_app in HC. apply HC.
  - pose proof (ji_heads _ _ _ J) as HH. rewrite E1 in HH. apply heads_ok_suffix in HH. exact HH.
  - apply (ji_rs _ _ _ J).
  - apply (ji_log _ _ _ J).
Qed.

Definition flushed_core (k : core) (cbn : N) : core :=
  mkCore (k_cfg k) (k_sm k) (k_open k) [] (k_closed k) [] (k_hit k) (k_miss k) cbn.

Lemma jinv_flush k idl fb fb' cbn :
  jinv k idl fb ->
  (forall j, In j (closed_ids k ++ [ck_id (k_open k)]) -> fb' j = fb j) ->
  jinv (flushed_core k cbn) (closed_ids k ++ [ck_id (k_open k)]) fb'.
Proof.
  intros J He. apply (jinv_ext_on _ _ fb); [|exact He]. clear He.
  pose proof (ji_sorted _ _ _ J) as S. rewrite (ji_ids _ _ _ J) in S. unfold chunk_ids in S.
  constructor; try apply J.
  - reflexivity.
  - apply ss_app_inv in S. apply S.
  - pose proof (ji_abut _ _ _ J) as A. rewrite (ji_ids _ _ _ J) in A. apply abut_app_r in A. exact A.
  - simpl. rewrite Forall_forall. intros e Ie.
    apply (entry_ok_ext _ _ _ _ _ _ _ (ji_log_In _ _ _ J e Ie) (N.le_refl _)). intros I.
    split; [apply (ji_live_in _ _ _ J), I|]. exists []. rewrite app_nil_r. reflexivity.
Qed.

Lemma jinv_core_eqj k k' idl fb : jinv k idl fb -> core_eqj k k' -> jinv k' idl fb.
Proof.
  intros J (E1 & E2 & E3 & E4 & E5 & E6 & E7).
  constructor.
  - rewrite (ji_ids _ _ _ J). unfold chunk_ids, closed_ids. rewrite E2, E4, E5. reflexivity.
  - apply (ji_sorted _ _ _ J).
  - apply (ji_abut _ _ _ J).
  - unfold live_chunks. rewrite E2, E4. apply (ji_chunks _ _ _ J).
  - rewrite E2, E4. apply (ji_heads _ _ _ J).
  - rewrite E6. apply (ji_rs _ _ _ J).
  - rewrite E7, E2. apply (ji_log _ _ _ J).
Qed.


Definition kinit (cfg : config) : core :=
  mkCore cfg (sm_new cfg) (ck_push (mkChunk 0 []) (blen (enc_record (RState rstate0)))) [] [] [] 0 0 0.

Lemma wf_rstate0 : wf_rstate rstate0.
Proof. unfold wf_rstate. simpl. tauto. Qed.

Lemma jinv_init cfg fb : fb 0 = enc_record (RState rstate0) -> jinv (kinit cfg) [0] fb.
Proof.
  intros E. constructor; [reflexivity|repeat constructor|simpl; auto| |exact I|exact wf_rstate0|constructor].
  unfold live_chunks. simpl. constructor; [|constructor]. apply (chunk_ok_fresh fb rstate0 0 wf_rstate0 E).
Qed.

Print Assumptions C11_rotation.
