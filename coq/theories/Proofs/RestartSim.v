(* C02, part 1 (state-machine level): replaying a suffix of the journal. [Sim lo sp s t]: [t] is the
   state machine obtained by replaying the journal files with id >= lo, [s] the live one, [sp] the
   reference log; both carry the same RaftLogState, the index map of [t] is that of [s] restricted to
   the entries stored in chunks >= lo, and every such entry hits in the cache of [t]. [replay_files] is
   what [open_loop] does to the state machine on a list of (chunk id, records); [Fam], [Chain], [GB],
   [HK] are invariants of that list, each with its lemmas for one more record and for a rotation.
   [Sim] is a cache-free part [rel] and a statement about the cache of [t] ([Sim_rel]); the lemmas
   about the family are proved for any such statement ([FamP]), [Fam] being one instance ([Fam_P]). *)
From Coq Require Import List NArith Lia Sorted.
From RaftLog Require Import Base.Bytes Model.Types Model.Codec Model.Cache Model.Core Model.Recover Spec.Spec.
From RaftLog Require Import Proofs.CodecFacts.
From RaftLog Require Import Proofs.OrderFacts Proofs.JournalChunk Proofs.SmFacts Proofs.Refine.
Import ListNotations.
Local Open Scope N_scope.

Lemma filter_comm {A} (f g : A -> bool) l : filter f (filter g l) = filter g (filter f l).
Proof.
  induction l as [|a l IH]; [reflexivity|]. cbn [filter].
  destruct (g a) eqn:Eg; destruct (f a) eqn:Ef; cbn [filter]; rewrite ?Eg, ?Ef, IH; reflexivity.
Qed.

Lemma in_map_fst_filter {A B} (f : A * B -> bool) (l : list (A * B)) x :
  In x (map fst (filter f l)) -> In x (map fst l).
Proof.
  intros H. apply in_map_iff in H. destruct H as [e [E He]]. apply filter_In in He.
  apply in_map_iff. exists e. split; [exact E|apply He].
Qed.

Definition in_chunks (lo : N) (e : N * logdata) : bool := N.leb lo (ld_chunk (snd e)).

Record Sim (lo : N) (sp : spec) (s t : sm) : Prop := mkSim {
  S_rs : m_rs t = m_rs s;
  S_log : m_log t = filter (in_chunks lo) (m_log s);
  S_hit : forall e, In e (sp_entries sp) -> In (lid_index (fst e)) (map fst (m_log t)) ->
          ent_get (fst e) (ch_entries (m_cache t)) = Some (snd e);
  S_csorted : StronglySorted clt (ch_entries (m_cache t));
  S_cle : forall e, In e (ch_entries (m_cache t)) -> opair_cmp (Some (fst e)) (sp_last sp) <> Gt }.

Definition held (t : sm) (e : logid * payload) : Prop := In (lid_index (fst e)) (map fst (m_log t)).

Lemma Rcache_held : forall t sp, Rlog t sp -> Rcache (held t) (m_cache t) sp -> R t sp.
Proof.
  intros t sp HL [C D E]. apply R_split. split; [exact HL|]. constructor; [|exact D|exact E].
  intros e He _. apply C; [exact He|]. unfold held.
  assert (Hi : In (g_ent e) (map g_ent (sp_entries sp))) by (apply in_map; exact He).
  rewrite <- (L_log _ _ HL) in Hi. apply in_map_iff in Hi. destruct Hi as [x [Ex Hx]].
  apply in_map_iff. exists x. split; [|exact Hx].
  unfold f_log, g_ent in Ex. inversion Ex. reflexivity.
Qed.


Lemma rel_step : forall lo s t r c seg,
  m_rs t = m_rs s -> m_log t = filter (in_chunks lo) (m_log s) ->
  (forall id p, r = RAppend id p -> lo <= c /\ forall e, In e (m_log s) -> fst e < lid_index id) ->
  m_rs (fst (sm_apply t r c seg)) = m_rs (fst (sm_apply s r c seg)) /\
  m_log (fst (sm_apply t r c seg)) = filter (in_chunks lo) (m_log (fst (sm_apply s r c seg))).
Proof.
  intros lo s t r c seg Ers Elog Hmax. rewrite !sm_apply_eq, Ers. cbn [fst m_rs m_log]. split; [reflexivity|].
  destruct r as [v|id p|id|o|id|st]; try exact Elog; cbn [log_apply].
  - destruct (Hmax id p eq_refl) as [Hlo F2].
    assert (F2t : forall e, In e (m_log t) -> fst e < lid_index id).
    { intros e He. rewrite Elog in He. apply filter_In in He. apply F2, He. }
    rewrite (lm_insert_end _ _ _ F2), (lm_insert_end _ _ _ F2t), filter_app, <- Elog.
    cbn [filter]. unfold in_chunks. cbn [snd ld_chunk].
    rewrite (proj2 (N.leb_le lo c) Hlo). reflexivity.
  - unfold lm_keep_lt. rewrite Elog. apply filter_comm.
  - unfold lm_keep_ge. rewrite Elog. apply filter_comm.
Qed.

(* [t] is [s] replayed from chunk [lo] on: the cache-free part of [Sim] *)
Definition rel (lo : N) (s t : sm) : Prop :=
  m_rs t = m_rs s /\ m_log t = filter (in_chunks lo) (m_log s).

Definition Pc (sp : spec) (t : sm) (n b : N) : Prop :=
  Rcache (held t) (m_cache t) sp /\ Budget (m_cache t) n b.

Lemma Sim_rel lo sp s t n b : Sim lo sp s t /\ Budget (m_cache t) n b <-> rel lo s t /\ Pc sp t n b.
Proof.
  unfold rel, Pc. split.
  - intros [[A B C D E] H]. split; [split; assumption|split; [constructor; assumption|exact H]].
  - intros [[A B] [[C D E] H]]. split; [constructor|]; assumption.
Qed.

(* one journalled record keeps [Pc] of a replay that holds part of the index map *)
Lemma Pc_step lo s t sp sp' r sw n b c seg : Rlog s sp -> rel lo s t -> rec_sw sp r sw ->
  spec_step sp sw = Some sp' ->
  match r with RAppend _ p => Pc sp t (n + 1) (b + psize p) | _ => Pc sp t n b end ->
  Pc sp' (fst (sm_apply t r c seg)) n b.
Proof.
  intros HR [Ers Elog] Hw Es HP.
  assert (G : Rcache (held t) (m_cache t) sp /\
            match r with RAppend _ p => Budget (m_cache t) (n + 1) (b + psize p) | _ => Budget (m_cache t) n b end)
    by (destruct r; exact HP).
  destruct G as [HC HB]. apply (rec_sw_cache (held t) _ t sp r sw sp' n b c seg HC); try assumption; [|apply (L_wf _ _ HR)].
  intros e He. unfold held. rewrite sm_apply_eq. cbn [fst m_log]. destruct Hw as [v|id0|u|id p|o Ho|u E1 Hu]; cbn [log_apply]; try (intros H; exact H);
    try apply in_map_fst_filter.
  destruct (spec_entry_inv sp id p sp' Es) as (_ & Hlt & Hidx & _).
  destruct (entry_above s sp id p HR Hlt Hidx) as [F1 F2].
  rewrite lm_insert_end, map_app.
  - intros Hq. apply in_app_or in Hq. destruct Hq as [Hq|[Hq|[]]]; [exact Hq|].
    cbn [fst] in Hq. destruct (F1 e He) as [_ Hx]. cbn [fst] in Hx. lia.
  - intros x Hx. rewrite Elog in Hx. apply filter_In in Hx. apply F2, Hx.
Qed.

Definition rsum (rs : list record) : N := fold_right N.add 0 (map rec_size rs).

Lemma rsum_app a b : rsum (a ++ b) = rsum a + rsum b.
Proof.
  unfold rsum. induction a as [|r a IH]; cbn [app map fold_right]; [lia|]. rewrite IH. lia.
Qed.

Lemma rsum_cons r a : rsum (r :: a) = rec_size r + rsum a.
Proof. reflexivity. Qed.

Fixpoint rs_run (st : rstate) (rs : list record) : option rstate :=
  match rs with
  | [] => Some st
  | r :: rs' => match rs_apply st r with inl st' => rs_run st' rs' | inr _ => None end
  end.

Lemma rs_run_app a : forall st b,
  rs_run st (a ++ b) = match rs_run st a with Some st' => rs_run st' b | None => None end.
Proof.
  induction a as [|r a IH]; intros st b; cbn [app rs_run]; [reflexivity|].
  destruct (rs_apply st r) as [st'|e]; [apply IH|reflexivity].
Qed.

Lemma rs_run_head x st tl : rs_run x (RState st :: tl) = rs_run st tl.
Proof. reflexivity. Qed.

Lemma rs_run_wf : forall rs st x,
  wf_rstate st -> Forall wf_record rs -> rs_run st rs = Some x -> wf_rstate x.
Proof.
  induction rs as [|r rs IH]; intros st x Hs Hw H; cbn [rs_run] in H.
  - inversion H; subst. exact Hs.
  - inversion Hw as [|? ? Hw1 Hw2]; subst.
    destruct (rs_apply st r) as [st1|e] eqn:E; [|discriminate].
    exact (IH st1 x (rs_apply_wf st r st1 Hs Hw1 E) Hw2 H).
Qed.

Lemma ends_from_length : forall l start, length (ends_from start l) = length l.
Proof. induction l as [|a l IH]; intros start; cbn [ends_from length]; [reflexivity|]. rewrite IH. reflexivity. Qed.

Definition jfile := (N * list record)%type.

(* the state handed to [replay] by [open_loop]: eviction boundary = last log id so far *)
Definition chunk_pre (t : sm) : sm :=
  mkSM (m_rs t) (m_log t) (cache_set_evictable (m_cache t) (r_last (m_rs t))).

Definition chunk_replay (t : sm) (g : jfile) : sm * option err :=
  replay (chunk_pre t) (fst g) (fst g) (snd g) (ends_from (fst g) (map rec_size (snd g))).

Fixpoint replay_files (t : sm) (G : list jfile) : sm * option err :=
  match G with
  | [] => (t, None)
  | g :: G' =>
    match chunk_replay t g with
    | (t1, None) => replay_files t1 G'
    | (t1, Some e) => (t1, Some e)
    end
  end.

(* [replay] on the ends [chunk_open] computes: record [r] is applied with the segment
   (start + size of the records before it, rec_size r). [chunk_replay t g] is
   [rapply (chunk_pre t) (fst g) (fst g) (snd g)] by conversion. *)
Definition rapply (s : sm) (id start : N) (rs : list record) : sm * option err :=
  replay s id start rs (ends_from start (map rec_size rs)).

Lemma rapply_cons s id start r rs :
  rapply s id start (r :: rs) =
  match sm_apply s r id (start, rec_size r) with
  | (s1, None) => rapply s1 id (start + rec_size r) rs
  | (s1, Some e) => (s1, Some e)
  end.
Proof.
  unfold rapply. cbn [map ends_from replay].
  replace (start + rec_size r - start) with (rec_size r) by lia. reflexivity.
Qed.

Lemma rapply_app a : forall s id start b,
  rapply s id start (a ++ b) =
  match rapply s id start a with
  | (s1, None) => rapply s1 id (start + rsum a) b
  | (s1, Some e) => (s1, Some e)
  end.
Proof.
  induction a as [|r a IH]; intros s id start b; cbn [app].
  - replace (start + rsum []) with start by (unfold rsum; cbn [map fold_right]; lia). reflexivity.
  - rewrite !rapply_cons. destruct (sm_apply s r id (start, rec_size r)) as [s1 [e|]]; [reflexivity|].
    rewrite IH, rsum_cons, N.add_assoc. reflexivity.
Qed.

Lemma sm_apply_None s r c seg s1 :
  sm_apply s r c seg = (s1, None) -> rs_apply (m_rs s) r = inl (m_rs s1).
Proof.
  rewrite sm_apply_eq. destruct (rs_apply (m_rs s) r); intros H; inversion H; reflexivity.
Qed.

Lemma sm_apply_run s r c seg x :
  rs_apply (m_rs s) r = inl x -> exists s1, sm_apply s r c seg = (s1, None) /\ m_rs s1 = x.
Proof. rewrite sm_apply_eq. intros ->. eexists. split; reflexivity. Qed.

(* a replay succeeds iff [rs_run] does: the index map and the cache never refuse *)
Lemma rapply_rs rs : forall s id start s1,
  rapply s id start rs = (s1, None) -> rs_run (m_rs s) rs = Some (m_rs s1).
Proof.
  induction rs as [|r rs IH]; intros s id start s1 H.
  - inversion H; reflexivity.
  - rewrite rapply_cons in H. cbn [rs_run].
    destruct (sm_apply s r id (start, rec_size r)) as [s2 [e|]] eqn:Ea; [discriminate H|].
    rewrite (sm_apply_None _ _ _ _ _ Ea). exact (IH _ _ _ _ H).
Qed.

Lemma rapply_run rs : forall s id start x,
  rs_run (m_rs s) rs = Some x -> exists s1, rapply s id start rs = (s1, None) /\ m_rs s1 = x.
Proof.
  induction rs as [|r rs IH]; intros s id start x H; cbn [rs_run] in H.
  - inversion H. exists s. split; reflexivity.
  - rewrite rapply_cons. destruct (rs_apply (m_rs s) r) as [y|e] eqn:E; [|discriminate H].
    destruct (sm_apply_run s r id (start, rec_size r) y E) as (s2 & -> & <-). exact (IH _ _ _ _ H).
Qed.

(* [I done t]: after the records [done]. One record at the end at a time, by [rapply_app] and
   [rapply_cons]; [replay] itself is unfolded in [rapply_cons] only. *)
Lemma rapply_ind (I : list record -> sm -> Prop) s id start :
  I [] s ->
  (forall done r t t1, I done t -> rs_run (m_rs s) done = Some (m_rs t) ->
     sm_apply t r id (start + rsum done, rec_size r) = (t1, None) -> I (done ++ [r]) t1) ->
  forall rs s1, rapply s id start rs = (s1, None) -> I rs s1.
Proof.
  intros H0 Hstep rs. induction rs as [|r rs IH] using rev_ind; intros s1 H.
  - inversion H; subst. exact H0.
  - rewrite rapply_app in H. destruct (rapply s id start rs) as [t [e|]] eqn:E; [discriminate H|].
    rewrite rapply_cons in H.
    destruct (sm_apply t r id (start + rsum rs, rec_size r)) as [t1 [e|]] eqn:Ea; [discriminate H|].
    inversion H; subst. exact (Hstep rs r t s1 (IH t eq_refl) (rapply_rs _ _ _ _ _ E) Ea).
Qed.

Lemma replay_files_app : forall G1 t G2,
  replay_files t (G1 ++ G2) =
  match replay_files t G1 with
  | (t1, None) => replay_files t1 G2
  | (t1, Some e) => (t1, Some e)
  end.
Proof.
  induction G1 as [|g G1 IH]; intros t G2; cbn [app replay_files]; [reflexivity|].
  destruct (chunk_replay t g) as [t1 [e|]]; [reflexivity|apply IH].
Qed.

Lemma replay_files_snoc_inv : forall G t g t2,
  replay_files t (G ++ [g]) = (t2, None) ->
  exists t1, replay_files t G = (t1, None) /\ chunk_replay t1 g = (t2, None).
Proof.
  intros G t g t2 H. rewrite replay_files_app in H.
  destruct (replay_files t G) as [t1 [e|]]; [discriminate H|].
  exists t1. split; [reflexivity|]. cbn [replay_files] in H.
  destruct (chunk_replay t1 g) as [t3 [e|]]; [discriminate H|]. exact H.
Qed.

Lemma replay_files_cons_inv : forall g G t t2,
  replay_files t (g :: G) = (t2, None) ->
  exists t1, chunk_replay t g = (t1, None) /\ replay_files t1 G = (t2, None).
Proof.
  intros g G t t2 H. cbn [replay_files] in H.
  destruct (chunk_replay t g) as [t1 [e|]]; [discriminate H|]. exists t1. split; [reflexivity|exact H].
Qed.

Lemma replay_files_snoc : forall G t g t1 t2,
  replay_files t G = (t1, None) -> chunk_replay t1 g = (t2, None) ->
  replay_files t (G ++ [g]) = (t2, None).
Proof.
  intros G t g t1 t2 H1 H2. rewrite replay_files_app, H1. cbn [replay_files]. rewrite H2. reflexivity.
Qed.

Lemma replay_files_record : forall G t0 o rs r t,
  replay_files t0 (G ++ [(o, rs)]) = (t, None) ->
  snd (sm_apply t r o (o + rsum rs, rec_size r)) = None ->
  replay_files t0 (G ++ [(o, rs ++ [r])]) = (fst (sm_apply t r o (o + rsum rs, rec_size r)), None).
Proof.
  intros G t0 o rs r t H Hn. apply replay_files_snoc_inv in H. destruct H as [t1 [H1 H2]].
  eapply replay_files_snoc; [exact H1|]. unfold chunk_replay in *. cbn [fst snd] in *.
  fold (rapply (chunk_pre t1) o o (rs ++ [r])). fold (rapply (chunk_pre t1) o o rs) in H2.
  rewrite rapply_app, H2, rapply_cons.
  destruct (sm_apply t r o (o + rsum rs, rec_size r)) as [s1 oe]. cbn [snd] in Hn. subst oe. reflexivity.
Qed.

Lemma chunk_replay_head : forall t off st,
  chunk_replay t (off, [RState st]) =
  (mkSM st (m_log t) (cache_set_evictable (m_cache t) (r_last (m_rs t))), None).
Proof.
  intros t off st. exact (rapply_cons (chunk_pre t) off off (RState st) []).
Qed.

Definition jall (G : list jfile) : list record := flat_map snd G.

Lemma jall_snoc G id rs : jall (G ++ [(id, rs)]) = jall G ++ rs.
Proof. unfold jall. rewrite flat_map_app. cbn [flat_map snd]. rewrite app_nil_r. reflexivity. Qed.

Lemma replay_files_rs G : forall t0 t,
  replay_files t0 G = (t, None) -> rs_run (m_rs t0) (jall G) = Some (m_rs t).
Proof.
  induction G as [|g G IH]; intros t0 t H.
  - inversion H; reflexivity.
  - apply replay_files_cons_inv in H as (t1 & E & H).
    change (jall (g :: G)) with (snd g ++ jall G).
    rewrite rs_run_app. change (m_rs t0) with (m_rs (chunk_pre t0)).
    rewrite (rapply_rs _ _ _ _ _ E). exact (IH _ _ H).
Qed.

Lemma replay_files_run G : forall t0 x,
  rs_run (m_rs t0) (jall G) = Some x -> exists t, replay_files t0 G = (t, None) /\ m_rs t = x.
Proof.
  induction G as [|g G IH]; intros t0 x H.
  - inversion H. exists t0. split; reflexivity.
  - change (jall (g :: G)) with (snd g ++ jall G) in H. rewrite rs_run_app in H.
    destruct (rs_run (m_rs t0) (snd g)) as [y|] eqn:E; [|discriminate H].
    destruct (rapply_run (snd g) (chunk_pre t0) (fst g) (fst g) y E) as (t1 & E1 & <-).
    cbn [replay_files]. unfold chunk_replay. fold (rapply (chunk_pre t0) (fst g) (fst g) (snd g)).
    rewrite E1. exact (IH _ _ H).
Qed.

(* a replayed journal grows as the live one does: by a new (still empty) file, where the eviction
   boundary is set, and by one record at the end of the newest file; [I G t] after the journal [G] *)
Lemma replay_files_ind (I : list jfile -> sm -> Prop) t0 :
  I [] t0 ->
  (forall G id t, I G t -> rs_run (m_rs t0) (jall G) = Some (m_rs t) -> I (G ++ [(id, [])]) (chunk_pre t)) ->
  (forall G id rs r t t1, I (G ++ [(id, rs)]) t -> rs_run (m_rs t0) (jall G ++ rs) = Some (m_rs t) ->
     sm_apply t r id (id + rsum rs, rec_size r) = (t1, None) -> I (G ++ [(id, rs ++ [r])]) t1) ->
  forall G t, replay_files t0 G = (t, None) -> I G t.
Proof.
  intros H0 Hfile Hrec G. induction G as [|[id rs] G IH] using rev_ind; intros t H.
  - inversion H; subst. exact H0.
  - destruct (replay_files_snoc_inv _ _ _ _ H) as (t1 & H1 & H2).
    pose proof (replay_files_rs _ _ _ H1) as Hr1.
    apply (rapply_ind (fun done s => I (G ++ [(id, done)]) s) (chunk_pre t1) id id); [| |exact H2].
    + exact (Hfile G id t1 (IH t1 H1) Hr1).
    + intros done r s s1 Hi Hr Ha. apply (Hrec G id done r s s1 Hi); [|exact Ha].
      rewrite rs_run_app, Hr1. exact Hr.
Qed.

Lemma rsum_blen rs : rsum rs = blen (encs rs).
Proof.
  induction rs as [|r rs IH]; [reflexivity|].
  rewrite rsum_cons, IH, encs_cons, blen_app, rec_size_blen. reflexivity.
Qed.

Definition points (id : N) (rs : list record) (ld : logdata) : Prop :=
  ld_chunk ld = id /\ exists pre p post, In (RAppend (ld_id ld) p) rs /\
    encs rs = pre ++ enc_record (RAppend (ld_id ld) p) ++ post /\
    ld_off ld = id + blen pre /\ ld_len ld = rec_size (RAppend (ld_id ld) p).

(* [sm_apply] uses the chunk id and the segment only for the index entry of an Append record *)
Lemma rapply_points s id rs s1 : rapply s id id rs = (s1, None) ->
  forall e, In e (m_log s1) -> In e (m_log s) \/ points id rs (snd e).
Proof.
  apply (rapply_ind (fun done t => forall e, In e (m_log t) -> In e (m_log s) \/ points id done (snd e))).
  - intros e He. left. exact He.
  - intros done r t t1 IH _ Ha e He. pose proof (sm_apply_log t r id (id + rsum done, rec_size r) e) as Hl.
    rewrite Ha in Hl. destruct (Hl He) as [Hi|(lid & p & -> & ->)].
    + destruct (IH e Hi) as [Hj|(Hc & pre & p & post & Hin & E & Ho & Hn)]; [left; exact Hj|right].
      split; [exact Hc|]. exists pre, p, (post ++ enc_record r).
      split; [apply in_or_app; left; exact Hin|]. split; [|split; assumption].
      rewrite encs_app, E, encs_one, <- !app_assoc. reflexivity.
    + right. split; [reflexivity|]. exists (encs done), p, []. cbn [snd fst ld_id ld_off ld_len].
      split; [apply in_or_app; right; left; reflexivity|].
      rewrite encs_app, encs_one, app_nil_r, rsum_blen. auto.
Qed.

Lemma replay_files_points G : forall t0 t, replay_files t0 G = (t, None) ->
  forall e, In e (m_log t) -> In e (m_log t0) \/ exists g, In g G /\ points (fst g) (snd g) (snd e).
Proof.
  induction G as [|g G IH]; intros t0 t H e He.
  - inversion H; subst. left. exact He.
  - apply replay_files_cons_inv in H as (t1 & E & H).
    destruct (IH _ _ H e He) as [Hi|(g' & Hg & Hp)]; [|right; exists g'; split; [right; exact Hg|exact Hp]].
    destruct (rapply_points _ _ _ _ E e Hi) as [Hj|Hj]; [left; exact Hj|].
    right. exists g. split; [left; reflexivity|exact Hj].
Qed.

(* the common part of [JournalChunk.entry_ok] and [RestartCrash.ent_ok] *)
Lemma points_at (F : N -> bytes) id rs ld : F id = encs rs -> Forall wf_record rs -> points id rs ld ->
  wf_pair (ld_id ld) /\ ld_chunk ld = id /\
  exists pre p post, wf_bytes p /\
    F (ld_chunk ld) = pre ++ enc_record (RAppend (ld_id ld) p) ++ post /\
    ld_off ld = ld_chunk ld + blen pre /\ ld_len ld = rec_size (RAppend (ld_id ld) p).
Proof.
  intros HF Hw (Hc & pre & p & post & Hin & E & Ho & Hn).
  rewrite Forall_forall in Hw. destruct (Hw _ Hin) as [Wa Wb].
  split; [exact Wa|]. split; [exact Hc|]. exists pre, p, post. rewrite Hc, HF. auto.
Qed.

(* [Fam]: every suffix of the file list replays without error to a state related by [Sim] *)
Section Family.
Variable cfg' : config.

Definition SimAt (sp : spec) (s : sm) (n b : N) (G : list jfile) : Prop :=
  match G with
  | [] => True
  | g :: _ => exists t, replay_files (sm_new cfg') G = (t, None) /\ Sim (fst g) sp s t /\
                        Budget (m_cache t) n b
  end.

Fixpoint Fam (sp : spec) (s : sm) (n b : N) (G : list jfile) : Prop :=
  match G with
  | [] => True
  | g :: G' => SimAt sp s n b (g :: G') /\ Fam sp s n b G'
  end.

(* The same family for any statement [P G sp t] about the cache of the replay [t] of the suffix [G]:
   the lemmas below never look inside [P]; [Fam] is the instance [Pc] ([Fam_P]). *)
Definition SimAtP (P : list jfile -> spec -> sm -> Prop) (sp : spec) (s : sm) (G : list jfile) : Prop :=
  match G with
  | [] => True
  | g :: _ => exists t, replay_files (sm_new cfg') G = (t, None) /\ rel (fst g) s t /\ P G sp t
  end.

Fixpoint FamP (P : list jfile -> spec -> sm -> Prop) (sp : spec) (s : sm) (G : list jfile) : Prop :=
  match G with
  | [] => True
  | g :: G' => SimAtP P sp s (g :: G') /\ FamP P sp s G'
  end.

Lemma FamP_app_r : forall P G1 G2 sp s, FamP P sp s (G1 ++ G2) -> FamP P sp s G2.
Proof.
  induction G1 as [|g G1 IH]; intros G2 sp s H; [exact H|].
  cbn [app FamP] in H. apply IH. apply H.
Qed.

(* The family looks at the live machine only through its state and index map ([rel]) and is monotone
   in the statement about the replays: a change of the live cache, of [P] or of the reference log that
   [P] tolerates keeps it. *)
Lemma FamP_map : forall (P P' : list jfile -> spec -> sm -> Prop) (sp sp' : spec) (s s' : sm) G,
  m_rs s' = m_rs s -> m_log s' = m_log s -> (forall G t, P G sp t -> P' G sp' t) ->
  FamP P sp s G -> FamP P' sp' s' G.
Proof.
  intros P P' sp sp' s s' G H1 H2 Hf. induction G as [|g G IH]; intros H; [exact I|].
  cbn [FamP] in *. destruct H as [[t [Ha [[Hb Hc] Hd]]] H4]. split; [|apply IH; exact H4].
  exists t. split; [exact Ha|]. split; [split; rewrite ?H1, ?H2; assumption|apply Hf, Hd].
Qed.

(* One more record [r] in the newest file [o]. The replay of every suffix takes it in at chunk [o], which
   is not below the chunk the suffix starts at ([fst g <= o]): so an appended entry passes the filter
   of [rel]. The premise on [RAppend] says the new index is above the index map (an insertion at the
   end); the last premise is the step of [P] on the replay of each suffix [G1 ++ [(o, rs)]]. *)
Lemma FamP_record : forall (P P' : list jfile -> spec -> sm -> Prop) G0 o rs r sp sp' s,
  FamP P sp s (G0 ++ [(o, rs)]) ->
  Forall (fun g => fst g <= o) G0 ->
  rs_validate (m_rs s) r = None ->
  (forall id p, r = RAppend id p -> forall e, In e (m_log s) -> fst e < lid_index id) ->
  (forall G1 lo t, rel lo s t -> lo <= o -> P (G1 ++ [(o, rs)]) sp t ->
     P' (G1 ++ [(o, rs ++ [r])]) sp' (fst (sm_apply t r o (o + rsum rs, rec_size r)))) ->
  FamP P' sp' (fst (sm_apply s r o (o + rsum rs, rec_size r))) (G0 ++ [(o, rs ++ [r])]).
Proof.
  intros P P' G0 o rs r sp sp' s HF Hle HV Hmax Hstep.
  assert (One : forall G1 lo, lo <= o ->
            (exists t, replay_files (sm_new cfg') (G1 ++ [(o, rs)]) = (t, None) /\ rel lo s t /\
                       P (G1 ++ [(o, rs)]) sp t) ->
            exists t, replay_files (sm_new cfg') (G1 ++ [(o, rs ++ [r])]) = (t, None) /\
                      rel lo (fst (sm_apply s r o (o + rsum rs, rec_size r))) t /\
                      P' (G1 ++ [(o, rs ++ [r])]) sp' t).
  { intros G1 lo Hlo (t & H1 & H2 & H3). pose proof H2 as [Ers Elog].
    assert (Hn : snd (sm_apply t r o (o + rsum rs, rec_size r)) = None).
    { rewrite sm_apply_eq. unfold rs_apply. rewrite Ers, HV. reflexivity. }
    exists (fst (sm_apply t r o (o + rsum rs, rec_size r))).
    split; [apply (replay_files_record G1 (sm_new cfg') o rs r t H1 Hn)|].
    split; [|apply (Hstep G1 lo t H2 Hlo H3)].
    apply (rel_step lo s t r o _ Ers Elog). intros id p E. split; [exact Hlo|apply (Hmax id p E)]. }
  revert HF Hle. induction G0 as [|g G0 IH]; intros HF Hle.
  - cbn [app FamP SimAtP fst] in *. split; [|exact I]. apply (One [] o (N.le_refl _)), HF.
  - inversion Hle as [|? ? Hg Hle']; subst. cbn [app FamP] in HF |- *. destruct HF as [HA HF].
    split; [|apply IH; assumption]. apply (One (g :: G0) (fst g) Hg), HA.
Qed.

(* A rotation: a new newest file [off] that holds the snapshot of the current state. Every entry of the
   index map lies in an older chunk, so the suffix made of the new file alone has an empty index map
   (first premise on [P]: that fresh replay); the longer suffixes replay one more file (second). *)
Lemma FamP_rotate : forall (P : list jfile -> spec -> sm -> Prop) G sp s off,
  FamP P sp s G ->
  (forall e, In e (m_log s) -> ld_chunk (snd e) < off) ->
  P [(off, [RState (m_rs s)])] sp (fst (chunk_replay (sm_new cfg') (off, [RState (m_rs s)]))) ->
  (forall g G1 t, rel (fst g) s t -> P (g :: G1) sp t ->
     P ((g :: G1) ++ [(off, [RState (m_rs s)])]) sp (fst (chunk_replay t (off, [RState (m_rs s)])))) ->
  FamP P sp s (G ++ [(off, [RState (m_rs s)])]).
Proof.
  intros P G sp s off HF Hlt Hnew Hold. induction G as [|g G IH].
  - cbn [app FamP SimAtP]. split; [|exact I]. eexists. split; [|split; [|exact Hnew]].
    + cbn [replay_files]. rewrite chunk_replay_head. reflexivity.
    + rewrite chunk_replay_head. cbn [fst]. split; [reflexivity|]. cbn [m_log sm_new].
      symmetry. apply filter_all_false. intros e He. unfold in_chunks. apply N.leb_gt, Hlt, He.
  - cbn [app FamP] in *. destruct HF as [HA HF]. split; [|apply IH; assumption].
    destruct HA as [t [H1 [H2 H3]]]. cbn [SimAtP].
    exists (fst (chunk_replay t (off, [RState (m_rs s)]))). split; [|split; [|apply (Hold g G t H2 H3)]].
    + eapply (replay_files_snoc (g :: G)); [exact H1|]. rewrite chunk_replay_head. reflexivity.
    + rewrite chunk_replay_head. cbn [fst]. destruct H2 as [Ers Elog]. split; [reflexivity|exact Elog].
Qed.

Lemma Fam_P : forall G sp s n b, Fam sp s n b G <-> FamP (fun _ sp t => Pc sp t n b) sp s G.
Proof.
  induction G as [|g G IH]; intros sp s n b; [tauto|]. cbn [Fam FamP]. rewrite IH.
  apply and_iff_compat_r. cbn [SimAt SimAtP]. split; intros (t & H1 & H2); exists t; (split; [exact H1|]);
    apply Sim_rel; tauto.
Qed.

End Family.

(* [Chain]: the head snapshot of a file is the state reached ([rs_run]) at the end of the file before it *)
Definition head_state (rs : list record) : rstate :=
  match rs with RState st :: _ => st | _ => rstate0 end.

Fixpoint Chain (cur : rstate) (G : list jfile) : Prop :=
  match G with
  | [] => True
  | g :: G' =>
    (exists st tl, snd g = RState st :: tl /\
       rs_run st tl = Some (match G' with [] => cur | g' :: _ => head_state (snd g') end)) /\
    Chain cur G'
  end.

Lemma Chain_app : forall X C cur, Chain cur (X ++ C) <->
  Chain (match C with [] => cur | c :: _ => head_state (snd c) end) X /\ Chain cur C.
Proof.
  induction X as [|x X IH]; intros C cur; cbn [app Chain]; [tauto|].
  rewrite IH. destruct X as [|x' X']; cbn [app]; tauto.
Qed.

Lemma Chain_app_r G1 G2 cur : Chain cur (G1 ++ G2) -> Chain cur G2.
Proof. intros H. apply Chain_app in H. apply H. Qed.

Lemma Chain_cur : forall G0 o rs cur, Chain cur (G0 ++ [(o, rs)]) ->
  exists st tl, rs = RState st :: tl /\ rs_run st tl = Some cur.
Proof. intros G0 o rs cur H. apply Chain_app_r in H. apply H. Qed.

Lemma Chain_record : forall G0 o rs r cur cur',
  Chain cur (G0 ++ [(o, rs)]) -> rs_apply cur r = inl cur' ->
  Chain cur' (G0 ++ [(o, rs ++ [r])]).
Proof.
  intros G0 o rs r cur cur' H Ha. destruct (Chain_cur _ _ _ _ H) as (st & tl & -> & E).
  apply Chain_app in H. apply Chain_app. split; [exact (proj1 H)|]. split; [|exact I].
  exists st, (tl ++ [r]). split; [reflexivity|]. rewrite rs_run_app, E. cbn [rs_run]. rewrite Ha. reflexivity.
Qed.

Lemma Chain_rotate : forall G cur off, Chain cur G -> Chain cur (G ++ [(off, [RState cur])]).
Proof.
  intros G cur off H. apply Chain_app. split; [exact H|]. split; [|exact I].
  exists cur, []. split; reflexivity.
Qed.

Lemma Chain_run : forall G cur st0, Chain cur G -> G <> [] -> rs_run st0 (jall G) = Some cur.
Proof.
  induction G as [|g G IH]; intros cur st0 H Hne; [congruence|].
  cbn [Chain] in H. destruct H as [(st & tl & E & Hr) HC].
  change (jall (g :: G)) with (snd g ++ jall G). rewrite E. cbn [app]. change (rs_run st0 (RState st :: tl ++ jall G)) with (rs_run st (tl ++ jall G)).
  rewrite rs_run_app, Hr. destruct G as [|g' G']; [reflexivity|]. apply IH; [exact HC|discriminate].
Qed.

(* an index-map entry stored in file [g] has a log id at most the last log id of the
   snapshot heading the file after [g] *)
Fixpoint GB (lg : logmap) (G : list jfile) : Prop :=
  match G with
  | [] => True
  | g :: G' =>
    match G' with
    | [] => True
    | g' :: _ => forall e, In e lg -> ld_chunk (snd e) = fst g ->
                 opair_cmp (Some (ld_id (snd e))) (r_last (head_state (snd g'))) <> Gt
    end /\ GB lg G'
  end.

Lemma GB_app_r : forall G1 G2 lg, GB lg (G1 ++ G2) -> GB lg G2.
Proof.
  induction G1 as [|g G1 IH]; intros G2 lg H; [exact H|]. cbn [app GB] in H. apply IH. apply H.
Qed.

Lemma GB_incl : forall G lg lg', (forall e, In e lg' -> In e lg) -> GB lg G -> GB lg' G.
Proof.
  induction G as [|g G IH]; intros lg lg' Hi H; [exact I|].
  cbn [GB] in *. destruct H as [H1 H2]. split; [|eapply IH; eassumption].
  destruct G as [|g' G']; [exact I|]. intros e He. apply H1. apply Hi. exact He.
Qed.

Lemma head_state_snoc : forall rs r, rs <> [] -> head_state (rs ++ [r]) = head_state rs.
Proof. intros [|x rs] r H; [congruence|reflexivity]. Qed.

Lemma GB_record : forall G0 o rs r lg lg',
  GB lg (G0 ++ [(o, rs)]) -> rs <> [] ->
  (forall e, In e lg' -> In e lg \/ ld_chunk (snd e) = o) ->
  Forall (fun g => fst g <> o) G0 ->
  GB lg' (G0 ++ [(o, rs ++ [r])]).
Proof.
  induction G0 as [|g G0 IH]; intros o rs r lg lg' H Hne Hlg Hno.
  - cbn [app GB]. split; exact I.
  - inversion Hno as [|? ? Hg Hno']; subst.
    cbn [app GB] in H. destruct H as [H1 H2]. cbn [app GB]. split; [|eapply IH; eassumption].
    destruct G0 as [|g' G0'].
    + cbn [app] in *. cbn [snd] in *. rewrite head_state_snoc by exact Hne.
      intros e He Hc. destruct (Hlg e He) as [He'|He']; [apply H1; assumption|congruence].
    + cbn [app] in *. intros e He Hc.
      destruct (Hlg e He) as [He'|He']; [apply H1; assumption|congruence].
Qed.

Lemma GB_rotate : forall G0 o rs lg off cur,
  GB lg (G0 ++ [(o, rs)]) ->
  (forall e, In e lg -> ld_chunk (snd e) = o ->
     opair_cmp (Some (ld_id (snd e))) (r_last cur) <> Gt) ->
  GB lg ((G0 ++ [(o, rs)]) ++ [(off, [RState cur])]).
Proof.
  induction G0 as [|g G0 IH]; intros o rs lg off cur H Hb.
  - cbn [app GB fst snd head_state]. split; [exact Hb|]. split; exact I.
  - cbn [app GB] in H. destruct H as [H1 H2]. cbn [app GB]. split; [|apply IH; assumption].
    destruct G0 as [|g' G0']; cbn [app] in *; exact H1.
Qed.

(* along the records replayed from state [rs], no state record lowers the last log id
   (the premise under which replaying keeps the cache invariant: CacheRestart.replay_cinv) *)
Fixpoint keeps_last (rs : rstate) (recs : list record) : Prop :=
  match recs with
  | [] => True
  | r :: rest =>
    match r with RState st => opair_leb (r_last rs) (r_last st) = true | _ => True end /\
    match rs_apply rs r with inl rs' => keeps_last rs' rest | inr _ => True end
  end.

Definition keep_rec (cur : rstate) (r : record) : Prop :=
  match r with RState st => opair_leb (r_last cur) (r_last st) = true | _ => True end.

Lemma keeps_last_app : forall a st b,
  keeps_last st a -> (forall st', rs_run st a = Some st' -> keeps_last st' b) ->
  keeps_last st (a ++ b).
Proof.
  induction a as [|r a IH]; intros st b Ha Hb; cbn [app].
  - apply Hb. reflexivity.
  - cbn [keeps_last] in *. destruct Ha as [H1 H2]. split; [exact H1|].
    cbn [rs_run] in Hb. destruct (rs_apply st r) as [st1|e]; [|exact I].
    apply IH; assumption.
Qed.

Definition HK (G : list jfile) : Prop :=
  Forall (fun g => exists st tl, snd g = RState st :: tl /\ keeps_last st tl) G.

Lemma HK_app_r : forall G1 G2, HK (G1 ++ G2) -> HK G2.
Proof. intros G1 G2 H. apply Forall_app in H. apply H. Qed.

Lemma HK_record : forall G0 o rs r cur,
  HK (G0 ++ [(o, rs)]) -> Chain cur (G0 ++ [(o, rs)]) -> keep_rec cur r ->
  HK (G0 ++ [(o, rs ++ [r])]).
Proof.
  intros G0 o rs r cur H HC Hk. unfold HK in *. apply Forall_app in H. destruct H as [H0 Hl].
  apply Forall_app. split; [exact H0|]. constructor; [|constructor].
  inversion Hl as [|? ? (st & tl & E & Hkl) _]; subst. cbn [snd] in *.
  destruct (Chain_cur _ _ _ _ HC) as (st' & tl' & E' & Hrun). rewrite E in E'. inversion E'; subst st' tl'.
  exists st, (tl ++ [r]). split; [rewrite E; reflexivity|].
  apply keeps_last_app; [exact Hkl|]. intros x Hx. rewrite Hrun in Hx. inversion Hx; subst x.
  cbn [keeps_last]. split; [exact Hk|]. destruct (rs_apply cur r); exact I.
Qed.

Lemma HK_rotate : forall G off cur, HK G -> HK (G ++ [(off, [RState cur])]).
Proof.
  intros G off cur H. unfold HK. apply Forall_app. split; [exact H|]. constructor; [|constructor].
  exists cur, []. split; [reflexivity|exact I].
Qed.

Lemma keeps_last_mid : forall a st r b cur,
  keeps_last st (a ++ r :: b) -> rs_run st a = Some cur -> keep_rec cur r.
Proof.
  induction a as [|x a IH]; intros st r b cur H Hr; cbn [app keeps_last rs_run] in *.
  - inversion Hr; subst. apply H.
  - destruct (rs_apply st x) as [st1|e]; [|discriminate Hr]. exact (IH _ _ _ _ (proj2 H) Hr).
Qed.

(* the per-file premises [HK], [Chain] say of the whole record sequence that no snapshot lowers last *)
Lemma HK_keeps : forall G st0 cur, HK G -> Chain cur G ->
  match G with g :: _ => opair_leb (r_last st0) (r_last (head_state (snd g))) = true | [] => True end ->
  keeps_last st0 (jall G).
Proof.
  induction G as [|g G IH]; intros st0 cur HH HC H0; [exact I|].
  inversion HH as [|? ? (st & tl & E & Hk) HH']; subst.
  cbn [Chain] in HC. destruct HC as [(st' & tl' & E' & Hr) HC]. rewrite E in E'. inversion E'; subst st' tl'.
  change (jall (g :: G)) with (snd g ++ jall G). rewrite E in *. cbn [app head_state] in *.
  split; [exact H0|]. change (keeps_last st (tl ++ jall G)).
  apply keeps_last_app; [exact Hk|]. intros x Hx. rewrite Hr in Hx. inversion Hx; subst x.
  apply (IH _ cur HH' HC). destruct G as [|g' G']; [exact I|apply CacheFacts.opair_leb_refl].
Qed.
