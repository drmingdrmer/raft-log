(* The lexicographic order on log ids ([pair_cmp], [opair_cmp] and their boolean versions) and the
   sorted-list toolbox ([SS_app_inv], [SS_app_intro], [SS_app_iff], [SS_filter], [SS_map]). *)
From Coq Require Import List NArith Bool Lia Sorted.
From RaftLog Require Import Model.Types.
Import ListNotations.
Local Open Scope N_scope.

Lemma pair_cmp_spec : forall a b : N * N,
  match pair_cmp a b with
  | Lt => fst a < fst b \/ (fst a = fst b /\ snd a < snd b)
  | Eq => a = b
  | Gt => fst b < fst a \/ (fst a = fst b /\ snd b < snd a)
  end.
Proof.
  intros [a1 a2] [b1 b2]. unfold pair_cmp. cbn [fst snd].
  destruct (N.compare_spec a1 b1) as [H|H|H].
  - destruct (N.compare_spec a2 b2) as [H2|H2|H2].
    + subst. reflexivity.
    + right. split; assumption.
    + right. split; assumption.
  - left. assumption.
  - left. assumption.
Qed.

Lemma pair_cmp_refl : forall a, pair_cmp a a = Eq.
Proof.
  intros [a1 a2]. unfold pair_cmp. cbn [fst snd]. rewrite !N.compare_refl. reflexivity.
Qed.

Lemma pair_cmp_eq : forall a b, pair_cmp a b = Eq -> a = b.
Proof. intros a b H. pose proof (pair_cmp_spec a b) as S. rewrite H in S. exact S. Qed.

Lemma pair_cmp_opp : forall a b, pair_cmp b a = CompOpp (pair_cmp a b).
Proof.
  intros a b. pose proof (pair_cmp_spec a b) as S1. pose proof (pair_cmp_spec b a) as S2.
  destruct (pair_cmp a b), (pair_cmp b a); subst; try reflexivity; exfalso; lia.
Qed.

Lemma pair_cmp_Gt_Lt : forall a b, pair_cmp a b = Gt <-> pair_cmp b a = Lt.
Proof. intros a b. rewrite (pair_cmp_opp a b). destruct (pair_cmp a b); cbn; split; congruence. Qed.

Lemma pair_cmp_lt_trans : forall a b c, pair_cmp a b = Lt -> pair_cmp b c = Lt -> pair_cmp a c = Lt.
Proof.
  intros a b c H1 H2.
  pose proof (pair_cmp_spec a b) as S1. pose proof (pair_cmp_spec b c) as S2.
  pose proof (pair_cmp_spec a c) as S3. rewrite H1 in S1. rewrite H2 in S2.
  destruct (pair_cmp a c); subst; try reflexivity; exfalso; lia.
Qed.

Lemma pair_cmp_le_lt_trans : forall a b c, pair_cmp a b <> Gt -> pair_cmp b c = Lt -> pair_cmp a c = Lt.
Proof.
  intros a b c H1 H2.
  pose proof (pair_cmp_spec a b) as S1. pose proof (pair_cmp_spec b c) as S2.
  pose proof (pair_cmp_spec a c) as S3. rewrite H2 in S2.
  destruct (pair_cmp a b); try congruence; destruct (pair_cmp a c); subst; try reflexivity; exfalso; lia.
Qed.

Lemma pair_cmp_lt_le_trans : forall a b c, pair_cmp a b = Lt -> pair_cmp b c <> Gt -> pair_cmp a c = Lt.
Proof.
  intros a b c H1 H2.
  pose proof (pair_cmp_spec a b) as S1. pose proof (pair_cmp_spec b c) as S2.
  pose proof (pair_cmp_spec a c) as S3. rewrite H1 in S1.
  destruct (pair_cmp b c); try congruence; destruct (pair_cmp a c); subst; try reflexivity; exfalso; lia.
Qed.

Lemma pair_cmp_le_trans : forall a b c, pair_cmp a b <> Gt -> pair_cmp b c <> Gt -> pair_cmp a c <> Gt.
Proof.
  intros a b c H1 H2.
  pose proof (pair_cmp_spec a b) as S1. pose proof (pair_cmp_spec b c) as S2.
  pose proof (pair_cmp_spec a c) as S3.
  destruct (pair_cmp a b); try congruence; destruct (pair_cmp b c); try congruence;
    destruct (pair_cmp a c); subst; try discriminate; exfalso; lia.
Qed.

Lemma pair_eqb_eq : forall a b, pair_eqb a b = true <-> a = b.
Proof.
  intros [a1 a2] [b1 b2]. unfold pair_eqb. cbn [fst snd].
  rewrite andb_true_iff, !N.eqb_eq. split.
  - intros [H1 H2]. subst. reflexivity.
  - intros H. inversion H. split; reflexivity.
Qed.

Lemma pair_eqb_refl : forall a, pair_eqb a a = true.
Proof. intros a. apply pair_eqb_eq. reflexivity. Qed.

Lemma pair_eqb_neq : forall a b, pair_eqb a b = false <-> a <> b.
Proof.
  intros a b. split.
  - intros H E. apply pair_eqb_eq in E. congruence.
  - intros H. destruct (pair_eqb a b) eqn:E; [|reflexivity]. apply pair_eqb_eq in E. contradiction.
Qed.

Lemma pair_cmp_lt_neq : forall a b, pair_cmp a b = Lt -> a <> b.
Proof. intros a b H E. subst. rewrite pair_cmp_refl in H. discriminate. Qed.

Lemma pair_ltb_lt : forall a b, pair_ltb a b = true <-> pair_cmp a b = Lt.
Proof. intros a b. unfold pair_ltb. destruct (pair_cmp a b); split; congruence. Qed.
Lemma pair_ltb_ge : forall a b, pair_ltb a b = false <-> pair_cmp b a <> Gt.
Proof.
  intros a b. unfold pair_ltb. rewrite (pair_cmp_opp a b).
  destruct (pair_cmp a b); cbn; split; congruence.
Qed.
Lemma pair_leb_le : forall a b, pair_leb a b = true <-> pair_cmp a b <> Gt.
Proof. intros a b. unfold pair_leb. destruct (pair_cmp a b); split; congruence. Qed.
Lemma pair_leb_gt : forall a b, pair_leb a b = false <-> pair_cmp b a = Lt.
Proof.
  intros a b. unfold pair_leb. rewrite (pair_cmp_opp a b).
  destruct (pair_cmp a b); cbn; split; congruence.
Qed.

Lemma opair_cmp_refl : forall a, opair_cmp a a = Eq.
Proof. intros [a|]; cbn; [apply pair_cmp_refl|reflexivity]. Qed.

Lemma opair_cmp_Eq_inv : forall a b, opair_cmp a b = Eq -> a = b.
Proof.
  intros [a|] [b|] H; cbn in H; try discriminate; [|reflexivity].
  apply pair_cmp_eq in H. subst. reflexivity.
Qed.

Lemma opair_cmp_opp : forall a b, opair_cmp b a = CompOpp (opair_cmp a b).
Proof. intros [a|] [b|]; cbn; try reflexivity. apply pair_cmp_opp. Qed.

Lemma opair_lt_trans : forall a b c, opair_cmp a b = Lt -> opair_cmp b c = Lt -> opair_cmp a c = Lt.
Proof.
  intros [a|] [b|] [c|] H1 H2; cbn in *; try discriminate; try reflexivity.
  eapply pair_cmp_lt_trans; eassumption.
Qed.
Lemma opair_le_lt_trans : forall a b c, opair_cmp a b <> Gt -> opair_cmp b c = Lt -> opair_cmp a c = Lt.
Proof.
  intros [a|] [b|] [c|] H1 H2; cbn in *; try discriminate; try reflexivity; try congruence.
  eapply pair_cmp_le_lt_trans; eassumption.
Qed.
Lemma opair_lt_le_trans : forall a b c, opair_cmp a b = Lt -> opair_cmp b c <> Gt -> opair_cmp a c = Lt.
Proof.
  intros [a|] [b|] [c|] H1 H2; cbn in *; try discriminate; try reflexivity; try congruence.
  eapply pair_cmp_lt_le_trans; eassumption.
Qed.
Lemma opair_le_trans : forall a b c, opair_cmp a b <> Gt -> opair_cmp b c <> Gt -> opair_cmp a c <> Gt.
Proof.
  intros [a|] [b|] [c|] H1 H2; cbn in *; try discriminate; try congruence.
  eapply pair_cmp_le_trans; eassumption.
Qed.

Lemma opair_lt_le : forall a b, opair_cmp a b = Lt -> opair_cmp a b <> Gt.
Proof. intros a b H. rewrite H. discriminate. Qed.
Lemma opair_eq_le : forall a, opair_cmp a a <> Gt.
Proof. intros a. rewrite opair_cmp_refl. discriminate. Qed.
Lemma opair_lt_not_ge : forall a b, opair_cmp a b = Lt -> opair_cmp b a <> Gt -> False.
Proof. intros a b H1 H2. rewrite (opair_cmp_opp a b), H1 in H2. apply H2. reflexivity. Qed.
Lemma opair_le_antisym : forall a b, opair_cmp a b <> Gt -> opair_cmp b a <> Gt -> a = b.
Proof.
  intros a b H1 H2. rewrite (opair_cmp_opp a b) in H2.
  destruct (opair_cmp a b) eqn:E; try congruence.
  - apply opair_cmp_Eq_inv. exact E.
  - exfalso. apply H2. reflexivity.
Qed.
Lemma opair_le_None : forall a, opair_cmp a None <> Gt -> a = None.
Proof. intros [a|] H; [exfalso; apply H|]; reflexivity. Qed.
Lemma opair_None_le : forall a, opair_cmp None a <> Gt.
Proof. intros [a|]; cbn; discriminate. Qed.

Lemma opair_ltb_lt : forall a b, opair_ltb a b = true <-> opair_cmp a b = Lt.
Proof. intros a b. unfold opair_ltb. destruct (opair_cmp a b); split; congruence. Qed.
Lemma opair_ltb_ge : forall a b, opair_ltb a b = false <-> opair_cmp b a <> Gt.
Proof.
  intros a b. unfold opair_ltb. rewrite (opair_cmp_opp a b).
  destruct (opair_cmp a b); cbn; split; congruence.
Qed.
Lemma opair_leb_le : forall a b, opair_leb a b = true <-> opair_cmp a b <> Gt.
Proof. intros a b. unfold opair_leb. destruct (opair_cmp a b); split; congruence. Qed.
Lemma opair_leb_gt : forall a b, opair_leb a b = false <-> opair_cmp b a = Lt.
Proof.
  intros a b. unfold opair_leb. rewrite (opair_cmp_opp a b).
  destruct (opair_cmp a b); cbn; split; congruence.
Qed.
Lemma opair_leb_negb_ltb : forall a b, opair_leb a b = negb (opair_ltb b a).
Proof.
  intros a b. unfold opair_leb, opair_ltb. rewrite (opair_cmp_opp a b).
  destruct (opair_cmp a b); reflexivity.
Qed.
Lemma opair_ltb_negb_leb : forall a b, opair_ltb a b = negb (opair_leb b a).
Proof. intros a b. rewrite opair_leb_negb_ltb, negb_involutive. reflexivity. Qed.

(* the [min] computed by truncate in RaftLogState::apply *)
Lemma opair_min_le : forall (o l : option (N * N)),
  opair_cmp o l <> Gt -> (if opair_ltb o l then o else l) = o.
Proof.
  intros o l H. destruct (opair_ltb o l) eqn:E; [reflexivity|].
  apply opair_ltb_ge in E. apply opair_le_antisym; assumption.
Qed.

Lemma next_index_Some : forall l, next_index (Some l) = lid_index l + 1.
Proof. reflexivity. Qed.

Section ListFacts.
  Context {A : Type}.

  Lemma filter_all_true : forall (f : A -> bool) l,
    (forall x, In x l -> f x = true) -> filter f l = l.
  Proof.
    intros f l. induction l as [|a l IH]; intros H; cbn; [reflexivity|].
    rewrite (H a (or_introl eq_refl)). f_equal. apply IH. intros x Hx. apply H. right. exact Hx.
  Qed.

  Lemma filter_all_false : forall (f : A -> bool) l,
    (forall x, In x l -> f x = false) -> filter f l = [].
  Proof.
    intros f l. induction l as [|a l IH]; intros H; cbn; [reflexivity|].
    rewrite (H a (or_introl eq_refl)). apply IH. intros x Hx. apply H. right. exact Hx.
  Qed.

  Lemma filter_length_le' : forall (f : A -> bool) l, (length (filter f l) <= length l)%nat.
  Proof.
    intros f l. induction l as [|a l IH]; cbn; [lia|]. destruct (f a); cbn; lia.
  Qed.

  Variable Rel : A -> A -> Prop.

  Lemma SS_app_inv : forall l1 l2, StronglySorted Rel (l1 ++ l2) ->
    StronglySorted Rel l1 /\ StronglySorted Rel l2 /\ (forall a b, In a l1 -> In b l2 -> Rel a b).
  Proof.
    intros l1. induction l1 as [|x l1 IH]; intros l2 H; cbn in *.
    - split; [constructor|]. split; [exact H|]. intros a b [].
    - apply StronglySorted_inv in H. destruct H as [H1 H2].
      destruct (IH _ H1) as [S1 [S2 S3]].
      rewrite Forall_forall in H2.
      split; [|split].
      + constructor; [exact S1|]. apply Forall_forall. intros y Hy. apply H2. apply in_or_app. left. exact Hy.
      + exact S2.
      + intros a b [Ha|Ha] Hb.
        * subst. apply H2. apply in_or_app. right. exact Hb.
        * apply S3; assumption.
  Qed.

  Lemma SS_app_intro : forall l1 l2, StronglySorted Rel l1 -> StronglySorted Rel l2 ->
    (forall a b, In a l1 -> In b l2 -> Rel a b) -> StronglySorted Rel (l1 ++ l2).
  Proof.
    intros l1. induction l1 as [|x l1 IH]; intros l2 S1 S2 S3; cbn; [exact S2|].
    apply StronglySorted_inv in S1. destruct S1 as [S1 F1]. rewrite Forall_forall in F1.
    constructor.
    - apply IH; [exact S1|exact S2|]. intros a b Ha Hb. apply S3; [right; exact Ha|exact Hb].
    - apply Forall_forall. intros y Hy. apply in_app_or in Hy. destruct Hy as [Hy|Hy].
      + apply F1. exact Hy.
      + apply S3; [left; reflexivity|exact Hy].
  Qed.

  Lemma SS_app_iff : forall l1 l2, StronglySorted Rel (l1 ++ l2) <->
    StronglySorted Rel l1 /\ StronglySorted Rel l2 /\ (forall a b, In a l1 -> In b l2 -> Rel a b).
  Proof.
    split; [apply SS_app_inv|]. intros (H1 & H2 & H12). now apply SS_app_intro.
  Qed.

  Lemma SS_drop_mid : forall a m c, StronglySorted Rel (a ++ m ++ c) -> StronglySorted Rel (a ++ c).
  Proof.
    intros a m c. rewrite !SS_app_iff. intros (Ha & (Hm & Hc & Hmc) & Hamc).
    split; [exact Ha|]. split; [exact Hc|]. intros x y Hx Hy. apply Hamc; [exact Hx|].
    apply in_or_app. now right.
  Qed.

  Lemma SS_single : forall x, StronglySorted Rel [x].
  Proof. intros x. constructor; constructor. Qed.

  Lemma SS_filter : forall (f : A -> bool) l, StronglySorted Rel l -> StronglySorted Rel (filter f l).
  Proof.
    intros f l. induction l as [|a l IH]; intros S; cbn; [constructor|].
    apply StronglySorted_inv in S. destruct S as [S F]. rewrite Forall_forall in F.
    destruct (f a).
    - constructor; [apply IH; exact S|]. apply Forall_forall. intros y Hy.
      apply filter_In in Hy. apply F. apply Hy.
    - apply IH. exact S.
  Qed.

  Lemma SS_split_rel : forall l1 x l2, StronglySorted Rel (l1 ++ x :: l2) ->
    (forall a, In a l1 -> Rel a x) /\ (forall b, In b l2 -> Rel x b).
  Proof.
    intros l1 x l2 S. apply SS_app_inv in S. destruct S as [_ [S2 S3]].
    apply StronglySorted_inv in S2. destruct S2 as [_ F]. rewrite Forall_forall in F.
    split.
    - intros a Ha. apply S3; [exact Ha|left; reflexivity].
    - exact F.
  Qed.
End ListFacts.

Lemma SS_map : forall {A B} (f : A -> B) (Rel : B -> B -> Prop) l,
  StronglySorted Rel (map f l) <-> StronglySorted (fun a b => Rel (f a) (f b)) l.
Proof.
  intros A B f Rel l. induction l as [|a l IH]; cbn [map]; [split; constructor|].
  split; intros H; inversion H as [|? ? S F]; subst; (constructor; [apply IH; exact S|]);
    rewrite Forall_forall in *.
  - intros x Hx. apply F, in_map, Hx.
  - intros y Hy. apply in_map_iff in Hy. destruct Hy as (x & <- & Hx). apply F, Hx.
Qed.

Lemma Forall_True {A} (l : list A) : Forall (fun _ => True) l.
Proof. induction l; constructor; auto. Qed.

Lemma fold_left_inv : forall (A B : Type) (P : A -> Prop) (f : A -> B -> A) (l : list B) (a : A),
  (forall a b, P a -> P (f a b)) -> P a -> P (fold_left f l a).
Proof.
  intros A B P f l. induction l as [|b l IH]; intros a Hf Ha; cbn [fold_left].
  - exact Ha.
  - apply IH; [exact Hf|]. apply Hf. exact Ha.
Qed.

Lemma map_filter_rel : forall {A B C : Type} (P : C -> bool) (f : A -> C) (g : B -> C) l l',
  map f l = map g l' ->
  map f (filter (fun x => P (f x)) l) = map g (filter (fun y => P (g y)) l').
Proof.
  intros A B C P f g l. induction l as [|a l IH]; intros [|b l'] H; cbn in *; try discriminate.
  - reflexivity.
  - injection H as H1 H2. rewrite <- H1. destruct (P (f a)); cbn; [f_equal; [exact H1|]|]; apply IH; exact H2.
Qed.

Lemma map_eq_in_l : forall {A B C : Type} (f : A -> C) (g : B -> C) l l' a,
  map f l = map g l' -> In a l -> exists b, In b l' /\ g b = f a.
Proof.
  intros A B C f g l l' a H Ha.
  assert (Hi : In (f a) (map g l')) by (rewrite <- H; apply in_map; exact Ha).
  apply in_map_iff in Hi. destruct Hi as [b [Hb1 Hb2]]. exists b. split; assumption.
Qed.
