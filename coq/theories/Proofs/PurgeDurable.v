(* Property C08, durability part: a chunk file is unlinked only after the journal up to the end
   offset of the flush that requested the removal is durable in the files that remain
   (C08_removed_after_durable), for every interleaving, batching, crash point and injected
   write/sync/unlink failure. The proof carries a byte-accounting invariant [acct] along the stream
   of requests the worker has not processed yet, a layout invariant for the files older than the
   worker's newest file, and the ghost offset [Lw] up to which the worker has written. *)
From Coq Require Import List NArith Lia Sorting.Sorted.
From RaftLog Require Import Model.Codec Model.Core
  Model.Sys Spec.Durable.
From RaftLog Require Import Proofs.AckFacts Proofs.JournalDisk Proofs.JournalChunk
  Proofs.PurgeFacts.
From RaftLog Require Proofs.AckDurable.
Import ListNotations.
Local Open Scope N_scope.
Local Arguments enc_record : simpl never.

Notation blen := JournalChunk.blen.

(* ================================================================== attributes of files by id *)
Definition hl (d : disk) (j : N) : option N :=
  match disk_get j d with Some f => Some (blen (f_data f)) | None => None end.
Definition fsy (d : disk) (j : N) : N :=
  match disk_get j d with Some f => f_synced f | None => 0 end.
Definition fln (d : disk) (j : N) : N :=
  match disk_get j d with Some f => blen (f_data f) | None => 0 end.

Definition upd (h : N -> option N) (id : N) (v : option N) : N -> option N :=
  fun j => if N.eqb j id then v else h j.

Lemma hl_some_in d j l : hl d j = Some l -> In j (ids d).
Proof.
  unfold hl. destruct (disk_get j d) as [f|] eqn:E; [|discriminate]. intros _.
  destruct (in_dec N.eq_dec j (ids d)) as [I|I]; [exact I|]. apply disk_get_None in I. congruence.
Qed.

Lemma hl_in_some d j : In j (ids d) -> exists l, hl d j = Some l.
Proof.
  intros I. apply disk_get_Some_In in I as [f E]. unfold hl. rewrite E. eauto.
Qed.

Lemma hl_fln d j l : hl d j = Some l -> fln d j = l.
Proof. unfold hl, fln. destruct (disk_get j d); intros H; inversion H; reflexivity. Qed.

Fixpoint dur_ids (sy : N -> N) (l : list N) (U : N) : Prop :=
  match l with
  | [] => True
  | i :: r =>
    (i < U -> match r with j :: _ => N.min U j | [] => U end <= i + sy i) /\ dur_ids sy r U
  end.

Lemma dur_ids_mono sy sy' l U : (forall i, In i l -> sy i <= sy' i) -> dur_ids sy l U -> dur_ids sy' l U.
Proof.
  induction l as [|i r IH]; intros He H; [exact I|]. cbn [dur_ids] in *. destruct H as [H1 H2]. split.
  - intros Hlt. specialize (H1 Hlt). specialize (He i (or_introl eq_refl)). lia.
  - apply IH; [|exact H2]. intros j Hj. apply He. right. exact Hj.
Qed.

Lemma dur_ids_le sy l U U' : U' <= U -> dur_ids sy l U -> dur_ids sy l U'.
Proof.
  intros Hle. induction l as [|i r IH]; intros H; [exact I|]. cbn [dur_ids] in *. destruct H as [H1 H2].
  split; [|apply IH; exact H2]. intros Hlt. assert (Hi : i < U) by lia. specialize (H1 Hi).
  destruct r as [|j r']; lia.
Qed.

Lemma dur_ids_snoc sy l id U : U <= id -> dur_ids sy l U -> dur_ids sy (l ++ [id]) U.
Proof.
  intros Hle. induction l as [|i r IH]; intros H; cbn [app dur_ids] in *.
  - split; [lia|exact I].
  - destruct H as [H1 H2]. split; [|apply IH; exact H2].
    intros Hlt. specialize (H1 Hlt). destruct r as [|j r']; cbn [app]; lia.
Qed.

Lemma dur_ids_tail sy i r U : dur_ids sy (i :: r) U -> dur_ids sy r U.
Proof. cbn [dur_ids]. tauto. Qed.

Lemma fsy_cons_other f d j : j <> f_id f -> fsy (f :: d) j = fsy d j.
Proof. intros H. unfold fsy. cbn [disk_get]. destruct (N.eqb_spec j (f_id f)); [contradiction|reflexivity]. Qed.

Lemma durable_upto_ids d U : dsorted d -> (durable_upto d U <-> dur_ids (fsy d) (ids d) U).
Proof.
  unfold dsorted, ids. induction d as [|f r IH]; intros S; [split; intros; exact I|].
  cbn [map] in S. apply ss_inv in S as [S1 S2].
  cbn [durable_upto map dur_ids].
  assert (Ef : fsy (f :: r) (f_id f) = f_synced f).
  { unfold fsy. cbn [disk_get]. rewrite N.eqb_refl. reflexivity. }
  assert (Er : forall U', dur_ids (fsy (f :: r)) (map f_id r) U' <-> dur_ids (fsy r) (map f_id r) U').
  { intros U'. rewrite Forall_forall in S2.
    split; apply dur_ids_mono; intros i Hi; rewrite fsy_cons_other; try lia;
      specialize (S2 _ Hi); lia. }
  rewrite Ef, Er, <- (IH S1). destruct r as [|g r']; cbn [map]; tauto.
Qed.

(* layout of the files older than the worker's newest file [n]: each is either durable up to
   the start of its successor, or complete and still tracked by the worker *)
Fixpoint old_ids (sy ln : N -> N) (T : list N) (n : N) (l : list N) : Prop :=
  match l with
  | [] => True
  | i :: r =>
    match r with
    | j :: _ => j <= n -> i < n -> (j <= i + sy i \/ (i + ln i = j /\ In i T))
    | [] => True
    end /\ old_ids sy ln T n r
  end.

Lemma old_ids_ext sy ln sy' ln' T T' n l :
  (forall i, In i l -> i < n -> sy i <= sy' i) ->
  (forall i, In i l -> i < n -> In i T -> (In i T' /\ ln' i = ln i) \/ ln i <= sy' i) ->
  old_ids sy ln T n l -> old_ids sy' ln' T' n l.
Proof.
  induction l as [|i r IH]; intros H1 H2 H; [exact I|]. cbn [old_ids] in *. destruct H as [Ha Hb]. split.
  - destruct r as [|j r']; [exact I|]. intros Hj Hi. specialize (Ha Hj Hi).
    specialize (H1 i (or_introl eq_refl) Hi).
    destruct Ha as [Ha|[Ha Ht]]; [left; lia|].
    destruct (H2 i (or_introl eq_refl) Hi Ht) as [[Ht' El]|Hs]; [right; split; [lia|exact Ht']|left; lia].
  - apply IH; [| |exact Hb].
    + intros k Hk. apply H1. right. exact Hk.
    + intros k Hk. apply H2. right. exact Hk.
Qed.

Lemma old_ids_tail sy ln T n i r : old_ids sy ln T n (i :: r) -> old_ids sy ln T n r.
Proof. cbn [old_ids]. tauto. Qed.

Lemma old_ids_snoc sy ln T n l id : n < id -> old_ids sy ln T n l -> old_ids sy ln T n (l ++ [id]).
Proof.
  intros Hlt. induction l as [|i r IH]; intros H; cbn [app old_ids] in *; [tauto|].
  destruct H as [Ha Hb]. split; [|apply IH; exact Hb].
  destruct r as [|j r']; cbn [app]; [intros; lia|exact Ha].
Qed.

(* the newest file changes from n to off: the only new pair is (n, off) *)
Lemma old_ids_append sy ln T n off l :
  StronglySorted N.lt l -> (In n l \/ Forall (fun j => n < j) l) ->
  (forall j, In j l -> n < j -> j < off -> False) ->
  n + ln n = off -> In n T ->
  old_ids sy ln T n l -> old_ids sy ln (T ++ [off]) off l.
Proof.
  intros S Hn Hgap Hc Ht. induction l as [|i r IH]; intros H; [exact I|].
  cbn [old_ids] in *. destruct H as [Ha Hb]. apply ss_inv in S as [S1 S2].
  rewrite Forall_forall in S2. split.
  - destruct r as [|j r']; [exact I|]. intros Hj Hi.
    pose proof (S2 j (or_introl eq_refl)) as Hij.
    destruct (N.le_gt_cases j n) as [Hjn|Hjn].
    + assert (Hin : i < n) by lia. destruct (Ha Hjn Hin) as [G|[G1 G2]]; [left; exact G|right].
      split; [exact G1|apply in_or_app; left; exact G2].
    + assert (Ej : j = off).
      { destruct (N.lt_trichotomy j off) as [L|[E|L]]; [|exact E|lia].
        exfalso. apply (Hgap j); [right; left; reflexivity|lia|exact L]. }
      assert (Ei : i = n).
      { destruct Hn as [[E|[E|Hn]]|Hn].
        - exact E.
        - lia.
        - apply ss_inv in S1 as [_ S3]. rewrite Forall_forall in S3. specialize (S3 _ Hn). lia.
        - exfalso. inversion Hn as [|? ? Hni _]; subst. apply (Hgap i); [left; reflexivity|exact Hni|exact Hi]. }
      subst i j. right. split; [exact Hc|apply in_or_app; left; exact Ht].
  - apply IH; try assumption.
    + destruct Hn as [[E|Hn]|Hn].
      * subst i. right. rewrite Forall_forall. exact S2.
      * left. exact Hn.
      * right. inversion Hn; assumption.
    + intros k Hk. apply Hgap. right. exact Hk.
Qed.

(* When the newest file [n] is the only one tracked ([T = [n]], after the loop over the older files), no older
   file is "complete and still tracked": each is durable up to its successor. With [n] synced up to [c >= Lw]
   and the later files starting at or after [c], the journal is durable up to [Lw]. *)
Lemma dur_ids_establish sy ln n c Lw l :
  StronglySorted N.lt l -> (In n l \/ Forall (fun j => n < j) l) ->
  old_ids sy ln [n] n l ->
  (forall j, In j l -> n < j -> c <= j) -> Lw <= c -> c <= n + sy n ->
  dur_ids sy l Lw.
Proof.
  intros S Hn Ho Hfut Hlw Hc. induction l as [|i r IH]; [exact I|].
  cbn [old_ids dur_ids] in *. destruct Ho as [Ha Hb]. apply ss_inv in S as [S1 S2].
  rewrite Forall_forall in S2. split.
  - intros Hi. destruct (N.lt_trichotomy i n) as [L|[E|L]].
    + (* older file: n is further right, so there is a successor j <= n *)
      destruct r as [|j r'].
      { exfalso. destruct Hn as [[E|[]]|Hn]; [lia|]. inversion Hn; lia. }
      pose proof (S2 j (or_introl eq_refl)) as Hij.
      assert (Hjn : j <= n).
      { destruct Hn as [[E|[E|Hn]]|Hn]; [lia|lia| |inversion Hn; lia].
        apply ss_inv in S1 as [_ S3]. rewrite Forall_forall in S3. specialize (S3 _ Hn). lia. }
      destruct (Ha Hjn L) as [G|[_ [G|[]]]]; lia.
    + subst i. destruct r as [|j r']; lia.
    + specialize (Hfut i (or_introl eq_refl) L). lia.
  - apply IH; try assumption.
    + destruct Hn as [[E|Hn]|Hn].
      * subst i. right. rewrite Forall_forall. exact S2.
      * left. exact Hn.
      * right. inversion Hn; assumption.
    + intros k Hk. apply Hfut. right. exact Hk.
Qed.

(* ================================================================== byte accounting along the request stream *)
(* a removal request may be carried out once the worker has written up to [lw]:
   every flush that asked for one of its files ended at or below [lw] *)
Definition rm_ok (G : list (list N * N)) (ids : list N) (lw : N) : Prop :=
  forall l U id, In (l, U) G -> In id l -> In id ids -> U <= lw.

(* What holds at the end of the stream is a parameter of the walk, because the stream is worker ++ queue ++ todo:
   [acct (s1 ++ s2) K] is [acct s1 (acct s2 K)] ([acct_app]), so a call extends the continuation ([chain_acct]),
   and a creation or head write, carried out ahead of the requests already sent, changes only the file lengths
   with which the continuation of those requests is entered ([acct_sends_upd]). *)
Definition kont := (N -> option N) -> N -> N -> N -> Prop.

(* [h]: length of each existing file; [n]: the worker's newest file; [c]: global offset
   of the end of that file; [lw]: end offset of the last write request *)
Fixpoint acct (G : list (list N * N)) (s : list xeff) (K : kont)
         (h : N -> option N) (n c lw : N) : Prop :=
  match s with
  | [] => K h n c lw
  | XCreate id :: s' => c <= id /\ n < id /\ acct G s' K (upd h id (Some 0)) n c lw
  | XWriteHead id data :: s' =>
    c <= id /\ n < id /\ exists l, h id = Some l /\ acct G s' K (upd h id (Some (l + blen data))) n c lw
  | XSend (WWrite u data _) :: s' => c + blen data = u /\ acct G s' K h n u u
  | XSend (WAppendFile off _) :: s' =>
    c = off /\ n < off /\ (forall j, n < j -> j < off -> h j = None) /\
    exists l, h off = Some l /\ 0 < l /\ acct G s' K h off (off + l) lw
  | XSend (WRemove ids) :: s' =>
    rm_ok G ids lw /\ Forall (fun i => i < n) ids /\ acct G s' K h n c lw
  end.

Lemma acct_app G s1 : forall s2 K h n c lw,
  acct G (s1 ++ s2) K h n c lw <-> acct G s1 (acct G s2 K) h n c lw.
Proof.
  induction s1 as [|x s1 IH]; intros s2 K h n c lw; cbn [app]; [reflexivity|].
  destruct x as [id|id data|[u data cb|off prev|ids]]; cbn [acct].
  - rewrite IH. reflexivity.
  - split; intros (H1 & H2 & l & H3 & H4); (split; [exact H1|split; [exact H2|exists l; split; [exact H3|]]]);
      apply IH; exact H4.
  - rewrite IH. reflexivity.
  - split; intros (H1 & H2 & H3 & l & H4 & H5 & H6);
      (split; [exact H1|split; [exact H2|split; [exact H3|exists l; split; [exact H4|split; [exact H5|]]]]]);
      apply IH; exact H6.
  - rewrite IH. reflexivity.
Qed.

Definition kext (K : kont) : Prop :=
  forall h h' n c lw, (forall j, n < j -> h j = h' j) -> K h n c lw -> K h' n c lw.

Lemma upd_agree (h h' : N -> option N) n id v :
  (forall j, n < j -> h j = h' j) -> forall j, n < j -> upd h id v j = upd h' id v j.
Proof. intros H j Hj. unfold upd. destruct (N.eqb (j) id); [reflexivity|apply H; exact Hj]. Qed.

Lemma acct_mono G G' s : forall K K' : kont,
  (forall ids lw, incl ids (todo_rm s) -> rm_ok G ids lw -> rm_ok G' ids lw) ->
  (forall h h' n c lw, (forall j, n < j -> h j = h' j) -> K h n c lw -> K' h' n c lw) ->
  forall h h' n c lw, (forall j, n < j -> h j = h' j) -> acct G s K h n c lw -> acct G' s K' h' n c lw.
Proof.
  induction s as [|x s IH]; intros K K' HG HK h h' n c lw He H; cbn [acct] in *; [eapply HK; eassumption|].
  assert (HG' : forall ids lw, incl ids (todo_rm s) -> rm_ok G ids lw -> rm_ok G' ids lw).
  { intros ids0 lw0 Hi. apply HG. intros a Ha. unfold todo_rm. cbn [flat_map]. apply in_or_app. right. apply Hi. exact Ha. }
  specialize (IH K K' HG' HK).
  destruct x as [id|id data|[u data cb|off prev|ids]].
  - destruct H as (H1 & H2 & H3). split; [exact H1|split; [exact H2|]].
    eapply IH; [|exact H3]. apply upd_agree. exact He.
  - destruct H as (H1 & H2 & l & H3 & H4). split; [exact H1|split; [exact H2|exists l]].
    split; [rewrite <- He by exact H2; exact H3|].
    eapply IH; [|exact H4]. apply upd_agree. exact He.
  - destruct H as (H1 & H2). split; [exact H1|]. eapply IH; eassumption.
  - destruct H as (H1 & H2 & H3 & l & H4 & H5 & H6).
    split; [exact H1|split; [exact H2|split]].
    + intros j Hj1 Hj2. rewrite <- He by exact Hj1. apply H3; assumption.
    + exists l. split; [rewrite <- He by exact H2; exact H4|split; [exact H5|]].
      eapply IH; [|exact H6]. intros j Hj. apply He. lia.
  - destruct H as (H1 & H2 & H3). split; [|split; [exact H2|eapply IH; eassumption]].
    apply HG; [|exact H1]. intros a Ha. unfold todo_rm. cbn [flat_map xrm_of rm_of]. apply in_or_app. left. exact Ha.
Qed.

Lemma acct_ext G s K : kext K -> forall h h' n c lw,
  (forall j, n < j -> h j = h' j) -> acct G s K h n c lw -> acct G s K h' n c lw.
Proof. intros HK. apply acct_mono; [auto|exact HK]. Qed.

Lemma acct_sends_end G rs : forall (K : kont) h n c lw,
  acct G (map XSend rs) K h n c lw -> exists n' c' lw', K h n' c' lw' /\ c <= c' /\ n <= n'.
Proof.
  induction rs as [|r rs IH]; intros K h n c lw H; cbn [map acct] in H.
  - exists n, c, lw. split; [exact H|lia].
  - destruct r as [u data cb|off prev|ids].
    + destruct H as (H1 & H2). apply IH in H2 as (n' & c' & lw' & Hk & Hc & Hn).
      exists n', c', lw'. split; [exact Hk|lia].
    + destruct H as (H1 & H2 & H3 & l & H4 & H5 & H6). apply IH in H6 as (n' & c' & lw' & Hk & Hc & Hn).
      exists n', c', lw'. split; [exact Hk|lia].
    + destruct H as (H1 & H2 & H3). apply IH in H3 as (n' & c' & lw' & Hk & Hc & Hn).
      exists n', c', lw'. split; [exact Hk|lia].
Qed.

Lemma acct_sends_upd G rs (K K' : kont) id v h :
  (forall n c lw, K h n c lw -> c <= id /\ n < id /\ K' (upd h id v) n c lw) ->
  forall n c lw, acct G (map XSend rs) K h n c lw -> acct G (map XSend rs) K' (upd h id v) n c lw.
Proof.
  intros HK. induction rs as [|r rs IH]; intros n c lw H; cbn [map acct] in *.
  - apply HK. exact H.
  - destruct r as [u data cb|off prev|ids].
    + destruct H as (H1 & H2). split; [exact H1|]. apply IH. exact H2.
    + destruct H as (H1 & H2 & H3 & l & H4 & H5 & H6).
      destruct (acct_sends_end _ _ _ _ _ _ _ H6) as (n' & c' & lw' & Hk & Hc & Hn).
      destruct (HK _ _ _ Hk) as (Hk1 & Hk2 & _).
      assert (Hid : off < id) by lia.
      split; [exact H1|split; [exact H2|split]].
      * intros j Hj1 Hj2. unfold upd. destruct (N.eqb_spec j id) as [E|E]; [lia|]. apply H3; assumption.
      * exists l. split; [|split; [exact H5|apply IH; exact H6]].
        unfold upd. destruct (N.eqb_spec off id) as [E|E]; [lia|exact H4].
    + destruct H as (H1 & H2 & H3). split; [exact H1|split; [exact H2|]]. apply IH. exact H3.
Qed.

Section Fin.
Variables (oid E pend : N).
(* at the end of the stream the worker's newest file is the open chunk, what is still
   buffered by the caller fills it up to the journal end, and no file lies beyond it *)
Definition kfin : kont := fun h n c lw =>
  n = oid /\ c + pend = E /\ forall j, n < j -> h j = None.

Lemma kfin_ext : kext kfin.
Proof.
  intros h h' n c lw He (H1 & H2 & H3). split; [exact H1|split; [exact H2|]].
  intros j Hj. rewrite <- He by exact Hj. apply H3. exact Hj.
Qed.

Lemma acct_kfin G s : forall h n c lw, acct G s kfin h n c lw ->
  c <= E /\ Forall (fun x => c <= x) (todo_cr s) /\ forall j, h j <> None -> n < j -> c <= j.
Proof.
  induction s as [|x s IH]; intros h n c lw H; cbn [acct] in H.
  - destruct H as (_ & H & Hf). split; [lia|]. split; [constructor|].
    intros j Hj Hn. elim Hj. apply Hf, Hn.
  - unfold todo_cr. cbn [flat_map]. fold (todo_cr s).
    destruct x as [id|id data|[u data cb|off prev|ids]]; cbn [xcr_of app].
    + destruct H as (H1 & H2 & H3). apply IH in H3 as (B1 & B2 & B3).
      split; [exact B1|]. split; [constructor; assumption|]. intros j Hj Hn.
      destruct (N.eq_dec j id) as [->|Ej]; [exact H1|]. apply B3; [|exact Hn].
      unfold upd. destruct (N.eqb_spec j id); [contradiction|exact Hj].
    + destruct H as (H1 & H2 & l & H3 & H4). apply IH in H4 as (B1 & B2 & B3).
      split; [exact B1|]. split; [exact B2|]. intros j Hj Hn.
      destruct (N.eq_dec j id) as [->|Ej]; [exact H1|]. apply B3; [|exact Hn].
      unfold upd. destruct (N.eqb_spec j id); [contradiction|exact Hj].
    + destruct H as (H1 & H2). apply IH in H2 as (B1 & B2 & B3). split; [lia|]. split.
      * eapply Forall_impl; [|exact B2]. cbn beta. intros a Ha. lia.
      * intros j Hj Hn. specialize (B3 j Hj Hn). lia.
    + destruct H as (H1 & H2 & H3 & l & H4 & H5 & H6). apply IH in H6 as (B1 & B2 & B3). split; [lia|]. split.
      * eapply Forall_impl; [|exact B2]. cbn beta. intros a Ha. lia.
      * intros j Hj Hn. destruct (N.lt_trichotomy j off) as [L|[Eo|L]]; [|lia|specialize (B3 j Hj L); lia].
        elim Hj. apply H3; assumption.
    + destruct H as (H1 & H2 & H3). eapply IH, H3.
Qed.
End Fin.

(* ================================================================== the caller side of the accounting *)
Definition kfin_of (k : core) : kont :=
  kfin (ck_id (k_open k)) (ck_end (k_open k)) (blen (k_pending k)).

Definition open_pos (k : core) : Prop := ck_id (k_open k) < ck_end (k_open k).

Lemma res_acct G k k' effs : aa_res k k' effs -> open_pos k ->
  forall h n c lw, kfin_of k h n c lw -> acct G (xeffs effs) (kfin_of k') h n c lw.
Proof.
  intros H Hp. unfold open_pos, kfin_of in *. destruct H as [|k' data Hd Ho Hpe _ _ _|k' data head prev st Hd Hh Ho Hpe _ _ _].
  - intros h n c lw Hk. exact Hk.
  - rewrite Ho, Hpe. rewrite JournalChunk.ck_id_push, JournalChunk.ck_end_push, blen_app.
    fold (blen data). intros h n c lw (H1 & H2 & H3). cbn [xeffs flat_map acct]. split; [exact H1|split; [lia|exact H3]].
  - rewrite Ho, Hpe. rewrite JournalChunk.ck_id_push, JournalChunk.ck_end_push. cbn [ck_id].
    replace (ck_end (mkChunk (ck_end (k_open k) + N.of_nat (length data)) []))
      with (ck_end (k_open k) + N.of_nat (length data)) by reflexivity.
    fold (blen data). fold (blen head).
    pose proof (AckDurable.blen_pos _ Hh : 0 < blen head) as Hhp.
    intros h n c lw (H1 & H2 & H3).
    set (off := ck_end (k_open k) + blen data).
    cbn [xeffs flat_map expand_eff app acct].
    split; [lia|]. split; [lia|]. split; [lia|]. split; [lia|].
    exists 0. split; [unfold upd; rewrite N.eqb_refl; reflexivity|].
    split; [rewrite blen_app; lia|].
    split; [reflexivity|]. split; [lia|]. split.
    { intros j Hj1 Hj2. unfold upd. destruct (N.eqb_spec j off) as [Ej|Ej]; [lia|]. apply H3. exact Hj1. }
    exists (0 + blen head). split; [unfold upd; rewrite N.eqb_refl; reflexivity|].
    split; [lia|]. unfold kfin. split; [reflexivity|]. split; [change (blen []) with 0; lia|].
    intros j Hj. unfold upd. destruct (N.eqb_spec j off) as [Ej|Ej]; [lia|]. apply H3. lia.
Qed.

Lemma chain_acct G k k' effs : aa_chain k k' effs -> open_pos k ->
  forall h n c lw, kfin_of k h n c lw -> acct G (xeffs effs) (kfin_of k') h n c lw.
Proof.
  induction 1 as [k|k k1 k2 e1 e2 Hr Hc IH]; intros Hp h n c lw Hk; [exact Hk|].
  rewrite xeffs_app. apply acct_app.
  eapply acct_mono; [intros ? ? _ Hr'; exact Hr'| |reflexivity|apply (res_acct G _ _ _ Hr Hp), Hk].
  intros h0 h1 n0 c0 lw0 He Hk0. apply IH; [apply (AckDurable.aa_res_open _ _ _ Hr Hp)|]. eapply kfin_ext; eassumption.
Qed.

Lemma post_purge_kfin k1 k' : post_purge k1 k' -> kfin_of k' = kfin_of k1.
Proof. intros (Ho & Hp & _). unfold kfin_of. rewrite Ho, Hp. reflexivity. Qed.

(* ================================================================== the request stream of a state *)
(* [nf_list (b_nf b)], [batch_stream b], [w_stream], [stream] and [unlink_rem] are, by conversion,
   [AckDurable.nf_list b], [AckDurable.stream_at (b_pos b) b], [AckDurable.stream_batch], [AckDurable.stream]
   and [AckDurable.unl]: [DInv] is stated in a vocabulary of its own, and AckDurable's lemmas about these
   apply as they stand ([ainv_zrecv]). *)
Definition nf_list (o : option wreq) : list wreq := match o with Some r => [r] | None => [] end.
Definition batch_stream (b : batch) : list wreq :=
  match b_pos b with
  | BWrite i => map req_of_ww (skipn i (b_writes b)) ++ nf_list (b_nf b)
  | BUnlink _ | BDone => []
  | _ => nf_list (b_nf b)
  end.
Definition w_stream (w : worker) : list wreq :=
  match w_batch w with Some b => batch_stream b | None => [] end.
Definition stream (z : sys2) : list xeff := map XSend (w_stream (z_w z) ++ z_queue z) ++ z_todo z.

Definition unlink_rem (w : worker) : list N :=
  match w_batch w with
  | Some b => match b_pos b with BUnlink rem => rem | _ => [] end
  | None => []
  end.
(* removals that will be carried out without a further write *)
Definition accepted (w : worker) : list N := w_postponed w ++ unlink_rem w.

Definition zG (z : sys2) := g_removals (z_ghost z).

Record ainv (z : sys2) (Lw : N) (nf : wfile) (ln : N) : Prop := mkAinv {
  a_newest : newest (z_w z) = Some nf;
  a_len : hl (z_disk z) (wf_id nf) = Some ln;
  a_pos : 0 < ln;
  a_acct : acct (zG z) (stream z) (kfin_of (z_core z)) (hl (z_disk z)) (wf_id nf) (wf_id nf + ln) Lw;
  a_lw : Lw <= wf_id nf + ln;
  a_lt : Forall (fun i => i < wf_id nf) (accepted (z_w z));
  a_acc : rm_ok (zG z) (accepted (z_w z)) Lw }.
Definition AInv (z : sys2) (Lw : N) : Prop := exists nf ln, ainv z Lw nf ln.

Lemma todo_rm_sends rs : todo_rm (map XSend rs) = queue_rm rs.
Proof. unfold todo_rm, queue_rm. induction rs as [|r rs IH]; [reflexivity|]. cbn [map flat_map xrm_of]. rewrite IH. reflexivity. Qed.

Lemma queue_rm_writes l : queue_rm (map req_of_ww l) = [].
Proof. unfold queue_rm. induction l as [|w l IH]; [reflexivity|]. cbn [map flat_map req_of_ww rm_of app]. exact IH. Qed.

Lemma queue_rm_nf o : queue_rm (nf_list o) = match o with Some r => rm_of r | None => [] end.
Proof. destruct o; [|reflexivity]. unfold queue_rm. cbn. apply app_nil_r. Qed.

Lemma w_stream_rm w : incl (queue_rm (w_stream w)) (w_rm w).
Proof.
  unfold w_stream, w_rm. destruct (w_batch w) as [b|]; [|intros a []].
  unfold batch_stream, batch_rm. intros a Ha. apply in_or_app. right.
  destruct (b_pos b); try (rewrite queue_rm_nf in Ha; exact Ha); try contradiction.
  rewrite queue_rm_app, queue_rm_writes, queue_rm_nf in Ha. exact Ha.
Qed.

Lemma accepted_rm w : incl (accepted w) (w_rm w).
Proof.
  unfold accepted, unlink_rem, w_rm. intros a Ha. apply in_app_or in Ha as [Ha|Ha]; apply in_or_app; [left; exact Ha|right].
  destruct (w_batch w) as [b|]; [|contradiction]. unfold batch_rm. destruct (b_pos b); try contradiction. exact Ha.
Qed.

Lemma cinv_disj z gone rmw keep id : cinv z gone rmw keep -> In id (k_removed (z_core z)) ->
  In id gone \/ In id (rmw ++ queue_rm (z_queue z) ++ todo_rm (z_todo z)) -> False.
Proof.
  intros Hc Hk Hd. pose proof (ci_sorted _ _ _ _ Hc) as S. rewrite (ci_present _ _ _ _ Hc) in S.
  apply ss_NoDup in S.
  set (A := rmw ++ queue_rm (z_queue z) ++ todo_rm (z_todo z)) in *.
  replace (gone ++ (rmw ++ queue_rm (z_queue z) ++ todo_rm (z_todo z) ++ k_removed (z_core z) ++ keep) ++ todo_cr (z_todo z))
    with ((gone ++ A) ++ k_removed (z_core z) ++ keep ++ todo_cr (z_todo z)) in S
    by (unfold A; rewrite <- !app_assoc; reflexivity).
  eapply nodup_app_disj; [exact S| |apply in_or_app; left; exact Hk].
  apply in_or_app. exact Hd.
Qed.

Lemma cinv_removed_lt z gone rmw keep id : cinv z gone rmw keep -> In id (k_removed (z_core z)) ->
  id < ck_id (k_open (z_core z)).
Proof.
  intros Hc Hk. pose proof (ci_sorted _ _ _ _ Hc) as S. rewrite (ci_present _ _ _ _ Hc) in S.
  rewrite <- !app_assoc in S. do 4 apply ss_suffix in S. rewrite (ci_keep _ _ _ _ Hc) in S.
  apply ss_app_inv in S as (_ & _ & S). apply S; [exact Hk|]. unfold tail_ids. apply in_or_app. right. left. reflexivity.
Qed.

Lemma ainv_zcall z o z' v Lw : Inv z -> w_alive (z_w z) = true -> AInv z Lw ->
  zcall z o = Some (z', v) -> AInv z' Lw.
Proof.
  intros (gone & rmw & keep & Hc) Hal Hz H. pose proof Hz as (nf & ln & [A1 A2 A3 A4 A5 A6 A7]).
  apply zcall_inv in H as (Et & _ & H).
  unfold stream in A4. rewrite Et, app_nil_r in A4.
  pose proof (ci_core _ _ _ _ Hc) as [Hop _].
  assert (Hsame : forall k', core_eqj (z_core z) k' -> AInv (set_core z k') Lw).
  { intros k' (_ & Eo & Ep & _). exists nf, ln. constructor; zproj; try assumption.
    unfold stream, kfin_of. zproj. rewrite Et, app_nil_r, Eo, Ep. exact A4. }
  destruct H as [w k r effs Ew|cb k effs Ef|from to k items Er| |o r _].
  - apply do_write_chain in Ew as (k1 & Hch & Hpp).
    pose proof (chain_acct (zG z) _ _ _ Hch Hop) as Hacc.
    exists nf, ln. constructor; zproj; try assumption.
    unfold stream, zG. zproj. fold (xeffs effs). rewrite (post_purge_kfin _ _ Hpp).
    apply acct_app. eapply acct_mono; [intros ? ? _ Hr'; exact Hr'| |reflexivity|exact A4].
    intros h0 h n c lw He Hk. apply Hacc. eapply kfin_ext; eassumption.
  - rewrite do_flush_eq in Ef. injection Ef as <- <-.
    set (kr := k_removed (z_core z)) in *.
    set (E := ck_end (k_open (z_core z))).
    set (G' := match kr with [] => zG z | a :: l => zG z ++ [(a :: l, E)] end).
    assert (HG : forall ids lw, (forall id, In id ids -> In id kr -> False) -> rm_ok (zG z) ids lw -> rm_ok G' ids lw).
    { intros ids lw Hd Hr. unfold G'. destruct kr as [|a rl] eqn:Ekr; [exact Hr|].
      intros l U id Hin Hl Hi. apply in_app_or in Hin as [Hin|[Hin|[]]]; [eapply Hr; eassumption|].
      inversion Hin; subst l U. exfalso. eapply Hd; eassumption. }
    assert (Hrmw : rmw = w_rm (z_w z)) by (apply (ci_alive _ _ _ _ Hc); exact Hal).
    exists nf, ln. constructor; unfold flush_ghost; zproj; try assumption.
    + unfold stream, zG. zproj. fold kr. fold G'. apply acct_app.
      eapply acct_mono; [| |reflexivity|exact A4].
      * intros ids lw Hi. apply HG. intros id Hid Hk. eapply cinv_disj; [exact Hc|exact Hk|]. right.
        specialize (Hi _ Hid). rewrite todo_rm_sends, queue_rm_app in Hi.
        apply in_app_or in Hi as [Hi|Hi]; [apply w_stream_rm in Hi; rewrite Hrmw|]; revert Hi; in_app.
      * intros h0 h n c lw He Hk0. unfold kfin_of in Hk0. apply (kfin_ext _ _ _ _ _ _ _ _ He) in Hk0 as (K1 & K2 & K3).
        unfold kfin_of in *. zproj. cbn [k_open k_pending].
        fold E in K2 |- *.
        assert (Hfin : kfin (ck_id (k_open (z_core z))) E (blen []) h n E E).
        { split; [exact K1|split; [change (blen []) with 0; lia|exact K3]]. }
        destruct kr as [|a rl] eqn:Ekr; cbn [flat_map expand_eff app acct].
        -- split; [exact K2|exact Hfin].
        -- split; [exact K2|]. split; [|split; [|exact Hfin]].
           ++ intros l U id Hin Hl Hi. unfold G' in Hin. apply in_app_or in Hin as [Hin|[Hin|[]]].
              ** exfalso. eapply cinv_disj; [exact Hc|fold kr; rewrite Ekr; exact Hi|].
                 eapply (ci_removed _ _ _ _ Hc); eassumption.
              ** inversion Hin; subst. lia.
           ++ rewrite Forall_forall. intros id Hi. rewrite K1. eapply cinv_removed_lt; [exact Hc|].
              fold kr. rewrite Ekr. exact Hi.
    + unfold zG. zproj. fold kr. fold G'. apply HG; [|exact A7].
      intros id Hid Hk. eapply cinv_disj; [exact Hc|exact Hk|]. right.
      apply accepted_rm in Hid. rewrite Hrmw. revert Hid. in_app.
  - apply Hsame. pose proof (JournalFacts.do_read_core (z_core z) (z_disk z) from to) as E. rewrite Er in E. exact E.
  - apply Hsame. apply core_eqj_cache.
  - exact Hz.
Qed.

Lemma hl_put_new d id j : hl (disk_put (mkFile id [] 0) d) j = upd (hl d) id (Some 0) j.
Proof. unfold hl, upd. rewrite disk_get_put. cbn [f_id]. destruct (N.eqb j id); reflexivity. Qed.

Lemma hl_append d id data l j : hl d id = Some l ->
  hl (disk_append id data d) j = upd (hl d) id (Some (l + blen data)) j.
Proof.
  unfold hl, upd. intros H. rewrite disk_get_append.
  destruct (disk_get id d) as [g|] eqn:E; [|discriminate]. inversion H; subst l.
  destruct (N.eqb j id); [|reflexivity]. cbn [f_data]. rewrite blen_app. reflexivity.
Qed.

Lemma hl_append_none d id data j : hl d id = None -> hl (disk_append id data d) j = hl d j.
Proof.
  unfold hl. intros H. rewrite disk_get_append. destruct (disk_get id d) as [g|] eqn:E; [discriminate|reflexivity].
Qed.

Lemma hl_sync d id j : hl (disk_sync id d) j = hl d j.
Proof.
  unfold hl. rewrite disk_get_sync. destruct (disk_get id d) as [g|] eqn:E; [|reflexivity].
  destruct (N.eqb_spec j id) as [Ej|Ej]; [|reflexivity]. subst j. rewrite E. reflexivity.
Qed.

Lemma hl_remove d id j : hl (disk_remove id d) j = if N.eqb j id then None else hl d j.
Proof. unfold hl. rewrite disk_get_remove. destruct (N.eqb j id); reflexivity. Qed.

Lemma ainv_zeff z z' v Lw : AInv z Lw -> zeff z = Some (z', v) -> AInv z' Lw.
Proof.
  intros (nf & ln & [A1 A2 A3 A4 A5 A6 A7]) H. unfold stream in A4. apply acct_app in A4.
  apply zeff_inv in H. destruct H as [id t Et|id data t Et|r t Et]; rewrite Et in A4.
  - destruct (acct_sends_end _ _ _ _ _ _ _ A4) as (n' & c' & lw' & (K1 & K2 & _) & Hc' & Hn').
    exists nf, ln. constructor; zproj; try assumption.
    + rewrite hl_put_new. unfold upd. destruct (N.eqb_spec (wf_id nf) id); [lia|exact A2].
    + unfold stream. zproj. apply acct_app.
      eapply acct_ext with (h := upd (hl (z_disk z)) id (Some 0)).
      * intros h h' n c lw He Hk. eapply acct_ext; [apply kfin_ext|exact He|exact Hk].
      * intros j _. symmetry. apply hl_put_new.
      * eapply acct_sends_upd; [|exact A4]. intros n c lw Hk. exact Hk.
  - destruct (acct_sends_end _ _ _ _ _ _ _ A4) as (n' & c' & lw' & (K1 & K2 & l & K3 & _) & Hc' & Hn').
    exists nf, ln. constructor; zproj; try assumption.
    + rewrite (hl_append _ _ _ _ _ K3). unfold upd. destruct (N.eqb_spec (wf_id nf) id); [lia|exact A2].
    + unfold stream. zproj. apply acct_app.
      eapply acct_ext with (h := upd (hl (z_disk z)) id (Some (l + blen data))).
      * intros h h' n c lw He Hk. eapply acct_ext; [apply kfin_ext|exact He|exact Hk].
      * intros j _. symmetry. apply hl_append. exact K3.
      * eapply acct_sends_upd; [|exact A4]. intros n c lw (Q1 & Q2 & l2 & Q3 & Q4).
        split; [exact Q1|split; [exact Q2|]]. rewrite K3 in Q3. inversion Q3; subst l2. exact Q4.
  - exists nf, ln. constructor; zproj; try assumption.
    unfold stream. zproj. rewrite app_assoc, map_app, <- app_assoc. cbn [map app].
    apply acct_app. exact A4.
Qed.

(* ================================================================== worker actions *)
Lemma rm_ok_le G ids lw lw' : lw <= lw' -> rm_ok G ids lw -> rm_ok G ids lw'.
Proof. intros Hle H l U id H1 H2 H3. specialize (H _ _ _ H1 H2 H3). lia. Qed.

Lemma rm_ok_incl G ids ids' lw : incl ids' ids -> rm_ok G ids lw -> rm_ok G ids' lw.
Proof. intros Hi H l U id H1 H2 H3. eapply H; [exact H1|exact H2|apply Hi; exact H3]. Qed.

Lemma rm_ok_app G a b lw : rm_ok G a lw -> rm_ok G b lw -> rm_ok G (a ++ b) lw.
Proof. intros Ha Hb l U id H1 H2 H3. apply in_app_or in H3 as [H3|H3]; [eapply Ha|eapply Hb]; eassumption. Qed.

Lemma rev_head_tail {A} (f : A) l : l <> [] ->
  match rev (f :: l) with x :: _ => Some x | [] => None end = match rev l with x :: _ => Some x | [] => None end.
Proof.
  intros Hl. cbn [rev]. destruct (rev l) as [|x r] eqn:E; [|reflexivity].
  exfalso. apply Hl. rewrite <- (rev_involutive l), E. reflexivity.
Qed.

(* [Lw] after the next action of the worker: the end offset of the write request it is about to carry out
   (or to skip, if it has no data), unchanged by every other action *)
Definition new_lw (z : sys2) (Lw : N) : N :=
  match w_batch (z_w z) with
  | Some b =>
    match b_pos b with
    | BWrite i => match nth_error (b_writes b) i with Some ww => ww_upto ww | None => Lw end
    | _ => Lw
    end
  | None => Lw
  end.

Lemma ainv_same z z' Lw nf ln : ainv z Lw nf ln -> newest (z_w z') = Some nf ->
  (forall j, hl (z_disk z') j = hl (z_disk z) j) -> stream z' = stream z -> zG z' = zG z ->
  kfin_of (z_core z') = kfin_of (z_core z) -> incl (accepted (z_w z')) (accepted (z_w z)) ->
  ainv z' Lw nf ln.
Proof.
  intros [A1 A2 A3 A4 A5 A6 A7] Hn Hh Hs Hg Hk Hi. constructor; try assumption.
  - rewrite Hh. exact A2.
  - rewrite Hs, Hg, Hk. eapply acct_ext; [apply kfin_ext| |exact A4]. intros j _. symmetry. apply Hh.
  - eapply incl_Forall; eassumption.
  - rewrite Hg. eapply rm_ok_incl; eassumption.
Qed.

Lemma ainv_remove z z' Lw nf ln id : ainv z Lw nf ln -> newest (z_w z') = Some nf ->
  z_disk z' = disk_remove id (z_disk z) -> In id (accepted (z_w z)) ->
  stream z' = stream z -> zG z' = zG z ->
  kfin_of (z_core z') = kfin_of (z_core z) -> incl (accepted (z_w z')) (accepted (z_w z)) ->
  ainv z' Lw nf ln.
Proof.
  intros [A1 A2 A3 A4 A5 A6 A7] Hn Hd Hid Hs Hg Hk Hi.
  assert (Hlt : id < wf_id nf). { rewrite Forall_forall in A6. apply A6. exact Hid. }
  constructor; try assumption.
  - rewrite Hd, hl_remove. destruct (N.eqb_spec (wf_id nf) id); [lia|exact A2].
  - rewrite Hs, Hg, Hk, Hd. eapply acct_ext; [apply kfin_ext| |exact A4].
    intros j Hj. rewrite hl_remove. destruct (N.eqb_spec j id); [lia|reflexivity].
  - eapply incl_Forall; eassumption.
  - rewrite Hg. eapply rm_ok_incl; eassumption.
Qed.

Lemma ainv_zrecv z k nf0 z' v Lw : AInv z Lw -> zrecv z k nf0 = Some (z', v) -> AInv z' Lw.
Proof.
  intros (nf & ln & A) H. apply zrecv_inv in H as [_ H]. destruct H as [b q' Ha Eb Eq _ Hp _].
  destruct (AckDurable.recv_stream_at _ Hp) as [Hs Hu]. unfold AckDurable.unl_at in Hu. exists nf, ln.
  eapply ainv_same; [exact A|apply (a_newest _ _ _ _ A)|reflexivity| |reflexivity|reflexivity|].
  - unfold stream, w_stream. zproj. rewrite Eb, Eq, <- Hs. reflexivity.
  - unfold accepted, unlink_rem. zproj. rewrite Eb, Hu. apply incl_refl.
Qed.

Ltac at_pos Ep := unfold stream, w_stream, batch_stream, accepted, unlink_rem; zproj; rewrite ?Ep.

Lemma ainv_zwork z ok z' v Lw : AInv z Lw -> zwork z ok = Some (z', v) -> w_alive (z_w z') = true ->
  AInv z' (new_lw z Lw) /\ Lw <= new_lw z Lw.
Proof.
  intros (nfile & ln & A) H Hal'. pose proof A as [A1 A2 A3 A4 A5 A6 A7].
  apply zwork_inv in H as (b & Ha & Eb & W).
  unfold new_lw. rewrite Eb. unfold stream, w_stream in A4. unfold accepted, unlink_rem in A6, A7. rewrite Eb in A4, A6, A7.
  (* most actions consume no request, accept no removal and leave the file lengths alone *)
  assert (same : forall z2, newest (z_w z2) = Some nfile -> (forall j, hl (z_disk z2) j = hl (z_disk z) j) ->
            stream z2 = map XSend (batch_stream b ++ z_queue z) ++ z_todo z ->
            zG z2 = zG z -> kfin_of (z_core z2) = kfin_of (z_core z) ->
            incl (accepted (z_w z2)) (w_postponed (z_w z) ++ match b_pos b with BUnlink rem => rem | _ => [] end) ->
            AInv z2 Lw /\ Lw <= Lw).
  { intros z2 Hn Hh Hs Hg Hk Hi. split; [|apply N.le_refl]. exists nfile, ln.
    eapply ainv_same; [exact A|exact Hn|exact Hh| |exact Hg|exact Hk|].
    - unfold stream at 2, w_stream. rewrite Eb. exact Hs.
    - unfold accepted at 2, unlink_rem. rewrite Eb. exact Hi. }
  work_cases W.
  (* the evictable boundary is set, a callback is made, the batch ends: [WkSetEvict], [WkCallback],
     [WkDone], selected by their place among the constructors of [AckFacts.work_step] *)
  6, 8, 13: (rewrite Ep in *; apply same; try reflexivity; [exact A1|at_pos Ep; reflexivity|at_pos Ep; apply incl_refl]).
  - destruct M as [i ww Ep En Ed|i Ep En|Ep Hlen|i ww Ep En Ec|i Ep En|Ep Hp|Ep Enf|ids Ep Enf Hsf|Ep];
      unfold batch_stream in *; rewrite Ep in *; rewrite ?En.
    (* [MSyncOldEnd], [MCbSkip], [MCbEnd], [MPostEnd], [MUnlinkEnd], by their place in [AckFacts.pos_move] *)
    3-6, 9: (apply same; try reflexivity; [exact A1|apply incl_refl]).
    + (* an empty write: only the cursor moves *)
      rewrite (skipn_nth_cons _ _ _ En) in A4. cbn [map app req_of_ww acct] in A4. destruct A4 as [Hu A4].
      rewrite Ed in Hu. change (blen []) with 0 in Hu. split; [|lia].
      exists nfile, ln. constructor; zproj; try assumption.
      * at_pos Ep. replace (wf_id nfile + ln) with (ww_upto ww) by lia. exact A4.
      * lia.
      * eapply rm_ok_le; [|exact A7]. lia.
    + apply same; try reflexivity; [exact A1| |apply incl_refl]. rewrite (skipn_nth_none _ _ En). reflexivity.
    + apply same; try reflexivity; [exact A1| |apply incl_refl]. rewrite Enf. reflexivity.
    + rewrite Enf in A4. cbn [nf_list map app acct] in A4. destruct A4 as (H1 & H2 & H3). rewrite app_nil_r in A6, A7.
      split; [|apply N.le_refl]. exists nfile, ln. constructor; zproj; try assumption.
      * apply Forall_app. split; assumption.
      * apply rm_ok_app; assumption.
  - discriminate.
  - (* a write: the newest file grows up to the request's offset *)
    unfold batch_stream in A4. rewrite Ep in *. rewrite En. rewrite (skipn_nth_cons _ _ _ En) in A4.
    cbn [map app req_of_ww acct] in A4. destruct A4 as [Hu A4].
    assert (f = nfile) by congruence. subst f. split; [|lia].
    exists nfile, (ln + blen (ww_data ww)). constructor; zproj; try assumption.
    + rewrite (hl_append _ _ _ _ _ A2). unfold upd. rewrite N.eqb_refl. reflexivity.
    + lia.
    + at_pos Ep. replace (wf_id nfile + (ln + blen (ww_data ww))) with (ww_upto ww) by lia.
      eapply acct_ext; [apply kfin_ext| |exact A4].
      intros j Hj. rewrite (hl_append _ _ _ _ _ A2). unfold upd. destruct (N.eqb_spec j (wf_id nfile)); [lia|reflexivity].
    + lia.
    + eapply rm_ok_le; [|exact A7]. lia.
  - (* the oldest tracked file is synced and dropped: the newest stays *)
    rewrite Ep in *. apply same; try reflexivity; [|intros j; apply hl_sync|at_pos Ep; reflexivity|at_pos Ep; apply incl_refl].
    unfold newest in A1 |- *. rewrite Ef in A1. rewrite <- A1. symmetry. apply rev_head_tail. discriminate.
  - assert (E : b_pos b = BSyncOld \/ b_pos b = BSyncNew) by tauto. clear Ep.
    destruct E as [Ep|Ep]; rewrite Ep in *;
      (apply same; try reflexivity; [exact A1|at_pos Ep; reflexivity|apply incl_refl]).
  - rewrite Ep in *. apply same; try reflexivity;
      [exact A1|intros j; apply hl_sync|at_pos Ep; reflexivity|at_pos Ep; apply incl_refl].
  - rewrite Ep in *. split; [|apply N.le_refl]. exists nfile, ln.
    eapply ainv_remove with (id := id); [exact A|exact A1|reflexivity| | |reflexivity|reflexivity|].
    + unfold accepted. rewrite Epp. left. reflexivity.
    + at_pos Ep. rewrite Eb, Ep. reflexivity.
    + at_pos Ep. rewrite Eb, Ep, Epp. intros x Hx. right. exact Hx.
  - rewrite Ep in *. split; [|apply N.le_refl]. exists nfile, ln.
    eapply ainv_remove with (id := id); [exact A|exact A1|reflexivity| | |reflexivity|reflexivity|].
    + at_pos Ep. rewrite Eb, Ep. apply in_or_app. right. left. reflexivity.
    + at_pos Ep. rewrite Eb, Ep. reflexivity.
    + at_pos Ep. rewrite Eb, Ep.
      intros x Hx. apply in_app_or in Hx as [Hx|Hx]; apply in_or_app; [left; exact Hx|right; right; exact Hx].
  - unfold batch_stream in A4. rewrite Ep in *. rewrite Enf in A4. cbn [nf_list map app acct] in A4.
    destruct A4 as (H1 & H2 & H3 & l & H4 & H5 & H6). split; [|apply N.le_refl].
    exists (mkWF off prev), l. constructor; zproj; cbn [wf_id]; try assumption.
    + unfold newest. zproj. rewrite rev_unit. reflexivity.
    + lia.
    + eapply Forall_impl; [|exact A6]. cbn beta. intros x Hx. lia.
  - unfold batch_stream in A4. rewrite Ep in *. rewrite Enf in A4. cbn [nf_list map app acct] in A4.
    destruct A4 as (H1 & H2 & H3). rewrite app_nil_r in A6, A7.
    split; [|apply N.le_refl]. exists nfile, ln. constructor; zproj; try assumption; at_pos Ep; rewrite app_nil_r.
    + apply Forall_app. split; assumption.
    + apply rm_ok_app; assumption.
Qed.

(* ================================================================== synced lengths under disk operations *)
Lemma fsy_append i x d j : fsy (disk_append i x d) j = fsy d j.
Proof.
  unfold fsy. rewrite disk_get_append. destruct (disk_get i d) as [g|] eqn:E; [|reflexivity].
  destruct (N.eqb_spec j i) as [Ej|Ej]; [|reflexivity]. subst j. rewrite E. reflexivity.
Qed.

Lemma fln_fb d j : fln d j = blen (file_bytes d j).
Proof. unfold fln, file_bytes. now destruct (disk_get j d). Qed.

Lemma fln_append_other i x d j : j <> i -> fln (disk_append i x d) j = fln d j.
Proof. intros Hj. now rewrite !fln_fb, fb_append_other. Qed.

Lemma fsy_sync i d j : fsy (disk_sync i d) j = if N.eqb j i then fln d i else fsy d j.
Proof.
  unfold fsy, fln. rewrite disk_get_sync. destruct (disk_get i d) as [g|] eqn:E.
  - destruct (N.eqb j i); reflexivity.
  - destruct (N.eqb_spec j i) as [Ej|Ej]; [subst j; rewrite E|]; reflexivity.
Qed.

Lemma fln_sync i d j : fln (disk_sync i d) j = fln d j.
Proof. now rewrite !fln_fb, fb_sync. Qed.

Lemma fsy_remove i d j : j <> i -> fsy (disk_remove i d) j = fsy d j.
Proof. intros Hj. unfold fsy. rewrite disk_get_remove. destruct (N.eqb_spec j i); [contradiction|reflexivity]. Qed.
Lemma fln_remove i d j : j <> i -> fln (disk_remove i d) j = fln d j.
Proof. intros Hj. unfold fln. rewrite disk_get_remove. destruct (N.eqb_spec j i); [contradiction|reflexivity]. Qed.

Lemma fsy_put_other f d j : j <> f_id f -> fsy (disk_put f d) j = fsy d j.
Proof. intros Hj. unfold fsy. rewrite disk_get_put. destruct (N.eqb_spec j (f_id f)); [contradiction|reflexivity]. Qed.
Lemma fln_put_other f d j : j <> f_id f -> fln (disk_put f d) j = fln d j.
Proof. intros Hj. unfold fln. rewrite disk_get_put. destruct (N.eqb_spec j (f_id f)); [contradiction|reflexivity]. Qed.

Lemma fsy_le_fln d j : Forall synced_le d -> fsy d j <= fln d j.
Proof.
  intros H. unfold fsy, fln. destruct (disk_get j d) as [f|] eqn:E; [|lia].
  apply disk_get_In in E. rewrite Forall_forall in H. apply (H f E).
Qed.

Definition durd (d : disk) (U : N) : Prop := dur_ids (fsy d) (ids d) U.

Lemma durd_append i x d U : dsorted d -> durd d U -> durd (disk_append i x d) U.
Proof.
  intros S H. unfold durd. rewrite ids_append by exact S.
  eapply dur_ids_mono; [|exact H]. intros j _. rewrite fsy_append. lia.
Qed.

Lemma durd_remove_head id l d U : dsorted d -> ids d = id :: l -> durd d U -> durd (disk_remove id d) U.
Proof.
  intros S E H. unfold durd in *. unfold dsorted in S. rewrite E in S.
  rewrite (ids_remove_head _ _ _ E S). rewrite E in H. apply dur_ids_tail in H.
  eapply dur_ids_mono; [|exact H]. intros j Hj. rewrite fsy_remove; [lia|].
  apply ss_inv in S as [_ S]. rewrite Forall_forall in S. specialize (S _ Hj). lia.
Qed.

Lemma durd_create id d U : Forall (fun j => j < id) (ids d) -> U <= id -> durd d U ->
  durd (disk_put (mkFile id [] 0) d) U.
Proof.
  intros F Hle H. unfold durd in *. rewrite disk_put_last by exact F.
  replace (ids (d ++ [mkFile id [] 0])) with (ids d ++ [id]) by (unfold ids; rewrite map_app; reflexivity).
  apply dur_ids_snoc; [exact Hle|]. eapply dur_ids_mono; [|exact H].
  intros j Hj. rewrite <- disk_put_last by exact F. rewrite fsy_put_other; [lia|].
  cbn [f_id]. rewrite Forall_forall in F. specialize (F _ Hj). lia.
Qed.

Lemma removed_after_durable_of d U : dsorted d -> durd d U -> durable_upto d U.
Proof. intros S H. apply durable_upto_ids; assumption. Qed.

(* ================================================================== the sync invariant *)
Definition late (w : worker) : Prop :=
  match w_batch w with
  | None => True
  | Some b => match b_pos b with
              | BCallbacks _ | BPostponed | BNonFlush | BUnlink _ | BDone => True
              | _ => False
              end
  end.

(* after the loop over the older files only the newest file is tracked *)
Definition sync_tail (w : worker) : Prop :=
  match w_batch w with
  | Some b => match b_pos b with BSetEvict | BSyncNew => exists f, w_files w = [f] | _ => True end
  | None => True
  end.

(* What holds while the worker thread lives; [Lw] is the offset up to which it has written.
   [w_clean]: once a batch is past its sync pass ([late]; also between batches) and no failed sync is
   outstanding, the journal is durable up to [Lw]: that is when removals are carried out. *)
Record winv (z : sys2) (Lw : N) : Prop := mkWinv {
  w_ainv : AInv z Lw;
  w_old : forall nf, newest (z_w z) = Some nf ->
          old_ids (fsy (z_disk z)) (fln (z_disk z)) (map wf_id (w_files (z_w z))) (wf_id nf) (ids (z_disk z));
  w_tail : sync_tail (z_w z);
  w_clean : w_sync_failed (z_w z) = false -> late (z_w z) -> durd (z_disk z) Lw }.

(* [s_u3] is the property itself, kept inductive: of a removal request ever sent, with the journal end [U] of
   its flush, either the journal is durable up to [U] in the present files and the worker has written that
   far, or none of its files has been unlinked yet. [s_bound]: [Lw] is at most the journal end, and files still
   to be created start at or after it, so creating one keeps [durd] ([durd_create]). A dead worker unlinks
   nothing: only these three are kept then. *)
Record sinv (z : sys2) (Lw : N) : Prop := mkSinv {
  s_le : Forall synced_le (z_disk z);
  s_u3 : forall l U, In (l, U) (zG z) ->
         (durd (z_disk z) U /\ U <= Lw) \/ (forall id, In id l -> In id (ids (z_disk z)));
  s_bound : Lw <= ck_end (k_open (z_core z)) /\ Forall (fun x => Lw <= x) (todo_cr (z_todo z));
  s_alive : w_alive (z_w z) = true -> winv z Lw }.

Definition DInv (z : sys2) : Prop := Inv z /\ exists Lw, sinv z Lw.

Lemma todo_cr_sends rs : todo_cr (map XSend rs) = [].
Proof. unfold todo_cr. induction rs as [|r rs IH]; [reflexivity|]. cbn [map flat_map xcr_of app]. exact IH. Qed.

Lemma ainv_bound z Lw : AInv z Lw ->
  Lw <= ck_end (k_open (z_core z)) /\ Forall (fun x => Lw <= x) (todo_cr (z_todo z)).
Proof.
  intros (nf & ln & [A1 A2 A3 A4 A5 A6 A7]). unfold kfin_of in A4. apply acct_kfin in A4 as (B1 & B2 & _).
  unfold stream in B2. rewrite todo_cr_app, todo_cr_sends in B2. cbn [app] in B2.
  split; [lia|]. eapply Forall_impl; [|exact B2]. cbn beta. intros a Ha. lia.
Qed.

Lemma ainv_todo_ge z Lw nf ln id t : ainv z Lw nf ln ->
  (z_todo z = XCreate id :: t \/ exists data, z_todo z = XWriteHead id data :: t) -> wf_id nf < id.
Proof.
  intros [A1 A2 A3 A4 A5 A6 A7] Ht. unfold stream in A4. apply acct_app in A4.
  apply acct_sends_end in A4 as (n' & c' & lw' & Hk & Hc & Hn).
  destruct Ht as [Et|[data Et]]; rewrite Et in Hk; cbn [acct] in Hk.
  - destruct Hk as (_ & Hk & _). lia.
  - destruct Hk as (_ & Hk & _). lia.
Qed.

Lemma newest_in w nf : newest w = Some nf -> In nf (w_files w).
Proof.
  unfold newest. destruct (rev (w_files w)) as [|f r] eqn:E; [discriminate|]. intros H. inversion H; subst f.
  apply in_rev. rewrite E. left. reflexivity.
Qed.

(* only the accounting part of the worker's invariant speaks of the caller *)
Lemma winv_caller z z' Lw : winv z Lw -> AInv z' Lw -> z_w z' = z_w z -> z_disk z' = z_disk z -> winv z' Lw.
Proof. intros [W1 W2 W3 W4] HA Ew Ed. constructor; rewrite ?Ew, ?Ed; assumption. Qed.

Lemma sinv_zcall z o z' v Lw : Inv z -> sinv z Lw -> zcall z o = Some (z', v) -> sinv z' Lw.
Proof.
  intros Hinv Hs H. pose proof Hs as [S1 S2 S3 S4]. pose proof Hinv as (gone & rmw & keep & Hc).
  assert (Hal : w_alive (z_w z) = true -> AInv z' Lw).
  { intros Ha. eapply ainv_zcall; [exact Hinv|exact Ha|apply (w_ainv _ _ (S4 Ha))|exact H]. }
  apply zcall_inv in H as (Et & _ & H).
  pose proof (ci_core _ _ _ _ Hc) as [Hop _].
  assert (Hw : z_w z' = z_w z /\ z_disk z' = z_disk z) by (destruct H; split; reflexivity). destruct Hw as [Ew Ed].
  assert (S4' : w_alive (z_w z') = true -> winv z' Lw).
  { rewrite Ew. intros Ha. apply (winv_caller z); [apply S4, Ha|apply Hal, Ha|exact Ew|exact Ed]. }
  assert (Hsame : forall k', core_eqj (z_core z) k' -> z' = set_core z k' -> sinv z' Lw).
  { intros k' (_ & Eo & _) ->. constructor; zproj; try assumption. rewrite Eo. exact S3. }
  destruct H as [w k r effs Ew0|cb k effs Ef|from to k items Er| |o r _].
  - apply do_write_chain in Ew0 as (k1 & Hch & (Eo & _)).
    destruct (AckDurable.aa_chain_open _ _ _ Hch Hop) as (_ & _ & Hle & _ & Hf).
    constructor; zproj; try assumption.
    fold (xeffs effs). rewrite Eo. split; [lia|]. eapply Forall_impl; [|exact Hf]. cbn beta. intros a Ha. lia.
  - pose proof (do_flush_ok _ _ _ _ (ci_core _ _ _ _ Hc) Ef) as (_ & _ & _ & Mc & _).
    rewrite do_flush_eq in Ef. injection Ef as <- Ee.
    constructor; unfold flush_ghost; zproj; try assumption.
    + unfold zG. zproj. intros l U Hin.
      destruct (k_removed (z_core z)) as [|a rl] eqn:Er; [apply S2; exact Hin|].
      apply in_app_or in Hin as [Hin|[Hin|[]]]; [apply S2; exact Hin|].
      inversion Hin; subst l U. right. intros id Hid.
      rewrite (ci_present _ _ _ _ Hc), Er. revert Hid. in_app.
    + cbn [k_open]. split; [apply S3|]. fold (xeffs effs). rewrite Mc. constructor.
  - eapply Hsame; [|reflexivity]. pose proof (JournalFacts.do_read_core (z_core z) (z_disk z) from to) as E. rewrite Er in E. exact E.
  - eapply Hsame; [apply core_eqj_cache|reflexivity].
  - exact Hs.
Qed.

Lemma sinv_zeff z z' v Lw : Inv z -> sinv z Lw -> zeff z = Some (z', v) -> sinv z' Lw.
Proof.
  intros Hinv Hs H. pose proof Hs as [S1 S2 S3 S4]. pose proof Hinv as (gone & rmw & keep & Hc).
  pose proof (cinv_dsorted _ _ _ _ Hc) as Sd.
  assert (Hal : w_alive (z_w z) = true -> AInv z' Lw).
  { intros Ha. eapply ainv_zeff; [apply (w_ainv _ _ (S4 Ha))|exact H]. }
  assert (Hle : Forall synced_le (z_disk z')).
  { eapply synced_le_step; [|exact S1]. eapply (zstep_disk z ZEff). exact H. }
  pose proof (ci_sorted _ _ _ _ Hc) as S.
  apply zeff_inv in H. destruct H as [id t Et|id data t Et|r t Et]; rewrite Et in S3, S; zproj.
  - assert (F : Forall (fun j => j < id) (ids (z_disk z))).
    { apply ss_suffix in S.
      cbn [todo_cr flat_map xcr_of app] in S. apply ss_app_inv in S as (_ & _ & S).
      rewrite Forall_forall. intros j Hj. apply S; [exact Hj|left; reflexivity]. }
    destruct S3 as [S3 S3']. cbn [todo_cr flat_map xcr_of app] in S3'. inversion S3' as [|? ? Hid S3'']; subst.
    assert (Hput : disk_put (mkFile id [] 0) (z_disk z) = z_disk z ++ [mkFile id [] 0]) by (apply disk_put_last; exact F).
    assert (Hids : ids (disk_put (mkFile id [] 0) (z_disk z)) = ids (z_disk z) ++ [id]).
    { rewrite Hput. unfold ids. rewrite map_app. reflexivity. }
    constructor; zproj; try assumption.
    + intros l U Hin. destruct (S2 _ _ Hin) as [[D1 D2]|D].
      * left. split; [apply durd_create; [exact F|lia|exact D1]|exact D2].
      * right. intros j Hj. rewrite Hids. apply in_or_app. left. apply D. exact Hj.
    + split; assumption.
    + intros Hw. specialize (S4 Hw). destruct S4 as [W1 W2 W3 W4]. constructor; zproj; try assumption.
      * apply Hal. exact Hw.
      * intros nf Hn. specialize (W2 nf Hn). rewrite Hids.
        destruct W1 as (nf' & ln & A). pose proof (a_newest _ _ _ _ A) as Hn'. rewrite Hn in Hn'. inversion Hn'; subst nf'.
        apply old_ids_snoc.
        -- pose proof (hl_some_in _ _ _ (a_len _ _ _ _ A)) as Hin'. rewrite Forall_forall in F. apply F. exact Hin'.
        -- eapply old_ids_ext; [| |exact W2].
           ++ intros i Hi _. rewrite fsy_put_other; [lia|]. cbn [f_id]. rewrite Forall_forall in F. specialize (F _ Hi). lia.
           ++ intros i Hi _ Ht. left. split; [exact Ht|]. rewrite fln_put_other; [reflexivity|].
              cbn [f_id]. rewrite Forall_forall in F. specialize (F _ Hi). lia.
      * intros Hsf Hl. apply durd_create; [exact F|exact Hid|]. apply W4; assumption.
  - constructor; zproj.
    + exact Hle.
    + intros l U Hin. destruct (S2 _ _ Hin) as [[D1 D2]|D].
      * left. split; [apply durd_append; assumption|exact D2].
      * right. intros j Hj. rewrite ids_append by exact Sd. apply D. exact Hj.
    + exact S3.
    + intros Hw. specialize (S4 Hw). destruct S4 as [W1 W2 W3 W4]. constructor; zproj; try assumption.
      * apply Hal. exact Hw.
      * intros nf Hn. specialize (W2 nf Hn). rewrite ids_append by exact Sd.
        destruct W1 as (nf' & ln & A). pose proof (a_newest _ _ _ _ A) as Hn'. rewrite Hn in Hn'. inversion Hn'; subst nf'.
        assert (Hlt : wf_id nf < id) by (eapply ainv_todo_ge; [exact A|right; eexists; exact Et]).
        eapply old_ids_ext; [| |exact W2].
        -- intros i _ _. rewrite fsy_append. lia.
        -- intros i _ Hi Ht. left. split; [exact Ht|]. apply fln_append_other. lia.
      * intros Hsf Hl. apply durd_append; [exact Sd|]. apply W4; assumption.
  - constructor; zproj; try assumption.
    intros Hw. apply (winv_caller z); [apply S4, Hw|apply Hal, Hw|reflexivity|reflexivity].
Qed.

Lemma sinv_zrecv z k nf z' v Lw : sinv z Lw -> zrecv z k nf = Some (z', v) -> sinv z' Lw.
Proof.
  intros Hs H. pose proof Hs as [S1 S2 S3 S4].
  assert (Hal : w_alive (z_w z) = true -> AInv z' Lw).
  { intros Ha. eapply ainv_zrecv; [apply (w_ainv _ _ (S4 Ha))|exact H]. }
  apply zrecv_inv in H as [_ H]. destruct H as [b q' Ha Eb Eq _ Hp _].
  specialize (S4 Ha). destruct S4 as [W1 W2 W3 W4].
  constructor; zproj; try assumption.
  intros _. constructor; zproj; try assumption.
  - apply Hal. exact Ha.
  - unfold sync_tail. zproj. destruct Hp as [[-> _]|[-> _]]; exact I.
  - intros Hsf _. apply W4; [exact Hsf|]. unfold late. rewrite Eb. exact I.
Qed.

Lemma sinv_zdrop z Lw : sinv z Lw -> z_todo z = [] ->
  sinv (mkSys2 (z_core z) [] (z_disk z) (z_queue z) (z_w z) (z_acks z) true (z_ghost z)) Lw.
Proof.
  intros [S1 S2 S3 S4] Et. constructor; zproj; try assumption.
  - rewrite <- Et. exact S3.
  - intros Hw. specialize (S4 Hw). destruct S4 as [W1 W2 W3 W4]. constructor; zproj; try assumption.
    destruct W1 as (nf & ln & [A1 A2 A3 A4 A5 A6 A7]). exists nf, ln. constructor; zproj; try assumption.
    unfold stream in *. zproj. rewrite <- Et. exact A4.
Qed.

Lemma work_step_dead z b ok z' v : w_alive (z_w z) = true -> work_step z b ok z' v ->
  w_alive (z_w z') = false -> z' = set_w z (w_die (z_w z)).
Proof. intros Ha W. destruct W; zproj; intros Hd; first [reflexivity|congruence]. Qed.

Lemma sinv_build z z' Lw Lw' :
  sinv z Lw -> Lw <= Lw' -> zG z' = zG z -> Forall synced_le (z_disk z') ->
  (forall U, durd (z_disk z) U -> durd (z_disk z') U) ->
  (forall id, In id (ids (z_disk z)) -> In id (ids (z_disk z'))) ->
  winv z' Lw' -> sinv z' Lw'.
Proof.
  intros [S1 S2 S3 S4] Hle Hg Hsl Hd Hp Hw. constructor.
  - exact Hsl.
  - rewrite Hg. intros l U Hin. destruct (S2 _ _ Hin) as [[D1 D2]|D].
    + left. split; [apply Hd; exact D1|lia].
    + right. intros id Hid. apply Hp, D, Hid.
  - apply ainv_bound. apply Hw.
  - intros _. exact Hw.
Qed.

Lemma late_new_lw z Lw : late (z_w z) -> new_lw z Lw = Lw.
Proof.
  unfold late, new_lw. destruct (w_batch (z_w z)) as [b|]; [|reflexivity]. destruct (b_pos b); tauto.
Qed.

Lemma newest_same_files w w' : w_files w' = w_files w -> newest w' = newest w.
Proof. unfold newest. intros ->. reflexivity. Qed.

Lemma fsy_sync_le i d j : Forall synced_le d -> fsy d j <= fsy (disk_sync i d) j.
Proof.
  intros H. rewrite fsy_sync. destruct (N.eqb_spec j i) as [->|_]; [apply fsy_le_fln, H|apply N.le_refl].
Qed.

(* the last premise: the new position may claim a clean sync pass (no failed sync, [late]) only
   if the old one did, or if everything written is durable now *)
Lemma sinv_grow z z' Lw Lw' : sinv z Lw -> w_alive (z_w z) = true -> AInv z' Lw' -> Lw <= Lw' ->
  zG z' = zG z -> ids (z_disk z') = ids (z_disk z) -> Forall synced_le (z_disk z') ->
  (forall j, fsy (z_disk z) j <= fsy (z_disk z') j) ->
  (forall nf j, newest (z_w z) = Some nf -> j < wf_id nf -> fln (z_disk z') j = fln (z_disk z) j) ->
  newest (z_w z') = newest (z_w z) ->
  (forall i, In i (map wf_id (w_files (z_w z))) ->
     In i (map wf_id (w_files (z_w z'))) \/ fln (z_disk z) i <= fsy (z_disk z') i) ->
  sync_tail (z_w z') ->
  (w_sync_failed (z_w z') = false -> late (z_w z') ->
   (forall nf, newest (z_w z) = Some nf ->
      old_ids (fsy (z_disk z')) (fln (z_disk z')) (map wf_id (w_files (z_w z'))) (wf_id nf) (ids (z_disk z))) ->
   (w_sync_failed (z_w z) = false /\ late (z_w z) /\ Lw' = Lw) \/ durd (z_disk z') Lw') ->
  sinv z' Lw'.
Proof.
  intros Hs Ha HA' HLw Hg Hi Hle Hsy Hln Hn Hf Htl Hcl. pose proof (s_alive _ _ Hs Ha) as [_ W2 _ W4].
  assert (Hd : forall U, durd (z_disk z) U -> durd (z_disk z') U).
  { intros U. unfold durd. rewrite Hi. apply dur_ids_mono. intros j _. apply Hsy. }
  assert (Hold : forall nf, newest (z_w z) = Some nf ->
            old_ids (fsy (z_disk z')) (fln (z_disk z')) (map wf_id (w_files (z_w z'))) (wf_id nf) (ids (z_disk z))).
  { intros nf E. eapply old_ids_ext; [| |exact (W2 _ E)].
    - intros j _ _. apply Hsy.
    - intros j _ Hj Ht. destruct (Hf _ Ht) as [Ht'|Hs']; [left; split; [exact Ht'|apply (Hln _ _ E Hj)]|right; exact Hs']. }
  eapply sinv_build; [exact Hs|exact HLw|exact Hg|exact Hle|exact Hd|rewrite Hi; auto|].
  constructor; [exact HA'| |exact Htl|].
  - intros nf E. rewrite Hn in E. rewrite Hi. apply Hold, E.
  - intros Hsf Hl. destruct (Hcl Hsf Hl Hold) as [(Hsf0 & Hl0 & ->)|D]; [apply Hd, W4; assumption|exact D].
Qed.

Lemma sinv_keep z z' Lw : sinv z Lw -> w_alive (z_w z) = true ->
  AInv z' (new_lw z Lw) -> Lw <= new_lw z Lw ->
  z_disk z' = z_disk z -> zG z' = zG z -> w_files (z_w z') = w_files (z_w z) ->
  sync_tail (z_w z') ->
  (w_sync_failed (z_w z') = false -> late (z_w z') -> w_sync_failed (z_w z) = false /\ late (z_w z)) ->
  sinv z' (new_lw z Lw).
Proof.
  intros Hs Ha HA' HLw Hd Hg Hf Htl Hcl.
  apply (sinv_grow z z' Lw); try assumption; rewrite ?Hd, ?Hf; auto using N.le_refl, newest_same_files.
  - apply Hs.
  - intros Hsf Hl _. left. destruct (Hcl Hsf Hl) as [Hsf0 Hl0]. auto using late_new_lw.
Qed.

Lemma sinv_unlink z z' Lw id l' :
  sinv z Lw -> dsorted (z_disk z) -> ids (z_disk z) = id :: l' -> z_disk z' = disk_remove id (z_disk z) ->
  zG z' = zG z -> In id (accepted (z_w z)) -> w_alive (z_w z) = true ->
  w_sync_failed (z_w z) = false -> late (z_w z) ->
  w_files (z_w z') = w_files (z_w z) -> sync_tail (z_w z') -> AInv z' Lw ->
  sinv z' Lw.
Proof.
  intros Hs Sd Ei Ed Hg Hid Ha Hsf Hl Hf Htl HA'. pose proof Hs as [S1 S2 S3 S4].
  specialize (S4 Ha). destruct S4 as [(nf & ln & A) W2 W3 W4].
  assert (Hi' : ids (z_disk z') = l') by (rewrite Ed; apply ids_remove_head; [exact Ei|rewrite <- Ei; exact Sd]).
  assert (Hne : forall j, In j l' -> j <> id).
  { intros j Hj. unfold dsorted in Sd. rewrite Ei in Sd. apply ss_inv in Sd as [_ Sd'].
    rewrite Forall_forall in Sd'. specialize (Sd' _ Hj). lia. }
  assert (Hw : winv z' Lw).
  { constructor; [exact HA'| |exact Htl|].
    - intros nf' Hn'. rewrite (newest_same_files _ _ Hf) in Hn'. specialize (W2 _ Hn').
      rewrite Ei in W2. apply old_ids_tail in W2. rewrite Hi', Hf, Ed.
      eapply old_ids_ext; [| |exact W2].
      + intros j Hj _. rewrite fsy_remove; [lia|]. apply Hne, Hj.
      + intros j Hj _ Ht. left. split; [exact Ht|]. apply fln_remove. apply Hne, Hj.
    - intros _ _. rewrite Ed. eapply durd_remove_head; [exact Sd|exact Ei|]. apply W4; assumption. }
  constructor.
  - rewrite Ed. unfold disk_remove. rewrite Forall_forall in *. intros f Hf'. apply filter_In in Hf'. apply S1, Hf'.
  - rewrite Hg. intros l U Hin.
    destruct (in_dec N.eq_dec id l) as [Hil|Hil].
    + left. assert (HU : U <= Lw) by (eapply (a_acc _ _ _ _ A); eassumption).
      split; [|exact HU]. rewrite Ed. eapply durd_remove_head; [exact Sd|exact Ei|].
      eapply dur_ids_le; [exact HU|]. apply W4; assumption.
    + destruct (S2 _ _ Hin) as [[D1 D2]|D].
      * left. split; [|exact D2]. rewrite Ed. eapply durd_remove_head; eassumption.
      * right. intros j Hj. specialize (D _ Hj). rewrite Ei in D. rewrite Hi'.
        destruct D as [D|D]; [subst j; contradiction|exact D].
  - apply ainv_bound. exact HA'.
  - intros _. exact Hw.
Qed.

Lemma pos_move_tail w b p : w_files w <> [] -> pos_move w b p -> sync_tail (w_set_pos w b p).
Proof.
  intros Hne M. unfold sync_tail. zproj. destruct M; try exact I.
  destruct (w_files w) as [|f [|g r]]; [congruence|eauto|cbn [length] in *; lia].
Qed.

Lemma pos_move_late w b p : w_batch w = Some b -> pos_move w b p -> late (w_set_pos w b p) -> late w.
Proof.
  unfold late. intros -> M. zproj. destruct M as [i ww Ep _ _|i Ep _|Ep _|i ww Ep _ _|i Ep _|Ep _|Ep _|ids Ep _ _|Ep];
    rewrite Ep; tauto.
Qed.

Lemma sinv_zwork z ok z' v Lw : Inv z -> sinv z Lw -> zwork z ok = Some (z', v) -> exists Lw', sinv z' Lw'.
Proof.
  intros Hinv Hs H. pose proof Hinv as (gone & rmw & keep & Hc).
  pose proof (cinv_dsorted _ _ _ _ Hc) as Sd.
  assert (Hle : Forall synced_le (z_disk z')).
  { eapply synced_le_step; [|apply Hs]. eapply (zstep_disk z (ZWork ok)). exact H. }
  pose proof H as H0. apply zwork_inv in H as (b & Ha & Eb & W).
  destruct (w_alive (z_w z')) eqn:Ha'.
  2:{ rewrite (work_step_dead _ _ _ _ _ Ha W Ha'). exists Lw. destruct Hs as [S1 S2 S3 S4].
      constructor; zproj; try assumption. discriminate. }
  pose proof (s_alive _ _ Hs Ha) as [W1 W2 W3 W4].
  destruct (ainv_zwork _ _ _ _ _ W1 H0 Ha') as [HA' HLw]. clear H0.
  exists (new_lw z Lw).
  pose proof (ci_flags _ _ _ _ Hc) as Fw.
  pose proof (ci_present _ _ _ _ Hc) as Epr. rewrite (ci_alive _ _ _ _ Hc Ha), (w_rm_batch _ _ Eb) in Epr.
  destruct W1 as (nfile & ln & A). pose proof A as [A1 A2 A3 A4 A5 A6 A7].
  specialize (W2 _ A1).
  assert (Hne : w_files (z_w z) <> []).
  { intros E. apply newest_in in A1. rewrite E in A1. destruct A1. }
  unfold sync_tail in W3. unfold late in W4. rewrite Eb in W3, W4.
  assert (Hnew : forall w', w_files w' = w_files (z_w z) -> forall nf', newest w' = Some nf' -> nf' = nfile).
  { intros w' Hf nf' Hn'. rewrite (newest_same_files _ _ Hf), A1 in Hn'. congruence. }
  assert (Hlate : forall p, b_pos b = p -> match p with BCallbacks _ | BPostponed | BNonFlush | BUnlink _ | BDone => True | _ => False end ->
            late (z_w z)) by (intros p Ep Hp; unfold late; rewrite Eb, Ep; exact Hp).
  work_cases W.
  - apply (sinv_keep z); try assumption; try reflexivity.
    + apply pos_move_tail; assumption.
    + intros Hsf Hl. split; [exact Hsf|eapply pos_move_late; eassumption].
  - discriminate.
  - assert (f = nfile) by congruence. subst f.
    apply (sinv_grow z _ Lw); try assumption; try reflexivity; zproj.
    + apply ids_append, Sd.
    + intros j. rewrite fsy_append. apply N.le_refl.
    + intros nf' j Hn' Hj. apply fln_append_other. assert (nf' = nfile) by congruence. subst nf'. lia.
    + auto.
    + unfold late. zproj. intros _ [].
  - apply (sinv_grow z _ Lw); try assumption; try reflexivity; zproj.
    + apply ids_sync, Sd.
    + intros j. apply fsy_sync_le, Hs.
    + intros nf' j _ _. apply fln_sync.
    + unfold newest. zproj. rewrite Ef. symmetry. apply rev_head_tail. discriminate.
    + rewrite Ef. intros i [<-|Hi]; [right|left; exact Hi]. rewrite fsy_sync, N.eqb_refl. apply N.le_refl.
    + unfold late. zproj. intros _ [].
  - apply (sinv_keep z); try assumption; try reflexivity. zproj. discriminate.
  - apply (sinv_keep z); try assumption; try reflexivity.
    + unfold sync_tail. zproj. rewrite Ep in W3. exact W3.
    + unfold late. zproj. intros _ [].
  - (* the newest file, the only one still tracked, is synced: everything written is durable *)
    rewrite Ep in W3. destruct W3 as [f0 W3]. rewrite Ef in W3. inversion W3; subst f0 rest. clear W3.
    assert (nfile = f) by (unfold newest in A1; rewrite Ef in A1; cbn in A1; congruence). subst nfile.
    apply (sinv_grow z _ Lw); try assumption; try reflexivity; zproj.
    + apply ids_sync, Sd.
    + intros j. apply fsy_sync_le, Hs.
    + intros nf' j _ _. apply fln_sync.
    + auto.
    + intros _ _ Hold. right. replace (new_lw z Lw) with Lw by (unfold new_lw; rewrite Eb, Ep; reflexivity).
      unfold durd. rewrite ids_sync by exact Sd.
      eapply dur_ids_establish with (n := wf_id f) (c := wf_id f + ln).
      * exact Sd.
      * left. eapply hl_some_in. exact A2.
      * rewrite Ef in Hold. exact (Hold _ A1).
      * intros j Hj Hn. unfold kfin_of in A4. eapply (acct_kfin _ _ _ _ _ _ _ _ _ A4); [|exact Hn].
        apply hl_in_some in Hj as [l Hl]. rewrite Hl. discriminate.
      * exact A5.
      * rewrite fsy_sync, N.eqb_refl, (hl_fln _ _ _ A2). lia.
  - apply (sinv_keep z); try assumption; try reflexivity.
    intros Hsf _. split; [exact Hsf|apply (Hlate _ Ep I)].
  - rewrite Epp in Epr. cbn [app] in Epr. rewrite (late_new_lw z Lw (Hlate _ Ep I)) in *.
    eapply sinv_unlink with (id := id); [exact Hs|exact Sd|exact Epr|reflexivity|reflexivity| |exact Ha|exact Esf
                                        |apply (Hlate _ Ep I)|reflexivity| |exact HA'].
    + unfold accepted. rewrite Epp. left. reflexivity.
    + unfold sync_tail. zproj. rewrite Ep. exact I.
  - (* a removal of the batch: nothing is postponed at this position *)
    destruct (unlink_pos_flags _ _ _ _ Fw Ha Eb Ep) as [Hsf Hpp].
    unfold batch_rm in Epr. rewrite Ep, Hpp in Epr. cbn [app] in Epr. rewrite (late_new_lw z Lw (Hlate _ Ep I)) in *.
    eapply sinv_unlink with (id := id); [exact Hs|exact Sd|exact Epr|reflexivity|reflexivity| |exact Ha|exact Hsf
                                        |apply (Hlate _ Ep I)|reflexivity|exact I|exact HA'].
    unfold accepted, unlink_rem. rewrite Eb, Ep. apply in_or_app. right. left. reflexivity.
  - (* the next chunk file is tracked: the old newest file is complete *)
    unfold stream, w_stream, batch_stream in A4. rewrite Eb, Ep, Enf in A4. cbn [nf_list map app acct] in A4.
    destruct A4 as (H1 & H2 & H3 & l & H4 & H5 & H6).
    eapply sinv_build; [exact Hs|exact HLw|reflexivity|exact Hle|auto|auto|].
    constructor; [exact HA'| |exact I|]; zproj.
    + intros nf' Hn'. unfold newest in Hn'. zproj. rewrite rev_unit in Hn'. inversion Hn'; subst nf'. cbn [wf_id].
      rewrite map_app. cbn [map wf_id].
      apply old_ids_append with (n := wf_id nfile).
      * exact Sd.
      * left. eapply hl_some_in. exact A2.
      * intros j Hj Hj1 Hj2. apply hl_in_some in Hj as [lj Hlj]. rewrite (H3 j Hj1 Hj2) in Hlj. discriminate.
      * rewrite (hl_fln _ _ _ A2). exact H1.
      * apply in_map. apply (newest_in _ _ A1).
      * exact W2.
    + intros Hsf _. rewrite (late_new_lw z Lw (Hlate _ Ep I)). apply W4; [exact Hsf|rewrite Ep; exact I].
  - apply (sinv_keep z); try assumption; try reflexivity. zproj. discriminate.
  - apply (sinv_keep z); try assumption; try reflexivity.
    intros Hsf _. split; [exact Hsf|apply (Hlate _ Ep I)].
Qed.


(* ================================================================== the invariant holds in every reachable state *)
Lemma dinv_zstep z e z' v : DInv z -> zstep z e = Some (z', v) -> DInv z'.
Proof.
  intros (Hinv & Lw & Hs) H. split; [eapply inv_zstep; eassumption|].
  destruct e as [o| |k nf|ok|].
  - exists Lw. eapply sinv_zcall; eassumption.
  - exists Lw. eapply sinv_zeff; eassumption.
  - exists Lw. eapply sinv_zrecv; eassumption.
  - eapply sinv_zwork; eassumption.
  - apply zdrop_inv in H as (Et & _ & ->). exists Lw. apply sinv_zdrop; assumption.
Qed.

Lemma dur_ids_zero sy l : dur_ids sy l 0.
Proof. induction l as [|i r IH]; cbn [dur_ids]; [exact I|]. split; [lia|exact IH]. Qed.

Lemma old_ids_full sy ln T n : forall l, AckDurable.contig l ->
  (forall f, In f (removelast l) -> sy (f_id f) = N.of_nat (length (f_data f))) ->
  old_ids sy ln T n (map f_id l).
Proof.
  induction l as [|f r IH]; intros Hc Hsy; [exact I|].
  cbn [map old_ids]. destruct Hc as [Hc1 Hc2]. split.
  - destruct r as [|g r']; cbn [map]; [exact I|]. intros _ _. left.
    rewrite (Hsy f) by (left; reflexivity). unfold AckDurable.fend in Hc1. lia.
  - apply IH; [exact Hc2|]. intros g Hg. apply Hsy.
    destruct r as [|g' r']; [destruct Hg|]. right. exact Hg.
Qed.

Lemma sinv_fresh y old fc : AckDurable.fresh synced_le y old fc -> Forall AckDurable.full_synced old ->
  sinv (sys2_of y) 0.
Proof.
  intros [Od Os Ole Oc Ocl Oid Oend Opos Opend Orem Ocb Oq Oa [pl Hfl]] Hold.
  pose proof (proj2 (JournalDisk.dsorted_iff _) Os) as Hsd.
  assert (Hget : disk_get (f_id fc) (y_disk y) = Some fc).
  { rewrite Od in *. apply JournalDisk.disk_get_mid. exact Os. }
  pose proof (AckDurable.fresh_ids_le synced_le y old fc) as Hle.
  unfold AckDurable.fend in Opos.
  constructor; unfold sys2_of, zG; zproj; cbn [todo_rm todo_cr flat_map app].
  - exact Ole.
  - intros l U [].
  - split; [lia|constructor].
  - intros _. constructor; unfold zG; zproj.
    + exists (mkWF (f_id fc) pl), (JournalChunk.blen (f_data fc)).
      constructor; unfold zG, stream, w_stream, accepted, unlink_rem; zproj; cbn [wf_id app].
      * unfold newest. cbn [w_files]. rewrite Hfl. reflexivity.
      * unfold hl. rewrite Hget. reflexivity.
      * unfold JournalChunk.blen. lia.
      * rewrite Oq. cbn [map app acct]. unfold kfin_of, kfin.
        rewrite Opend, <- Oid, <- Oend.
        split; [reflexivity|]. split; [unfold AckDurable.fend, JournalChunk.blen; cbn [length]; lia|].
        intros j Hj. unfold hl. rewrite JournalDisk.disk_get_none; [reflexivity|].
        eapply Forall_impl; [|apply Hle; constructor; eauto].
        cbn beta. intros g Hg. lia.
      * lia.
      * constructor.
      * intros l U id [].
    + intros nf _. unfold ids. rewrite Od at 3. apply old_ids_full.
      * exact Oc.
      * rewrite removelast_last. intros f Hf. unfold fsy.
        rewrite (In_disk_get _ _ Hsd).
        -- rewrite Forall_forall in Hold. apply Hold. exact Hf.
        -- rewrite Od. apply in_or_app. now left.
    + exact I.
    + intros _ _. unfold durd. apply dur_ids_zero.
Qed.

Lemma dinv_fresh y old fc : AckDurable.fresh synced_le y old fc -> Forall AckDurable.full_synced old ->
  DInv (sys2_of y).
Proof. intros O Hold. split; [eapply inv_fresh; eauto|]. exists 0. now apply (sinv_fresh _ old fc). Qed.

Lemma DInv_reach cfg d z : AckDurable.opens_fresh synced_le AckDurable.full_synced cfg d -> reach cfg d z -> DInv z.
Proof.
  intros Hd. revert z. apply (reach_ind DInv); [|apply dinv_zstep].
  intros y Ho. destruct (Hd y Ho) as (old & fc & O & Hf). exact (dinv_fresh y old fc O Hf).
Qed.

Theorem zreach_DInv cfg z : zreach cfg z -> DInv z.
Proof. exact (DInv_reach cfg [] z (AckDurable.opens_fresh_nil _ _ cfg synced_le_zero)). Qed.

(* ================================================================== C08: removed only after durable *)
Lemma DInv_removed_after_durable z : DInv z -> removed_after_durable z.
Proof.
  intros ((gone & rmw & keep & Hc) & Lw & Hs) l U id Hin Hid Hnone.
  destruct (s_u3 _ _ Hs _ _ Hin) as [[D _]|D].
  - apply durable_upto_ids; [eapply cinv_dsorted; exact Hc|exact D].
  - exfalso. apply disk_get_None in Hnone. apply Hnone. apply D. exact Hid.
Qed.

Theorem C08_removed_after_durable : forall cfg z, zreach cfg z -> removed_after_durable z.
Proof. intros cfg z Hr. apply DInv_removed_after_durable, (zreach_DInv cfg), Hr. Qed.

Print Assumptions C08_removed_after_durable.
