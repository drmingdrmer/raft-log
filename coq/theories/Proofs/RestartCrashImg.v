(* C05 for an instance started on a non-empty directory, with the journal invariant taken from
   RestartCrash.v ([C05_recovers_outside_known_from]), and a witness for its hypotheses: the
   directory [RestartSys.demo_dir] with the last record of its newest file torn ([torn_dir]) satisfies
   [dir_ok] and opens; after a run on it that is cut in the middle of a batch, the directory as it
   then is is a crash image outside the gap class, and opens again ([torn_dir_recovers]). *)
From Coq Require Import List NArith Lia.
From RaftLog Require Import Model.Core Model.Recover Model.Run Model.Sys.
From RaftLog Require Import Proofs.CodecFacts Proofs.NoPanic.
From RaftLog Require Import Proofs.CrashSteps Proofs.CrashRecover.
From RaftLog Require Proofs.AckFacts.
From RaftLog Require Import Proofs.RestartShape Proofs.RestartSys Proofs.RestartCrash.
Import ListNotations.
Local Open Scope N_scope.

Theorem C05_recovers_outside_known_from : forall cfg cfg' d z d',
  RestartCrash.dir_ok d -> RestartSys.zreach_from cfg d z -> hist_wf z -> crash_image z d' ->
  ~ gap_class d' -> c_truncate cfg' = true ->
  exists y', open_dir cfg' d' = OpenOk y' /\ sys_ok y' /\
             (forall ops res fin, run_ops y' ops = (res, fin) -> ~ In ResPanic res).
Proof.
  intros cfg cfg' d z d' Hdok Hr Hw. apply image_recovers, (RestartCrash.journalled_from cfg d z Hdok Hr Hw).
Qed.

Print Assumptions C05_recovers_outside_known_from.

(* the two-file directory of RestartSys.demo_dir after a crash that tore the last record of
   the newest file: 20 of its 34 bytes survive *)
Definition torn_dir : disk :=
  match demo_dir with a :: b :: _ => [a; mkFile (f_id b) (firstn 20 (f_data b)) 0] | _ => [] end.
(* coqchk re-evaluates a [vm_compute] step with the kernel's lazy machine, several times slower than the VM:
   each run is evaluated in one lemma, against a constant holding its normal form, and every fact is read off the
   constant; otherwise every [vm_compute; reflexivity] about the state would run the whole run again. *)
Definition torn_dir_nf : disk := Eval vm_compute in torn_dir.
Lemma torn_dir_eq : torn_dir = torn_dir_nf.
Proof. unfold torn_dir. rewrite demo_dir_eq. reflexivity. Qed.
Definition torn_z0_nf : sys2 :=
  Eval vm_compute in match zinit demo_cfg torn_dir_nf with Some z => z | None => AckFacts.zstart demo_cfg end.
Lemma torn_init_eq : zinit demo_cfg torn_dir_nf = Some torn_z0_nf.
Proof. vm_compute. reflexivity. Qed.

Example torn_dir_ok :
  dir_ok torn_dir /\ length torn_dir = 2%nat /\ exists z0, zinit demo_cfg torn_dir = Some z0.
Proof.
  rewrite torn_dir_eq.
  split; [|split].
  - split; [|split].
    + split; [vm_compute; repeat constructor|vm_compute; repeat constructor; discriminate].
    + vm_compute. repeat constructor.
    + unfold dir_chained. vm_compute. split; [|split; [|exact I]].
      * intros _. eexists _, _. split; [reflexivity|]. intros H. now elim H.
      * intros H. now elim H.
  - vm_compute. reflexivity.
  - exists torn_z0_nf. exact torn_init_eq.
Qed.

Definition torn_events : list zev :=
  [ZCall (OW (OVote (2, 1))); ZEff; ZEff; ZEff; ZEff; ZRecv 0 false; ZWork true].

Definition torn_z_nf : sys2 :=
  Eval vm_compute in match zrun torn_z0_nf torn_events with Some (z, _) => z | None => torn_z0_nf end.
Definition torn_vis_nf : list vis :=
  Eval vm_compute in match zrun torn_z0_nf torn_events with Some (_, v) => v | None => [] end.
Lemma torn_run_eq : zrun torn_z0_nf torn_events = Some (torn_z_nf, torn_vis_nf).
Proof. vm_compute. reflexivity. Qed.

(* after reopening the torn directory, a vote that fills the chunk (rotation) and a crash in the
   middle of the worker's batch, right after its write: the directory as it is then is a crash
   image outside the gap class, so by C05_recovers_outside_known_from it opens again *)
Example torn_dir_recovers :
  exists z, zreach_from demo_cfg torn_dir z /\ hist_wf z /\ crash_image z (z_disk z) /\
            ~ gap_class (z_disk z) /\
            exists y', open_dir demo_cfg (z_disk z) = OpenOk y'.
Proof.
  assert (R : exists z0 z vis, zinit demo_cfg torn_dir = Some z0 /\ zrun z0 torn_events = Some (z, vis) /\
                               hist_wf z /\ ~ gap_class (z_disk z)).
  { exists torn_z0_nf, torn_z_nf, torn_vis_nf. split; [rewrite torn_dir_eq; exact torn_init_eq|].
    split; [exact torn_run_eq|]. split.
    - unfold hist_wf. replace (map fst (g_writes (z_ghost torn_z_nf))) with [OVote (2, 1)] by (vm_compute; reflexivity).
      repeat constructor; cbn; unfold wf_pair; cbn; lia.
    - intros (pre & f & g & post & Ed & Hne).
      assert (Hl : length (z_disk torn_z_nf) = 2%nat) by (vm_compute; reflexivity).
      rewrite Ed, app_length in Hl. cbn [length] in Hl.
      destruct pre; [|cbn [length] in Hl; lia]. destruct post; [|cbn [length] in Hl; lia].
      assert (Hf : f = nth 0 (z_disk torn_z_nf) (mkFile 0 [] 0)) by (rewrite Ed; reflexivity).
      assert (Hg : g = nth 1 (z_disk torn_z_nf) (mkFile 0 [] 0)) by (rewrite Ed; reflexivity).
      apply Hne. rewrite Hf, Hg. vm_compute. reflexivity. }
  destruct R as (z0 & z & vis & E0 & E & Hw & Hg).
  assert (Hr : zreach_from demo_cfg torn_dir z) by (exists z0, torn_events, vis; auto).
  assert (Hle : Forall AckFacts.synced_le (z_disk z)).
  { apply (C04_synced_le_written_from demo_cfg torn_dir z); [|exact Hr].
    exact (proj2 (proj1 (proj1 torn_dir_ok))). }
  exists z. split; [exact Hr|]. split; [exact Hw|]. split; [now apply crash_image_self|]. split; [exact Hg|].
  destruct (C05_recovers_outside_known_from demo_cfg demo_cfg torn_dir z (z_disk z)
              (proj1 torn_dir_ok) Hr Hw (crash_image_self z Hle) Hg eq_refl) as (y' & Ho & _).
  eauto.
Qed.
Print Assumptions torn_dir_ok.
Print Assumptions torn_dir_recovers.

