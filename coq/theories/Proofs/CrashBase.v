(* C03/C05, stage A: what the L2 journal invariant is written with. The journal side: [glook], [gbytes]
   (the bytes of a file of the ghost journal). The disk side: [data_of]. The stream of AckDurable.v (what
   the pending micro-effects, the worker's batch remainder and the queue will still do) is read by folds:
   [pw] (the bytes it appends to a file), [fcur] (the worker's newest file after it), [theads]/[hd_ids]
   (the head records the caller still writes itself), [creates]. The stream has a shape: a head record is
   the first thing written to its file ([hf], [seen_of]) and every create is followed by its head
   ([paired]). [EI] and [HW] of CrashJournal.v use these folds directly; [pend] and [logical2] (disk plus
   everything pending) only state the invariant for a reader (CrashSteps.L2_journal_facts). *)
From Coq Require Import List NArith Lia Arith Sorting.Sorted.
From RaftLog Require Import Base.Bytes Model.Types Model.Codec Model.Core
  Model.Sys.
From RaftLog Require Import Proofs.NoPanic Proofs.JournalDisk Proofs.JournalChunk.
From RaftLog Require Proofs.AckFacts Proofs.AckDurable Proofs.RestartSim Proofs.RestartFacts.
Import ListNotations.
Local Open Scope N_scope.
Local Arguments enc_record : simpl never.

Module RS := RestartSim.
Module RF := RestartFacts.
Module AD := AckDurable.
Module AF := AckFacts.

Notation jfile := (N * list record)%type (only parsing).

Definition bprefix (a b : bytes) : Prop := exists t, b = a ++ t.

Lemma bprefix_refl a : bprefix a a.
Proof. exists []. now rewrite app_nil_r. Qed.
Lemma bprefix_app a t : bprefix a (a ++ t).
Proof. exists t. reflexivity. Qed.
Lemma bprefix_trans a b c : bprefix a b -> bprefix b c -> bprefix a c.
Proof. intros [t ->] [u ->]. exists (t ++ u). now rewrite app_assoc. Qed.
Lemma bprefix_nil a : bprefix [] a.
Proof. exists a. reflexivity. Qed.
Lemma bprefix_app_l a b c : bprefix a b -> bprefix a (b ++ c).
Proof. intros [t ->]. exists (t ++ c). now rewrite app_assoc. Qed.
Lemma bprefix_length a b : bprefix a b -> (length a <= length b)%nat.
Proof. intros [t ->]. rewrite app_length. lia. Qed.
Lemma bprefix_firstn a b : bprefix a b -> a = firstn (length a) b.
Proof.
  intros [t ->]. rewrite firstn_app, Nat.sub_diag, firstn_all. simpl. now rewrite app_nil_r.
Qed.

Fixpoint glook (id : N) (G : list jfile) : option (list record) :=
  match G with
  | [] => None
  | g :: r => if N.eqb id (fst g) then Some (snd g) else glook id r
  end.

Definition gbytes (G : list jfile) (id : N) : bytes :=
  match glook id G with Some rs => encs rs | None => [] end.

Lemma glook_notin id G : ~ In id (map fst G) -> glook id G = None.
Proof.
  induction G as [|g G IH]; intros H; simpl; [reflexivity|].
  destruct (N.eqb_spec id (fst g)) as [E|E].
  - exfalso. apply H. left. now symmetry.
  - apply IH. intros Hin. apply H. now right.
Qed.

Lemma glook_app id A B :
  glook id (A ++ B) = match glook id A with Some x => Some x | None => glook id B end.
Proof.
  induction A as [|g A IH]; simpl; [reflexivity|].
  destruct (N.eqb id (fst g)); [reflexivity|exact IH].
Qed.

Lemma glook_In id G rs : glook id G = Some rs -> In (id, rs) G.
Proof.
  induction G as [|[i x] G IH]; simpl; [discriminate|].
  destruct (N.eqb_spec id i) as [E|E]; intros H.
  - inversion H; subst. now left.
  - right. now apply IH.
Qed.

Lemma glook_some_in id G rs : glook id G = Some rs -> In id (map fst G).
Proof. intros H. apply glook_In in H. apply (in_map fst) in H. exact H. Qed.

Lemma glook_last G0 o rs : StronglySorted N.lt (map fst (G0 ++ [(o, rs)])) ->
  glook o (G0 ++ [(o, rs)]) = Some rs.
Proof.
  intros H. rewrite map_app in H. simpl in H. apply ss_nodup_app in H. destruct H as [H _].
  rewrite glook_app, (glook_notin _ _ H). simpl. now rewrite N.eqb_refl.
Qed.

Lemma glook_snoc_other G g id : id <> fst g -> glook id (G ++ [g]) = glook id G.
Proof.
  intros Hne. rewrite glook_app. destruct (glook id G); [reflexivity|].
  simpl. destruct (N.eqb_spec id (fst g)); [congruence|reflexivity].
Qed.

Lemma glook_snoc_new G g : ~ In (fst g) (map fst G) -> glook (fst g) (G ++ [g]) = Some (snd g).
Proof.
  intros H. rewrite glook_app, (glook_notin _ _ H). simpl. now rewrite N.eqb_refl.
Qed.

Definition data_of (d : disk) (id : N) : bytes :=
  match disk_get id d with Some f => f_data f | None => [] end.

Lemma disk_get_id i d f : disk_get i d = Some f -> f_id f = i.
Proof. apply JournalDisk.disk_get_id. Qed.

(* [data_of] is [file_bytes] of JournalDisk.v *)
Lemma data_of_append_same id data d : In id (map f_id d) ->
  data_of (disk_append id data d) id = data_of d id ++ data.
Proof. apply fb_append_same. Qed.

Lemma data_of_append_other id data d i : i <> id ->
  data_of (disk_append id data d) i = data_of d i.
Proof. apply fb_append_other. Qed.

Lemma data_of_append_absent id data d : ~ In id (map f_id d) -> disk_append id data d = d.
Proof.
  intros H. apply disk_get_None in H. unfold disk_append. now rewrite H.
Qed.

Lemma data_of_sync id d i : data_of (disk_sync id d) i = data_of d i.
Proof. apply fb_sync. Qed.

Lemma data_of_remove_other id d i : i <> id -> data_of (disk_remove id d) i = data_of d i.
Proof. intros H. unfold data_of. rewrite disk_get_remove. now apply N.eqb_neq in H as ->. Qed.

Lemma data_of_absent d i : ~ In i (map f_id d) -> data_of d i = [].
Proof. apply file_bytes_not_in. Qed.

Lemma data_of_create id d i : ~ In id (map f_id d) ->
  data_of (disk_put (mkFile id [] 0) d) i = data_of d i.
Proof.
  intros H. unfold data_of. rewrite disk_get_put. simpl.
  destruct (N.eqb_spec i id) as [->|]; [|reflexivity]. apply disk_get_None in H. now rewrite H.
Qed.

Lemma data_of_remove_dom id d cs i : (forall c, In c cs -> ~ In c (map f_id d)) ->
  In i (map f_id (disk_remove id d) ++ cs) ->
  In i (map f_id d ++ cs) /\ data_of (disk_remove id d) i = data_of d i.
Proof.
  intros Hfresh Hin. rewrite in_app_iff, In_ids_remove in Hin. rewrite in_app_iff.
  destruct (N.eq_dec i id) as [->|Hne].
  - destruct Hin as [[Hx _]|Hin]; [congruence|]. split; [now right|].
    rewrite !data_of_absent; [reflexivity|now apply Hfresh|rewrite In_ids_remove; tauto].
  - split; [tauto|now apply data_of_remove_other].
Qed.

Lemma data_of_in d f : disk_sorted d -> In f d -> data_of d (f_id f) = f_data f.
Proof.
  intros Hs Hin. destruct (in_split _ _ Hin) as (a & b & ->).
  unfold data_of. now rewrite JournalDisk.disk_get_mid.
Qed.

Definition creates := AD.creates.

(* bytes that the stream of pending effects appends to file [id], when the worker's
   newest tracked file is [cur] *)
Fixpoint pw (cur : N) (l : list xeff) (id : N) : bytes :=
  match l with
  | [] => []
  | XCreate _ :: r => pw cur r id
  | XWriteHead i h :: r => (if N.eqb i id then h else []) ++ pw cur r id
  | XSend (WWrite _ data _) :: r => (if N.eqb cur id then data else []) ++ pw cur r id
  | XSend (WAppendFile off _) :: r => pw off r id
  | XSend (WRemove _) :: r => pw cur r id
  end.

(* the file tracked as newest after the stream *)
Fixpoint fcur (cur : N) (l : list xeff) : N :=
  match l with
  | [] => cur
  | XSend (WAppendFile off _) :: r => fcur off r
  | _ :: r => fcur cur r
  end.

Lemma pw_app c a b id : pw c (a ++ b) id = pw c a id ++ pw (fcur c a) b id.
Proof.
  revert c. induction a as [|x a IH]; intros c; simpl; [reflexivity|].
  destruct x as [i|i h|[u dta cb|off p|ids]]; simpl; rewrite ?IH, ?app_assoc; reflexivity.
Qed.

Lemma fcur_app c a b : fcur c (a ++ b) = fcur (fcur c a) b.
Proof.
  revert c. induction a as [|x a IH]; intros c; simpl; [reflexivity|].
  destruct x as [i|i h|[u dta cb|off p|ids]]; simpl; apply IH.
Qed.

Definition cur0 (z : sys2) : N := match newest (z_w z) with Some f => wf_id f | None => 0 end.

Definition pend (z : sys2) (id : N) : bytes :=
  pw (cur0 z) (AD.stream z) id ++
  (if N.eqb (fcur (cur0 z) (AD.stream z)) id then k_pending (z_core z) else []).

Definition logical2 (z : sys2) (id : N) : bytes := data_of (z_disk z) id ++ pend z id.

(* ids that are, were, or will be the worker's newest file, and ids whose head record
   is still to be written by the caller; a head is written to a file that is none of
   these *)
Fixpoint hf (seen : list N) (l : list xeff) : Prop :=
  match l with
  | [] => True
  | XWriteHead id _ :: r => ~ In id seen /\ hf (id :: seen) r
  | XSend (WAppendFile off _) :: r => hf (off :: seen) r
  | _ :: r => hf seen r
  end.

Fixpoint seen_of (seen : list N) (l : list xeff) : list N :=
  match l with
  | [] => seen
  | XWriteHead id _ :: r => seen_of (id :: seen) r
  | XSend (WAppendFile off _) :: r => seen_of (off :: seen) r
  | _ :: r => seen_of seen r
  end.

Lemma hf_anti l : forall s s', hf s l -> incl s' s -> hf s' l.
Proof.
  induction l as [|x l IH]; intros s s' H Hi; simpl in *; [exact I|].
  destruct x as [i|i h|[u dta cb|off p|ids]]; simpl in *; try (eapply IH; eauto; fail).
  - destruct H as [H1 H2]. split; [intros Hx; apply H1, Hi, Hx|].
    eapply IH; [exact H2|]. intros y [->|Hy]; [now left|right; now apply Hi].
  - eapply IH; [exact H|]. intros y [->|Hy]; [now left|right; now apply Hi].
Qed.

Lemma hf_app l1 : forall s l2, hf s (l1 ++ l2) <-> hf s l1 /\ hf (seen_of s l1) l2.
Proof.
  induction l1 as [|x l1 IH]; intros s l2; simpl; [tauto|].
  destruct x as [i|i h|[u dta cb|off p|ids]]; simpl; rewrite ?IH; tauto.
Qed.

Lemma seen_of_app l1 : forall s l2, seen_of s (l1 ++ l2) = seen_of (seen_of s l1) l2.
Proof.
  induction l1 as [|x l1 IH]; intros s l2; simpl; [reflexivity|].
  destruct x as [i|i h|[u dta cb|off p|ids]]; simpl; apply IH.
Qed.

Lemma seen_of_incl l : forall s, incl s (seen_of s l).
Proof.
  induction l as [|x l IH]; intros s; simpl; [apply incl_refl|].
  destruct x as [i|i h|[u dta cb|off p|ids]]; simpl; try apply IH.
  - eapply incl_tran; [|apply IH]. apply incl_tl, incl_refl.
  - eapply incl_tran; [|apply IH]. apply incl_tl, incl_refl.
Qed.

Lemma seen_of_mono l : forall s s', incl s s' -> incl (seen_of s l) (seen_of s' l).
Proof.
  induction l as [|x l IH]; intros s s' H; simpl; [exact H|].
  destruct x as [i|i h|[u dta cb|off p|ids]]; simpl; try (apply IH; exact H).
  - apply IH. intros y [->|Hy]; [now left|right; now apply H].
  - apply IH. intros y [->|Hy]; [now left|right; now apply H].
Qed.

Lemma hf_remove_mid a : forall s x b, hf s (a ++ x :: b) -> hf s (a ++ b).
Proof.
  induction a as [|y a IH]; intros s x b H; simpl in *.
  - destruct x as [i|i h|[u dta cb|off p|ids]]; simpl in H; try exact H.
    + destruct H as [_ H]. eapply hf_anti; [exact H|]. apply incl_tl, incl_refl.
    + eapply hf_anti; [exact H|]. apply incl_tl, incl_refl.
  - destruct y as [i|i h|[u dta cb|off p|ids]]; simpl in *; try (eapply IH; eauto; fail).
    destruct H as [H1 H2]. split; [exact H1|]. eapply IH; eauto.
Qed.

Lemma fcur_seen l : forall c s, In c s -> In (fcur c l) (seen_of s l).
Proof.
  induction l as [|x l IH]; intros c s H; simpl; [exact H|].
  destruct x as [i|i h|[u dta cb|off p|ids]]; simpl; try (apply IH; exact H).
  - apply IH. now right.
  - apply IH. now left.
Qed.

Lemma hf_head_notin a : forall s id h b, hf s (a ++ XWriteHead id h :: b) -> ~ In id (seen_of s a).
Proof.
  intros s id h b H. apply hf_app in H. destruct H as [_ H]. simpl in H. apply H.
Qed.

Lemma pw_no_target l : forall c s id, In c s -> ~ In id (seen_of s l) -> pw c l id = [].
Proof.
  induction l as [|x l IH]; intros c s id Hc Hn; simpl; [reflexivity|].
  destruct x as [i|i h|[u dta cb|off p|ids]]; simpl in *.
  - eapply IH; eauto.
  - destruct (N.eqb_spec i id) as [->|E].
    + exfalso. apply Hn. apply (seen_of_incl l (id :: s)). now left.
    + simpl. apply (IH c (i :: s)); [now right|exact Hn].
  - destruct (N.eqb_spec c id) as [->|E].
    + exfalso. apply Hn. apply (seen_of_incl l s). exact Hc.
    + simpl. eapply IH; eauto.
  - apply (IH off (off :: s)); [now left|exact Hn].
  - eapply IH; eauto.
Qed.

Lemma pw_head a : forall c s id h b, In c s -> hf s (a ++ XWriteHead id h :: b) ->
  pw c (a ++ XWriteHead id h :: b) id = h ++ pw c (a ++ b) id.
Proof.
  intros c s id h b Hc H. pose proof (hf_head_notin _ _ _ _ _ H) as Hn.
  rewrite !pw_app. rewrite (pw_no_target a c s id Hc Hn). simpl. now rewrite N.eqb_refl.
Qed.

Lemma pw_head_other a : forall c id h b i, i <> id ->
  pw c (a ++ XWriteHead id h :: b) i = pw c (a ++ b) i.
Proof.
  intros c id h b i Hne. rewrite !pw_app. simpl.
  destruct (N.eqb_spec id i); [congruence|reflexivity].
Qed.

Lemma fcur_drop a x b c : (forall off p, x <> XSend (WAppendFile off p)) ->
  fcur c (a ++ x :: b) = fcur c (a ++ b).
Proof.
  intros Hx. rewrite !fcur_app. destruct x as [i|i h|[u dta cb|off p|ids]]; simpl; try reflexivity.
  exfalso. eapply Hx. reflexivity.
Qed.

Lemma pw_create a c id b i : pw c (a ++ XCreate id :: b) i = pw c (a ++ b) i.
Proof. rewrite !pw_app. reflexivity. Qed.

Fixpoint theads (t : list xeff) (id : N) : bytes :=
  match t with
  | XWriteHead i h :: r => (if N.eqb i id then h else []) ++ theads r id
  | _ :: r => theads r id
  | [] => []
  end.

Fixpoint hd_ids (t : list xeff) : list N :=
  match t with
  | XWriteHead i _ :: r => i :: hd_ids r
  | _ :: r => hd_ids r
  | [] => []
  end.

Lemma theads_app a b id : theads (a ++ b) id = theads a id ++ theads b id.
Proof.
  induction a as [|x a IH]; simpl; [reflexivity|].
  destruct x as [i|i h|r]; simpl; rewrite ?IH, ?app_assoc; reflexivity.
Qed.

Lemma theads_notin t id : ~ In id (hd_ids t) -> theads t id = [].
Proof.
  induction t as [|x t IH]; intros H; simpl; [reflexivity|].
  destruct x as [i|i h|r]; simpl in *; try (apply IH; exact H).
  destruct (N.eqb_spec i id) as [->|E]; [exfalso; apply H; now left|].
  simpl. apply IH. intros Hin. apply H. now right.
Qed.

Lemma hf_hd_ids l : forall s id, hf s l -> In id s -> ~ In id (hd_ids l).
Proof.
  induction l as [|x l IH]; intros s id H Hin; simpl; [tauto|].
  destruct x as [i|i h|[u dta cb|off p|ids]]; simpl in *; try (eapply IH; eauto; fail).
  - destruct H as [H1 H2]. intros [->|Hx]; [tauto|]. revert Hx. eapply IH; [exact H2|now right].
  - eapply IH; [exact H|now right].
Qed.

Lemma hd_ids_app a b : hd_ids (a ++ b) = hd_ids a ++ hd_ids b.
Proof.
  induction a as [|x a IH]; simpl; [reflexivity|]. destruct x as [i|i h|r]; simpl; now rewrite ?IH.
Qed.

Lemma hd_ids_sends q : hd_ids (map XSend q) = [].
Proof. induction q; simpl; auto. Qed.

Lemma creates_app a b : creates (a ++ b) = creates a ++ creates b.
Proof. unfold creates, AD.creates. now rewrite flat_map_app. Qed.

Lemma creates_sends q : creates (map XSend q) = [].
Proof. apply AD.creates_sends. Qed.

Fixpoint paired (t : list xeff) : Prop :=
  match t with
  | [] => True
  | XCreate id :: r =>
    match r with
    | XWriteHead id' _ :: r' => id = id' /\ paired r'
    | _ => False
    end
  | XWriteHead _ _ :: _ => False
  | XSend _ :: r => paired r
  end.

Lemma paired_app_aux n : forall a b, (length a <= n)%nat -> paired a -> paired b -> paired (a ++ b).
Proof.
  induction n as [|n IH]; intros a b Hl Ha Hb.
  - destruct a; [exact Hb|simpl in Hl; lia].
  - destruct a as [|x a]; [exact Hb|].
    destruct x as [i|i h|r]; simpl in *.
    + destruct a as [|[i'|i' h'|r'] a']; try tauto. simpl. destruct Ha as [-> Ha]. split; [reflexivity|].
      apply IH; [simpl in Hl; lia|exact Ha|exact Hb].
    + tauto.
    + apply IH; [lia|exact Ha|exact Hb].
Qed.

Lemma paired_app a b : paired a -> paired b -> paired (a ++ b).
Proof. apply (paired_app_aux (length a)). lia. Qed.

Lemma paired_expand effs : paired (flat_map expand_eff effs).
Proof.
  induction effs as [|e effs IH]; simpl; [exact I|].
  destruct e as [id h|r]; simpl; auto.
Qed.

Lemma paired_hd_ids_aux n : forall t, (length t <= n)%nat -> paired t -> hd_ids t = creates t.
Proof.
  induction n as [|n IH]; intros t Hl H.
  - destruct t; [reflexivity|simpl in Hl; lia].
  - destruct t as [|x t]; [reflexivity|].
    destruct x as [i|i h|r]; simpl in *.
    + destruct t as [|[i'|i' h'|r'] t']; try tauto. destruct H as [-> H]. simpl.
      unfold creates, AD.creates. simpl. f_equal. apply IH; [simpl in Hl; lia|exact H].
    + tauto.
    + apply IH; [lia|exact H].
Qed.

Lemma paired_hd_ids t : paired t -> hd_ids t = creates t.
Proof. apply (paired_hd_ids_aux (length t)). lia. Qed.

