(* C09, decidable core: corruption is reported.

   Part A (record level): what dec_record does with an encoded record in which
   exactly one byte has been altered.
   Part B (directory level): what open_dir does with a chunk that contains a
   damaged record, and with a journal whose middle chunk is missing. *)
From Coq Require Import List NArith Lia Bool Arith Sorted.
From Coq.Strings Require Import Byte.
From RaftLog Require Import Base.Bytes Base.Crc32 Model.Types Model.Codec Model.Core Model.Recover.
From RaftLog Require Proofs.Crc32Facts.
From RaftLog Require Import Proofs.CodecFacts Proofs.ScanFacts Proofs.RecoverFacts.
Import ListNotations.

Section Lists.
Context {A : Type}.

Lemma app_eq_len (x x' y y' : list A) :
  x ++ y = x' ++ y' -> length x = length x' -> x = x' /\ y = y'.
Proof.
  revert x'. induction x as [|a x IH]; intros [|a' x'] E L; cbn [length] in L; try discriminate L.
  - auto.
  - cbn [app] in E. injection E as E1 E2. subst a'.
    destruct (IH x' E2) as [H1 H2]; [lia|]. subst. auto.
Qed.

Lemma app_split_le (x y p q : list A) :
  x ++ y = p ++ q -> length x <= length p -> exists m, p = x ++ m /\ y = m ++ q.
Proof.
  revert p. induction x as [|a x IH]; intros p E L.
  - exists p. auto.
  - destruct p as [|c p]; cbn [length] in L; [lia|].
    cbn [app] in E. injection E as E1 E2. subst c.
    destruct (IH p E2) as [m [H1 H2]]; [lia|]. exists m. subst. auto.
Qed.

Lemma app_split_lt (x y p q : list A) (b : A) :
  x ++ y = p ++ b :: q -> length p < length x -> exists s, x = p ++ b :: s /\ q = s ++ y.
Proof.
  revert x. induction p as [|c p IH]; intros x E L.
  - destruct x as [|a x]; cbn [length] in L; [lia|].
    cbn [app] in E. injection E as E1 E2. subst a. exists x. auto.
  - destruct x as [|a x]; cbn [length] in L; [lia|].
    cbn [app] in E. injection E as E1 E2. subst a.
    destruct (IH x E2) as [s [H1 H2]]; [lia|]. exists s. subst. auto.
Qed.

Lemma split_mid (X F B pre suf : list A) (b : A) :
  X ++ F ++ B = pre ++ b :: suf ->
  length X <= length pre < length X + length F ->
  exists m s, pre = X ++ m /\ F = m ++ b :: s /\ suf = s ++ B.
Proof.
  intros E [L1 L2].
  destruct (app_split_le _ _ _ _ E L1) as [m [H1 H2]].
  assert (L3 : length m < length F).
  { subst pre. rewrite app_length in L2. lia. }
  destruct (app_split_lt _ _ _ _ _ H2 L3) as [s [H3 H4]].
  exists m, s. auto.
Qed.

Lemma mid_length (m s : list A) (b b' : A) : length (m ++ b' :: s) = length (m ++ b :: s).
Proof. rewrite !app_length. reflexivity. Qed.

Lemma mid_inj (m s : list A) (b b' : A) : m ++ b :: s = m ++ b' :: s -> b = b'.
Proof. intros E. apply app_inv_head in E. now injection E. Qed.

End Lists.

Lemma be_enc_inj k a b :
  (a < 256 ^ N.of_nat k)%N -> (b < 256 ^ N.of_nat k)%N -> be_enc k a = be_enc k b -> a = b.
Proof.
  intros Ha Hb E. apply (f_equal be_dec) in E.
  rewrite !be_dec_enc, !N.mod_small in E by assumption. exact E.
Qed.

Lemma enc_u64_inj a b : wf_u64 a -> wf_u64 b -> enc_u64 a = enc_u64 b -> a = b.
Proof.
  unfold wf_u64, enc_u64. rewrite <- pow256_8. apply be_enc_inj.
Qed.

Lemma be_enc_of_bytes k (x : bytes) :
  length x = k -> (be_dec x < 256 ^ N.of_nat k)%N /\ be_enc k (be_dec x) = x.
Proof.
  intros L. subst k. split; [apply be_dec_lt|apply be_enc_dec].
Qed.

Lemma u64_field_alter v m b s b' :
  enc_u64 v = m ++ b :: s -> exists v', wf_u64 v' /\ enc_u64 v' = m ++ b' :: s.
Proof.
  intros E. exists (be_dec (m ++ b' :: s)).
  assert (L : length (m ++ b' :: s) = 8).
  { rewrite (mid_length m s b b'), <- E. apply enc_u64_length. }
  destruct (be_enc_of_bytes 8 _ L) as [H1 H2].
  unfold wf_u64, enc_u64. rewrite <- pow256_8. auto.
Qed.

Lemma p_u64_bytes (x t : bytes) : length x = 8 -> p_u64 (x ++ t) = DOk (be_dec x, t).
Proof.
  intros L. destruct (be_enc_of_bytes 8 x L) as [H1 H2].
  rewrite <- H2 at 1. apply (g_rt _ _ _ Good_u64). unfold wf_u64. now rewrite <- pow256_8.
Qed.

(* ---- Part A: one altered byte ---- *)

Lemma alter_in_body r pre b suf :
  enc_record r = pre ++ b :: suf -> length pre < length (enc_body r) ->
  exists s, enc_body r = pre ++ b :: s /\ suf = s ++ enc_u64 (crc32 (enc_body r)).
Proof.
  intros E L. rewrite enc_record_eq in E. exact (app_split_lt _ _ _ _ _ E L).
Qed.

Lemma alter_in_crc r pre b suf :
  enc_record r = pre ++ b :: suf -> length (enc_body r) <= length pre ->
  exists m, pre = enc_body r ++ m /\ enc_u64 (crc32 (enc_body r)) = m ++ b :: suf.
Proof.
  intros E L. rewrite enc_record_eq in E. exact (app_split_le _ _ _ _ E L).
Qed.

(* no record of the same length: if the altered bytes decode at all, then to a record whose encoding has
   another length (the checksum distinguishes any two equally long bodies that differ in one byte) *)
Theorem C09_single_byte_same_length : forall r t pre b suf b' r' t',
  wf_record r -> enc_record r = pre ++ b :: suf -> b <> b' ->
  dec_record (pre ++ b' :: suf ++ t) = DOk (r', t') ->
  length (enc_record r') <> length (enc_record r).
Proof.
  intros r t pre b suf b' r' t' Hwf He Hb Hd Hlen.
  apply dec_record_canonical in Hd as [Hwf' E].
  assert (L : length (pre ++ b' :: suf) = length (enc_record r')).
  { rewrite Hlen, He. apply mid_length. }
  change (pre ++ b' :: suf ++ t) with (pre ++ (b' :: suf) ++ t) in E.
  rewrite app_assoc in E.
  destruct (app_eq_len _ _ _ _ E L) as [E1 _]. symmetry in E1.
  assert (Lb : length (enc_body r') = length (enc_body r)).
  { rewrite !enc_body_len in Hlen. lia. }
  destruct (le_lt_dec (length (enc_body r)) (length pre)) as [Hc|Hc].
  - (* checksum byte: the bodies are the same *)
    destruct (alter_in_crc _ _ _ _ He Hc) as [m [P1 P2]].
    assert (Hc' : length (enc_body r') <= length pre) by lia.
    destruct (alter_in_crc _ _ _ _ E1 Hc') as [m' [P1' P2']].
    rewrite P1 in P1'.
    destruct (app_eq_len _ _ _ _ P1' (eq_sym Lb)) as [B1 B2].
    rewrite <- B1, <- B2, P2 in P2'. apply Hb. exact (mid_inj _ _ _ _ P2').
  - (* body byte: the checksums are the same *)
    destruct (alter_in_body _ _ _ _ He Hc) as [s [P1 P2]].
    assert (Hc' : length pre < length (enc_body r')) by lia.
    destruct (alter_in_body _ _ _ _ E1 Hc') as [s' [P1' P2']].
    rewrite P2 in P2'.
    assert (Ls : length s = length s').
    { apply (f_equal (@length _)) in P2'. rewrite !app_length, !enc_u64_length in P2'. lia. }
    destruct (app_eq_len _ _ _ _ P2' Ls) as [S1 S2]. subst s'.
    apply enc_u64_inj in S2; [|apply crc32_wf_u64|apply crc32_wf_u64].
    rewrite P1, P1' in S2.
    exact (Crc32Facts.crc32_single_byte pre s b b' Hb S2).
Qed.

(* the honest residual: for any position, the altered record is rejected, or
   looks incomplete, or (checksum coincidence on another parse shape) decodes
   to a record of a different length *)
Theorem C09_single_byte_outcomes : forall r t pre b suf b',
  wf_record r -> enc_record r = pre ++ b :: suf -> b <> b' ->
  dec_record (pre ++ b' :: suf ++ t) = DInvalid \/
  dec_record (pre ++ b' :: suf ++ t) = DEof \/
  exists r' t', dec_record (pre ++ b' :: suf ++ t) = DOk (r', t') /\
                wf_record r' /\
                pre ++ b' :: suf ++ t = enc_record r' ++ t' /\
                length (enc_record r') <> length (enc_record r).
Proof.
  intros r t pre b suf b' Hwf He Hb.
  destruct (dec_record (pre ++ b' :: suf ++ t)) as [[r' t']| |] eqn:D; auto.
  right. right. exists r', t'. split; [reflexivity|].
  destruct (dec_record_canonical _ _ _ D) as [W C].
  split; [exact W|]. split; [exact C|].
  exact (C09_single_byte_same_length _ _ _ _ _ _ _ _ Hwf He Hb D).
Qed.

Corollary C09_single_byte_not_same : forall r t pre b suf b' t',
  wf_record r -> enc_record r = pre ++ b :: suf -> b <> b' ->
  dec_record (pre ++ b' :: suf ++ t) <> DOk (r, t').
Proof.
  intros r t pre b suf b' t' Hwf He Hb D.
  exact (C09_single_byte_same_length _ _ _ _ _ _ _ _ Hwf He Hb D eq_refl).
Qed.

Theorem C09_checksum_field : forall r t pre b suf b',
  wf_record r -> enc_record r = pre ++ b :: suf -> b <> b' ->
  length (enc_body r) <= length pre ->
  dec_record (pre ++ b' :: suf ++ t) = DInvalid.
Proof.
  intros r t pre b suf b' Hwf He Hb Hc.
  destruct (alter_in_crc _ _ _ _ He Hc) as [m [P1 P2]].
  assert (L : length (m ++ b' :: suf) = 8).
  { rewrite (mid_length m suf b b'), <- P2. apply enc_u64_length. }
  subst pre.
  replace ((enc_body r ++ m) ++ b' :: suf ++ t) with (enc_body r ++ (m ++ b' :: suf) ++ t)
    by (rewrite <- !app_assoc; reflexivity).
  rewrite dec_record_eq, (g_rt _ _ _ Good_p_body) by assumption.
  rewrite firstn_consumed, (p_u64_bytes _ _ L).
  destruct (N.eqb_spec (be_dec (m ++ b' :: suf)) (crc32 (enc_body r))) as [Ec|Ec]; [|reflexivity].
  exfalso. apply Hb.
  destruct (be_enc_of_bytes 8 _ L) as [_ H2]. rewrite Ec in H2.
  change (be_enc 8) with enc_u64 in H2. rewrite P2 in H2.
  exact (mid_inj _ _ _ _ H2).
Qed.

Lemma altered_body_invalid r r2 pre b b' s t :
  wf_record r2 -> enc_body r = pre ++ b :: s -> enc_body r2 = pre ++ b' :: s -> b <> b' ->
  dec_record (enc_body r2 ++ enc_u64 (crc32 (enc_body r)) ++ t) = DInvalid.
Proof.
  intros W2 E E2 Hb.
  rewrite dec_record_eq, (g_rt _ _ _ Good_p_body) by assumption.
  rewrite firstn_consumed, (g_rt _ _ _ Good_u64) by apply crc32_wf_u64.
  destruct (N.eqb_spec (crc32 (enc_body r)) (crc32 (enc_body r2))) as [Ec|Ec]; [|reflexivity].
  exfalso. rewrite E, E2 in Ec.
  exact (Crc32Facts.crc32_single_byte pre s b b' Hb Ec).
Qed.

(* when the altered body is again the body of a well-formed record, the decoder gets as
   far as the checksum, which no longer fits *)
Lemma C09_reencodable_body : forall r t pre b suf b',
  enc_record r = pre ++ b :: suf -> b <> b' -> length pre < length (enc_body r) ->
  (forall s, enc_body r = pre ++ b :: s ->
             exists r2, wf_record r2 /\ enc_body r2 = pre ++ b' :: s) ->
  dec_record (pre ++ b' :: suf ++ t) = DInvalid.
Proof.
  intros r t pre b suf b' He Hb Hc Hre.
  destruct (alter_in_body _ _ _ _ He Hc) as [s [P1 P2]].
  destruct (Hre s P1) as [r2 [W2 E2]].
  subst suf.
  replace (pre ++ b' :: (s ++ enc_u64 (crc32 (enc_body r))) ++ t)
    with ((pre ++ b' :: s) ++ enc_u64 (crc32 (enc_body r)) ++ t)
    by (rewrite <- !app_assoc; reflexivity).
  rewrite <- E2. exact (altered_body_invalid r r2 pre b b' s t W2 P1 E2 Hb).
Qed.

(* the two u64 after the tag (positions 4..19): vote / log id *)
Lemma alter_pair_bytes tag a c rest pre b b' s :
  wf_u64 a -> wf_u64 c ->
  enc_u32 tag ++ enc_u64 a ++ enc_u64 c ++ rest = pre ++ b :: s ->
  4 <= length pre < 20 ->
  exists a' c', wf_u64 a' /\ wf_u64 c' /\
    enc_u32 tag ++ enc_u64 a' ++ enc_u64 c' ++ rest = pre ++ b' :: s.
Proof.
  intros Wa Wc E L.
  destruct (le_lt_dec 12 (length pre)) as [H|H].
  - rewrite !app_assoc in E. rewrite <- (app_assoc _ (enc_u64 c) rest) in E.
    destruct (split_mid (enc_u32 tag ++ enc_u64 a) (enc_u64 c) rest pre s b E) as [m [s0 [P1 [P2 P3]]]].
    { rewrite app_length, enc_u32_length, !enc_u64_length. lia. }
    destruct (u64_field_alter c m b s0 b' P2) as [c' [Wc' Ec']].
    exists a, c'. split; [assumption|]. split; [assumption|].
    subst pre s. rewrite Ec'. rewrite <- !app_assoc. reflexivity.
  - destruct (split_mid (enc_u32 tag) (enc_u64 a) (enc_u64 c ++ rest) pre s b E) as [m [s0 [P1 [P2 P3]]]].
    { rewrite enc_u32_length, enc_u64_length. lia. }
    destruct (u64_field_alter a m b s0 b' P2) as [a' [Wa' Ea']].
    exists a', c. split; [assumption|]. split; [assumption|].
    subst pre s. rewrite Ea'. rewrite <- !app_assoc. reflexivity.
Qed.

Definition pair_record (r : record) : Prop :=
  match r with RVote _ | RCommit _ | RPurge _ => True | _ => False end.

Lemma enc_body_pair_record r : pair_record r ->
  exists a c, wf_record r = (wf_u64 a /\ wf_u64 c) /\
    enc_body r = enc_u32 (rec_tag r) ++ enc_u64 a ++ enc_u64 c ++ [] /\
    forall a' c', wf_u64 a' -> wf_u64 c' ->
      exists r2, wf_record r2 /\
        enc_body r2 = enc_u32 (rec_tag r) ++ enc_u64 a' ++ enc_u64 c' ++ [].
Proof.
  intros P. destruct r as [v|id p|id|o|id|st]; try destruct P.
  - exists (fst v), (snd v). split; [reflexivity|]. split.
    + unfold enc_body, enc_payload, enc_pair. now rewrite app_nil_r.
    + intros a' c' Wa Wc. exists (RVote (a', c')). split; [split; assumption|].
      unfold enc_body, enc_payload, enc_pair. cbn [fst snd rec_tag]. now rewrite app_nil_r.
  - exists (fst id), (snd id). split; [reflexivity|]. split.
    + unfold enc_body, enc_payload, enc_pair. now rewrite app_nil_r.
    + intros a' c' Wa Wc. exists (RCommit (a', c')). split; [split; assumption|].
      unfold enc_body, enc_payload, enc_pair. cbn [fst snd rec_tag]. now rewrite app_nil_r.
  - exists (fst id), (snd id). split; [reflexivity|]. split.
    + unfold enc_body, enc_payload, enc_pair. now rewrite app_nil_r.
    + intros a' c' Wa Wc. exists (RPurge (a', c')). split; [split; assumption|].
      unfold enc_body, enc_payload, enc_pair. cbn [fst snd rec_tag]. now rewrite app_nil_r.
Qed.

(* the 16 id / vote bytes of RVote, RCommit, RPurge *)
Theorem C09_fixed_fields : forall r t pre b suf b',
  pair_record r ->
  wf_record r -> enc_record r = pre ++ b :: suf -> b <> b' ->
  4 <= length pre < 20 ->
  dec_record (pre ++ b' :: suf ++ t) = DInvalid.
Proof.
  intros r t pre b suf b' P Hwf He Hb L.
  destruct (enc_body_pair_record r P) as [a [c [W [EB Hmk]]]].
  rewrite W in Hwf. destruct Hwf as [Wa Wc].
  apply (C09_reencodable_body r t pre b suf b' He Hb).
  - rewrite EB, !app_length, enc_u32_length, !enc_u64_length. cbn [length]. lia.
  - intros s Es. rewrite EB in Es.
    destruct (alter_pair_bytes _ _ _ _ _ _ b' _ Wa Wc Es L) as [a' [c' [Wa' [Wc' E']]]].
    destruct (Hmk a' c' Wa' Wc') as [r2 [W2 E2]].
    exists r2. split; [assumption|]. now rewrite E2.
Qed.

Lemma enc_body_append id p :
  enc_body (RAppend id p) =
  enc_u32 1 ++ enc_u64 (fst id) ++ enc_u64 (snd id) ++ enc_u32 (N.of_nat (length p)) ++ p.
Proof.
  unfold enc_body, enc_payload, enc_pair, enc_bytes. cbn [rec_tag].
  rewrite <- !app_assoc. reflexivity.
Qed.

Lemma enc_body_append_length id p : length (enc_body (RAppend id p)) = 24 + length p.
Proof.
  rewrite enc_body_append, !app_length, !enc_u32_length, !enc_u64_length. lia.
Qed.

(* the log id and the payload content of an Append record *)
Theorem C09_append_fixed_fields : forall id p t pre b suf b',
  wf_record (RAppend id p) -> enc_record (RAppend id p) = pre ++ b :: suf -> b <> b' ->
  (4 <= length pre < 20 \/ 24 <= length pre) ->
  dec_record (pre ++ b' :: suf ++ t) = DInvalid.
Proof.
  intros id p t pre b suf b' Hwf He Hb L.
  destruct (le_lt_dec (length (enc_body (RAppend id p))) (length pre)) as [Hc|Hc].
  { exact (C09_checksum_field _ t _ _ _ _ Hwf He Hb Hc). }
  destruct Hwf as [[Wa Wc] Wp].
  apply (C09_reencodable_body _ t pre b suf b' He Hb Hc).
  intros s Es. rewrite enc_body_append in Es.
  destruct L as [L|L].
  - destruct (alter_pair_bytes _ _ _ _ _ _ b' _ Wa Wc Es L) as [a' [c' [Wa' [Wc' E']]]].
    exists (RAppend (a', c') p). split; [split; [split; assumption|assumption]|].
    rewrite enc_body_append. exact E'.
  - rewrite enc_body_append_length in Hc.
    rewrite !app_assoc in Es.
    rewrite <- (app_nil_r p) in Es at 2.
    destruct (split_mid _ p [] pre s b Es) as [m [s0 [P1 [P2 P3]]]].
    { rewrite !app_length, !enc_u32_length, !enc_u64_length. lia. }
    exists (RAppend id (m ++ b' :: s0)). split.
    + split; [split; assumption|]. unfold wf_bytes in *.
      rewrite (mid_length m s0 b b'), <- P2. exact Wp.
    + rewrite enc_body_append, (mid_length m s0 b b'), <- P2.
      subst pre s. rewrite app_nil_r, <- !app_assoc. reflexivity.
Qed.


Lemma encs_length_ge rs : length rs <= length (encs rs).
Proof.
  induction rs as [|r rs IH]; [apply Nat.le_refl|].
  rewrite encs_cons, app_length. pose proof (enc_record_min_len r) as H.
  cbn [length]. lia.
Qed.

Lemma encs_length_pos rs : rs <> [] -> 0 < length (encs rs).
Proof.
  intros H. destruct rs as [|r rs]; [congruence|].
  pose proof (encs_length_ge (r :: rs)) as L. cbn [length] in L. lia.
Qed.

(* ---- Part B.1: chunks that scan to the end are opened without truncation ---- *)

(* The same definition as [RecoverFacts.acc0], which [open_dir_eq] and the lemmas on [open_older] speak of; this
   one is what the statement of [C09_middle_missing] mentions. *)
Definition acc0 (cfg : config) (d : disk) : open_acc := mkOA (sm_new cfg) [] None None d.

Lemma acc0_eq cfg d : acc0 cfg d = RecoverFacts.acc0 cfg d.
Proof. reflexivity. Qed.

Lemma open_loop_gap cfg g rest a p :
  oa_prev_end a = Some p -> p <> f_id g -> open_loop cfg (g :: rest) a = inr (EGap, oa_disk a).
Proof.
  intros Hp Hne. rewrite open_loop_eq. unfold gap_at. rewrite Hp. now apply N.eqb_neq in Hne as ->.
Qed.

Definition scans_end (f : file) : Prop := snd (scan_file (f_data f)) = SEnd.

Lemma scans_end_no_trunc cfg f : scans_end f -> no_trunc cfg f.
Proof.
  unfold scans_end. intros H oc Hoc.
  destruct (chunk_open_inv _ _ _ _ Hoc) as (rs & tl & e & Es & _ & _ & S & -> & _).
  rewrite Es in H. cbn [snd] in H. subst e. cbn [stops] in S. now subst tl.
Qed.

(* ---- Part B.2: a damaged record makes open fail, nothing is modified ---- *)

Lemma open_loop_fails_here cfg f' post a e0 :
  chunk_open cfg (f_id f') (f_data f') = inr e0 ->
  exists e, open_loop cfg (f' :: post) a = inr (e, oa_disk a).
Proof.
  intros Hc. rewrite open_loop_eq.
  destruct (gap_at a (f_id f')); [|rewrite Hc]; eexists; reflexivity.
Qed.

(* Every chunk before the damaged one scans to its end (so it is opened
   without truncation) and Chunk::open refuses the damaged chunk. Then open
   fails (with a gap, validation or decode error) and the directory is exactly
   as it was. Holds whether or not the damaged chunk is the newest. *)
Theorem C09_open_refuses_chunk : forall cfg pre f' post e0,
  Forall scans_end pre ->
  chunk_open cfg (f_id f') (f_data f') = inr e0 ->
  exists e, open_dir cfg (pre ++ f' :: post) = OpenErr e (pre ++ f' :: post).
Proof.
  intros cfg pre f' post e0 Hpre Hc. rewrite open_dir_eq, open_loop_app.
  pose proof (open_older_disk cfg pre (Forall_impl _ (scans_end_no_trunc cfg) Hpre)
                (RecoverFacts.acc0 cfg (pre ++ f' :: post))) as D.
  destruct (open_older cfg pre _) as [a|[e d]]; cbn [RecoverFacts.acc0 oa_disk] in D.
  - destruct (open_loop_fails_here cfg f' post a e0 Hc) as [e He].
    exists e. rewrite He, D. reflexivity.
  - exists e. now rewrite D.
Qed.

Lemma chunk_open_invalid cfg id data recs rest :
  scan_file data = (recs, rest, SInvalid) -> all_zero rest && c_truncate cfg = false ->
  chunk_open cfg id data = inr EDecodeInvalid.
Proof. intros Hs Hz. unfold chunk_open. rewrite Hs, Hz. reflexivity. Qed.

Lemma chunk_open_eof_notrunc cfg id data recs rest :
  scan_file data = (recs, rest, SEof) -> c_truncate cfg = false ->
  chunk_open cfg id data = inr EDecodeEof.
Proof. intros Hs Hz. unfold chunk_open. rewrite Hs, Hz. reflexivity. Qed.

(* the damaged chunk given by its scan: it stops on bytes that are rejected and are not a zero tail.  Of [f]
   only the id and the synced mark are used; [Props/C09.v] states the instance [C09_open_refuses_record]. *)
Theorem C09_open_refuses : forall cfg pre f post data' recs rest,
  Forall scans_end pre ->
  scan_file data' = (recs, rest, SInvalid) -> all_zero rest = false ->
  exists e, open_dir cfg (pre ++ mkFile (f_id f) data' (f_synced f) :: post)
            = OpenErr e (pre ++ mkFile (f_id f) data' (f_synced f) :: post).
Proof.
  intros cfg pre f post data' recs rest Hpre Hs Hz.
  apply (C09_open_refuses_chunk cfg pre _ post EDecodeInvalid Hpre).
  apply (chunk_open_invalid _ _ _ recs rest Hs). now rewrite Hz.
Qed.

(* Part A and Part B together: a rejected record after well-formed ones *)
Theorem C09_open_refuses_record : forall cfg pre id synced post rs x,
  Forall scans_end pre -> Forall wf_record rs ->
  dec_record x = DInvalid -> all_zero x = false ->
  exists e, open_dir cfg (pre ++ mkFile id (encs rs ++ x) synced :: post)
            = OpenErr e (pre ++ mkFile id (encs rs ++ x) synced :: post).
Proof.
  intros cfg pre id synced post rs x Hpre W D Hz.
  apply (C09_open_refuses cfg pre (mkFile id [] synced) post _ (sized rs) x Hpre); [|exact Hz].
  apply (scan_file_stops rs x SInvalid W). split; [|exact D].
  intros E. subst x. discriminate Hz.
Qed.

(* ---- Part B.3: clean images; a missing middle chunk ---- *)

Definition clean_file (f : file) : Prop :=
  exists rs, rs <> [] /\ Forall wf_record rs /\ f_data f = encs rs.

Definition file_end (f : file) : N := (f_id f + N.of_nat (length (f_data f)))%N.

(* consecutive chunk files abut: the id of a chunk is the end offset of its
   predecessor *)
Fixpoint abut (fs : list file) : Prop :=
  match fs with
  | f :: r => match r with g :: _ => f_id g = file_end f | [] => True end /\ abut r
  | [] => True
  end.

Definition clean_files (fs : list file) : Prop := Forall clean_file fs /\ abut fs.

Lemma abut_mid xs x y ys : abut (xs ++ x :: y :: ys) -> f_id y = file_end x.
Proof.
  induction xs as [|a xs IH]; cbn [app].
  - intros [H _]. exact H.
  - intros [_ H]. exact (IH H).
Qed.

Lemma clean_file_nonempty f : clean_file f -> 0 < length (f_data f).
Proof. intros [rs [Hne [_ E]]]. rewrite E. now apply encs_length_pos. Qed.

Lemma clean_file_lt f : clean_file f -> (f_id f < file_end f)%N.
Proof. intros H. apply clean_file_nonempty in H. unfold file_end. lia. Qed.

Lemma abut_lt_all f fs : Forall clean_file (f :: fs) -> abut (f :: fs) ->
  Forall (fun g => (f_id f < f_id g)%N) fs.
Proof.
  revert f. induction fs as [|g fs IH]; intros f HF HA; [constructor|].
  inversion HF as [|? ? Hf HF']; subst.
  destruct HA as [E HA'].
  pose proof (clean_file_lt f Hf) as L.
  constructor; [lia|].
  specialize (IH g HF' HA').
  eapply Forall_impl; [|exact IH]. cbn beta. intros h Hh. lia.
Qed.

Theorem clean_files_sorted fs : clean_files fs ->
  StronglySorted (fun f g => (f_id f < f_id g)%N) fs.
Proof.
  intros [HF HA]. induction fs as [|f fs IH]; [constructor|].
  constructor.
  - apply IH; [now inversion HF|exact (proj2 HA)].
  - now apply abut_lt_all.
Qed.

Lemma chunk_open_clean cfg f : clean_file f ->
  exists oc, chunk_open cfg (f_id f) (f_data f) = inl oc /\ oc_truncated oc = false /\
             ck_ends (oc_chunk oc) <> [] /\ ck_end (oc_chunk oc) = file_end f.
Proof.
  intros [rs [Hne [W E]]]. rewrite E, chunk_open_complete by assumption.
  eexists. split; [reflexivity|]. cbn [oc_truncated oc_chunk]. split; [reflexivity|].
  split; [now apply chunk_of_ends_nonempty|].
  rewrite ck_end_chunk_of. unfold file_end. now rewrite E.
Qed.

Lemma clean_no_trunc cfg fs : Forall clean_file fs -> Forall (no_trunc cfg) fs.
Proof.
  apply Forall_impl. intros f H oc Hoc.
  destruct (chunk_open_clean cfg f H) as (oc' & Hoc' & T & _). congruence.
Qed.

Lemma clean_keeps cfg fs : Forall clean_file fs -> Forall (keeps cfg) fs.
Proof.
  apply Forall_impl. intros f H oc Hoc.
  destruct (chunk_open_clean cfg f H) as (oc' & Hoc' & _ & K & _). congruence.
Qed.

Lemma open_older_clean_prev_end cfg fs l a a' : clean_file l ->
  open_older cfg (fs ++ [l]) a = inl a' -> oa_prev_end a' = Some (file_end l).
Proof.
  intros Hl. rewrite open_older_app.
  destruct (open_older cfg fs a) as [a1|e]; cbn [obind open_older]; [|discriminate].
  destruct (open_step cfg l a1) as [a2|e] eqn:E; [|discriminate].
  intros H. inversion H; subst a2.
  destruct (open_step_inl _ _ _ _ E) as (oc & s1 & _ & Hoc & _ & ->).
  destruct (chunk_open_clean cfg l Hl) as (oc' & Hoc' & _ & _ & He).
  cbn [oa_prev_end]. congruence.
Qed.

Lemma mm_pre_clean pre f post : clean_files (pre ++ f :: post) -> Forall clean_file pre.
Proof. intros [HF _]. apply Forall_app in HF. tauto. Qed.

Lemma mm_gap_after_pre cfg pre f post a :
  clean_files (pre ++ f :: post) -> pre <> [] -> post <> [] ->
  open_older cfg pre (RecoverFacts.acc0 cfg (pre ++ post)) = inl a ->
  open_loop cfg post a = inr (EGap, pre ++ post).
Proof.
  intros Hclean Hpre Hpost Ha.
  pose proof (mm_pre_clean _ _ _ Hclean) as HFpre.
  destruct Hclean as [HF HA].
  destruct (exists_last Hpre) as [pre' [l El]].
  destruct post as [|g post']; [congruence|].
  assert (Hf : clean_file f).
  { apply Forall_app in HF. destruct HF as [_ HF]. now inversion HF. }
  pose proof (abut_mid _ _ _ _ HA) as E2.
  pose proof (open_older_disk_ok cfg pre _ a (clean_no_trunc cfg pre HFpre) Ha) as Hd.
  cbn [RecoverFacts.acc0 oa_disk] in Hd.
  subst pre.
  assert (E1 : f_id f = file_end l).
  { rewrite <- app_assoc in HA. cbn [app] in HA. exact (abut_mid _ _ _ _ HA). }
  apply Forall_app in HFpre. destruct HFpre as [_ Hl]. apply Forall_inv in Hl.
  rewrite (open_loop_gap cfg g post' a (file_end l)
             (open_older_clean_prev_end cfg pre' l _ a Hl Ha)), Hd; [reflexivity|].
  pose proof (clean_file_lt f Hf). lia.
Qed.

(* C09, missing middle chunk: if the chunks before the missing one replay
   without error, the open fails with the gap error; nothing is modified *)
Theorem C09_middle_missing : forall cfg pre f post a,
  clean_files (pre ++ f :: post) -> pre <> [] -> post <> [] ->
  open_loop cfg pre (acc0 cfg (pre ++ post)) = inl a ->
  open_dir cfg (pre ++ post) = OpenErr EGap (pre ++ post).
Proof.
  intros cfg pre f post a Hclean Hpre Hpost Ha.
  rewrite acc0_eq, (open_loop_older cfg pre (clean_keeps cfg pre (mm_pre_clean _ _ _ Hclean))) in Ha.
  rewrite open_dir_eq. destruct post as [|g post']; [congruence|].
  rewrite open_loop_app, Ha.
  now rewrite (mm_gap_after_pre cfg pre f (g :: post') a Hclean Hpre Hpost Ha).
Qed.

(* whatever happens in the earlier chunks, the open is refused and nothing is modified *)
Theorem C09_middle_missing_refused : forall cfg pre f post,
  clean_files (pre ++ f :: post) -> pre <> [] -> post <> [] ->
  exists e, open_dir cfg (pre ++ post) = OpenErr e (pre ++ post).
Proof.
  intros cfg pre f post Hclean Hpre Hpost.
  pose proof (mm_pre_clean _ _ _ Hclean) as HFpre.
  destruct (open_loop cfg pre (acc0 cfg (pre ++ post))) as [a|[e d]] eqn:Ha.
  - exists EGap. exact (C09_middle_missing cfg pre f post a Hclean Hpre Hpost Ha).
  - exists e. rewrite open_dir_eq. destruct post as [|g post']; [congruence|].
    rewrite acc0_eq, (open_loop_older cfg pre (clean_keeps cfg pre HFpre)) in Ha.
    rewrite open_loop_app, Ha.
    pose proof (open_older_disk cfg pre (clean_no_trunc cfg pre HFpre)
                  (RecoverFacts.acc0 cfg (pre ++ g :: post'))) as D.
    rewrite Ha in D. cbn [RecoverFacts.acc0 oa_disk] in D. now rewrite D.
Qed.

(* ---- Part B.4: the hypotheses are satisfiable; the first chunk is special ---- *)
Module Witness.
Local Open Scope N_scope.
Definition cfg := mkConfig 10 1000 2 1000 true.
Definition rs0 := [RState rstate0; RVote (1,1)].
Definition rs1 := [RState (mkRState (Some (1,1)) None None None None); RAppend (1,0) [x61]].
Definition rs2 := [RState (mkRState (Some (1,1)) (Some (1,0)) None None None); RCommit (1,0)].
Definition f0 := mkFile 0 (encs rs0) 0.
Definition f1 := mkFile (file_end f0) (encs rs1) 0.
Definition f2 := mkFile (file_end f1) (encs rs2) 0.
Definition is_ok (r : open_res) : bool := match r with OpenOk _ => true | OpenErr _ _ => false end.

Lemma wf_small a c : (a < 100 -> c < 100 -> wf_pair (a, c))%N.
Proof. unfold wf_pair, wf_u64. cbn [fst snd]. assert (100 < 2 ^ 64)%N by reflexivity. lia. Qed.

Lemma clean_image : clean_files ([f0] ++ f1 :: [f2]).
Proof.
  split.
  - repeat constructor.
    + exists rs0. split; [discriminate|]. split; [|reflexivity].
      repeat constructor; cbn; auto using wf_small; apply wf_small; lia.
    + exists rs1. split; [discriminate|]. split; [|reflexivity].
      repeat constructor; cbn; auto; try (apply wf_small; lia).
    + exists rs2. split; [discriminate|]. split; [|reflexivity].
      repeat constructor; cbn; auto; try (apply wf_small; lia).
  - cbn. auto.
Qed.

Lemma middle_missing_refused : open_dir cfg [f0; f2] = OpenErr EGap [f0; f2].
Proof.
  destruct (open_loop cfg [f0] (acc0 cfg ([f0] ++ [f2]))) as [a|[e d]] eqn:E.
  - exact (C09_middle_missing cfg [f0] f1 [f2] a clean_image
             ltac:(discriminate) ltac:(discriminate) E).
  - vm_compute in E. discriminate E.
Qed.

(* [pre <> []] is necessary: a missing FIRST chunk is not detected (it looks
   like a purged chunk), the open succeeds on the remaining chunks *)
Lemma first_missing_not_detected : is_ok (open_dir cfg [f1; f2]) = true.
Proof. vm_compute. reflexivity. Qed.
End Witness.

Print Assumptions C09_single_byte_same_length.
Print Assumptions C09_single_byte_outcomes.
Print Assumptions C09_checksum_field.
Print Assumptions C09_fixed_fields.
Print Assumptions C09_append_fixed_fields.
Print Assumptions C09_open_refuses_chunk.
Print Assumptions C09_open_refuses.
Print Assumptions C09_open_refuses_record.
Print Assumptions clean_files_sorted.
Print Assumptions C09_middle_missing.
Print Assumptions C09_middle_missing_refused.
Print Assumptions Witness.middle_missing_refused.
