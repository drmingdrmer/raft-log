(* Chaining the L2 contracts across incarnations of the store.  RestartSys.v proves the
   contracts (C04, C08, C14) for an instance opened on ANY directory [d] with [dir_wf d] and
   [older_synced d]; here those hypotheses are discharged for the directory a previous instance
   leaves behind: at an idle state with one tracked file ([idle_good_dir]) and for any crash
   image after a reboot ([reboot_good_dir]).  [open_dir] reads ids and data only ([deq]: equal
   up to the synced marks), so an image opens iff its [reboot] does ([open_dir_deq]). *)
From Coq Require Import List NArith Lia.
From RaftLog Require Import Model.Codec Model.Core Model.Recover Model.Run
  Model.Sys Spec.Durable.
From RaftLog Require Import Proofs.NoPanic Proofs.RecoverFacts
  Proofs.AckFacts Proofs.RestartShape Proofs.RestartSys.
From RaftLog Require Proofs.AckDurable Proofs.JournalDisk Proofs.PurgeLive Proofs.CrashSteps Proofs.CrashRecover Proofs.DropReopen.
Import ListNotations.
Local Open Scope N_scope.
Local Arguments enc_record : simpl never.

Module AD := AckDurable.

Lemma dir_wf_nil : dir_wf [] /\ older_synced [].
Proof. split; [split; constructor|constructor]. Qed.

Definition contracts (z : sys2) : Prop :=
  acked_durable z /\ removed_after_durable z /\ files_contiguous z /\ acks_in_order z /\
  Forall (fun f => (f_synced f <= N.of_nat (length (f_data f)))%N) (z_disk z).

Theorem contracts_from : forall cfg d z,
  dir_wf d -> older_synced d -> zreach_from cfg d z -> contracts z.
Proof.
  intros cfg d z Hwf Hold Hr. pose proof Hwf as [Hs Hle]. repeat split.
  - apply (C04_ack_after_sync_from cfg d z Hwf Hold Hr).
  - apply (C08_removed_after_durable_from cfg d z Hwf Hold Hr).
  - apply (C08_oldest_first_from cfg d z Hs Hr).
  - apply (C04_once_in_order_from cfg d z Hr).
  - apply (C04_synced_le_written_from cfg d z); [exact Hle|exact Hr].
Qed.

Definition clean_end (z : sys2) : Prop :=
  w_alive (z_w z) = true /\ worker_idle2 z /\ length (w_files (z_w z)) = 1%nat.

(* [RestartSys.ff_alive_from] under this file's name: named by the checks of C04, C08 and C14
   (MANIFEST.json: the [*_from] theorems of this file) *)
Lemma ff_alive_from cfg d z : zreach_from_ff cfg d z -> w_alive (z_w z) = true.
Proof. exact (RestartSys.ff_alive_from cfg d z). Qed.

Lemma ff_clean_end cfg d z : zreach_from_ff cfg d z -> worker_idle2 z ->
  length (w_files (z_w z)) = 1%nat -> clean_end z.
Proof. intros Hff Hi H1. split; [apply (ff_alive_from _ _ _ Hff)|split; assumption]. Qed.

Lemma idle_good_dir z : AD.full z -> clean_end z ->
  dir_wf (z_disk z) /\ older_synced (z_disk z) /\ disk_sorted (z_disk z).
Proof.
  intros F (Hal & Hi & H1).
  pose proof (AD.b_sorted _ (AD.f_b _ F)) as Hs.
  split; [split; [exact Hs|exact (AD.b_synced _ (AD.f_b _ F))]|]. split; [|exact Hs].
  destruct (AD.idle_shape z (proj2 (AD.f_a _ F Hal)) Hi) as (old & tin & fc & Ed & Hold & Ef & _).
  apply (f_equal (@length N)) in Ef. rewrite !map_length, app_length, H1 in Ef. cbn [length] in Ef.
  destruct tin; [|cbn [length] in Ef; lia].
  unfold older_synced. rewrite Ed. cbn [app]. rewrite removelast_last. exact Hold.
Qed.

Theorem idle_leaves_good_dir_from : forall cfg d z,
  dir_wf d -> older_synced d -> zreach_from cfg d z -> clean_end z ->
  dir_wf (z_disk z) /\ older_synced (z_disk z) /\ disk_sorted (z_disk z).
Proof.
  intros cfg d z Hwf Hold Hr. apply idle_good_dir, (full_from_reach cfg d z Hwf Hold Hr).
Qed.

(* the hypothesis that the worker tracks one file is expected to hold after every flush that is
   not followed by a rotation (not proved); [ff_idle_two_files] shows that fault-freeness and
   idleness alone do not give it.  Whether the store has been dropped plays no role. *)
Theorem drop_leaves_good_dir : forall cfg z1,
  zreach_ff cfg z1 -> worker_idle2 z1 -> length (w_files (z_w z1)) = 1%nat ->
  dir_wf (z_disk z1) /\ older_synced (z_disk z1) /\ disk_sorted (z_disk z1).
Proof.
  intros cfg z1 Hff Hi H1. apply idle_good_dir, (ff_clean_end cfg [] z1 Hff Hi H1).
  exact (AD.zreach_full cfg z1 (DropReopen.ff_reach _ _ Hff)).
Qed.

Theorem C14_next_instance_contracts : forall cfg cfg' z1 z2,
  zreach_ff cfg z1 -> worker_idle2 z1 -> length (w_files (z_w z1)) = 1%nat ->
  zreach_from cfg' (z_disk z1) z2 ->
  acked_durable z2 /\ removed_after_durable z2 /\ files_contiguous z2 /\ acks_in_order z2 /\
  Forall (fun f => (f_synced f <= N.of_nat (length (f_data f)))%N) (z_disk z2).
Proof.
  intros cfg cfg' z1 z2 Hff Hi H1 Hr.
  destruct (drop_leaves_good_dir cfg z1 Hff Hi H1) as (Hwf & Hold & _).
  apply (contracts_from cfg' (z_disk z1) z2 Hwf Hold Hr).
Qed.

(* the next instance does start (DropReopen.C14_reopen_after_drop), and every state it
   reaches satisfies the contracts *)
Theorem C14_next_instance_starts : forall cfg cfg' z1,
  zreach_ff cfg z1 -> CrashSteps.hist_wf z1 -> PurgeLive.hist_legal z1 ->
  z_dropped z1 = true -> worker_idle2 z1 -> c_truncate cfg' = true ->
  exists z0, zinit cfg' (z_disk z1) = Some z0 /\ zreach_from cfg' (z_disk z1) z0 /\
    (length (w_files (z_w z1)) = 1%nat ->
     forall z2, zreach_from cfg' (z_disk z1) z2 -> contracts z2).
Proof.
  intros cfg cfg' z1 Hff Hw Hl Hd Hi Ht.
  destruct (DropReopen.C14_reopen_after_drop cfg cfg' z1 Hff Hw Hl Hd Hi Ht) as (y' & k & sp & Ho & _).
  exists (sys2_of y'). assert (Hz : zinit cfg' (z_disk z1) = Some (sys2_of y')) by (unfold zinit; rewrite Ho; reflexivity).
  split; [exact Hz|]. split.
  - exists (sys2_of y'), [], []. split; [exact Hz|reflexivity].
  - intros H1 z2 Hr. apply (C14_next_instance_contracts cfg cfg' z1 z2 Hff Hi H1 Hr).
Qed.

(* [chain d l zl]: the incarnations [l] (configuration, events) are run one after the
   other, the first on directory [d], each next one on the directory the previous one
   left; every incarnation but the last ends in a [clean_end] state; [zl] is the state
   the last one reaches *)
Fixpoint chain (d : disk) (l : list (config * list zev)) (zl : sys2) : Prop :=
  match l with
  | [] => False
  | (cfg, es) :: r =>
    exists z0 z vis, zinit cfg d = Some z0 /\ zrun z0 es = Some (z, vis) /\
      match r with
      | [] => zl = z
      | _ :: _ => clean_end z /\ chain (z_disk z) r zl
      end
  end.

Theorem chain_contracts : forall l d zl,
  dir_wf d -> older_synced d -> chain d l zl ->
  contracts zl /\
  (clean_end zl -> dir_wf (z_disk zl) /\ older_synced (z_disk zl) /\ disk_sorted (z_disk zl)).
Proof.
  induction l as [|[cfg es] r IH]; intros d zl Hwf Hold H; [destruct H|].
  cbn [chain] in H. destruct H as (z0 & z & vis & Hi & Hr & Hrest).
  assert (Hreach : zreach_from cfg d z) by (exists z0, es, vis; split; assumption).
  destruct r as [|p r'].
  - subst zl. split; [apply (contracts_from cfg d z Hwf Hold Hreach)|].
    intros Hc. apply (idle_leaves_good_dir_from cfg d z Hwf Hold Hreach Hc).
  - destruct Hrest as [Hc Hch].
    destruct (idle_leaves_good_dir_from cfg d z Hwf Hold Hreach Hc) as (Hwf' & Hold' & _).
    apply (IH (z_disk z) zl Hwf' Hold' Hch).
Qed.

Corollary C14_incarnations_contracts : forall l zl, chain [] l zl -> contracts zl.
Proof. intros l zl H. apply (chain_contracts l [] zl (proj1 dir_wf_nil) (proj2 dir_wf_nil) H). Qed.

(* after a reboot everything that is on disk is durable *)
Definition reboot (d : disk) : disk :=
  map (fun f => mkFile (f_id f) (f_data f) (N.of_nat (length (f_data f)))) d.

Lemma reboot_ids d : map f_id (reboot d) = map f_id d.
Proof. unfold reboot. rewrite map_map. reflexivity. Qed.

Lemma reboot_full d : Forall (fun f => f_synced f = N.of_nat (length (f_data f))) (reboot d).
Proof. unfold reboot. rewrite Forall_map. apply Forall_forall. intros f _. reflexivity. Qed.

Lemma reboot_good d0 d' : disk_sorted d0 -> map f_id d' = map f_id d0 ->
  dir_wf (reboot d') /\ older_synced (reboot d') /\ disk_sorted (reboot d').
Proof.
  intros S E.
  assert (S' : disk_sorted (reboot d')).
  { apply (JournalDisk.fsorted_ids d0); [rewrite reboot_ids; exact E|exact S]. }
  split; [split; [exact S'|]|split; [|exact S']].
  - eapply Forall_impl; [|apply reboot_full]. intros f H. unfold synced_le. rewrite H. apply N.le_refl.
  - apply Forall_removelast, reboot_full.
Qed.

Lemma image_reboot_good z1 d' : AD.full z1 -> crash_image z1 d' ->
  dir_wf (reboot d') /\ older_synced (reboot d') /\ disk_sorted (reboot d').
Proof.
  intros F Hi. apply (reboot_good (z_disk z1)); [|apply CrashRecover.crash_image_ids; exact Hi].
  apply AD.b_sorted, AD.f_b, F.
Qed.

Theorem reboot_good_dir : forall cfg z1 d',
  zreach cfg z1 -> crash_image z1 d' ->
  dir_wf (reboot d') /\ older_synced (reboot d') /\ disk_sorted (reboot d').
Proof. intros cfg z1 d' Hr. apply image_reboot_good, (AD.zreach_full cfg z1 Hr). Qed.

(* Whenever the next instance opens on the rebooted directory (C05_recovers_outside_known
   says when it does on [d']; [open_dir_deq] below: opening ignores the synced marks),
   everything it reaches satisfies the contracts *)
Theorem C05_next_instance_contracts : forall cfg cfg' z1 d' z2,
  zreach cfg z1 -> crash_image z1 d' -> zreach_from cfg' (reboot d') z2 -> contracts z2.
Proof.
  intros cfg cfg' z1 d' z2 Hr Hi H2. destruct (reboot_good_dir cfg z1 d' Hr Hi) as (Hwf & Hold & _).
  apply (contracts_from cfg' (reboot d') z2 Hwf Hold H2).
Qed.

Theorem reboot_good_dir_from : forall cfg d z1 d',
  dir_wf d -> older_synced d -> zreach_from cfg d z1 -> crash_image z1 d' ->
  dir_wf (reboot d') /\ older_synced (reboot d') /\ disk_sorted (reboot d').
Proof. intros cfg d z1 d' Hwf Hold Hr. apply image_reboot_good, (full_from_reach cfg d z1 Hwf Hold Hr). Qed.

Definition feq (f g : file) : Prop := f_id f = f_id g /\ f_data f = f_data g.
Definition deq (d1 d2 : disk) : Prop := Forall2 feq d1 d2.

Lemma deq_put f g d1 d2 : feq f g -> deq d1 d2 -> deq (disk_put f d1) (disk_put g d2).
Proof.
  intros [Ei Ed] H. induction H as [|a b l1 l2 [Ai Ad] Hl IH]; cbn [disk_put].
  - constructor; [split; assumption|constructor].
  - rewrite <- Ei, <- Ai. destruct (N.compare (f_id f) (f_id a)).
    + constructor; [split; assumption|exact Hl].
    + constructor; [split; assumption|]. constructor; [split; assumption|exact Hl].
    + constructor; [split; assumption|exact IH].
Qed.

Lemma deq_remove id d1 d2 : deq d1 d2 -> deq (disk_remove id d1) (disk_remove id d2).
Proof.
  intros H. unfold disk_remove. induction H as [|a b l1 l2 [Ai Ad] Hl IH]; cbn [filter]; [constructor|].
  rewrite <- Ai. destruct (negb (N.eqb id (f_id a))); [constructor; [split; assumption|exact IH]|exact IH].
Qed.

Lemma deq_get id d1 d2 : deq d1 d2 ->
  match disk_get id d1, disk_get id d2 with
  | Some f, Some g => feq f g
  | None, None => True
  | _, _ => False
  end.
Proof.
  intros H. induction H as [|a b l1 l2 [Ai Ad] Hl IH]; cbn [disk_get]; [exact I|].
  rewrite <- Ai. destruct (N.eqb id (f_id a)); [split; assumption|exact IH].
Qed.

Record aeqd (a1 a2 : open_acc) : Prop := mkAeqd {
  ad_sm : oa_sm a1 = oa_sm a2;
  ad_closed : oa_closed a1 = oa_closed a2;
  ad_prev : oa_prev_end a1 = oa_prev_end a2;
  ad_last : oa_last a1 = oa_last a2;
  ad_disk : deq (oa_disk a1) (oa_disk a2) }.

Definition lres_eqd (r1 r2 : open_acc + (err * disk)) : Prop :=
  match r1, r2 with
  | inl a, inl b => aeqd a b
  | inr (e1, d1), inr (e2, d2) => e1 = e2 /\ deq d1 d2
  | _, _ => False
  end.

Lemma open_step_deq cfg f g a1 a2 : feq f g -> aeqd a1 a2 ->
  lres_eqd (open_step cfg f a1) (open_step cfg g a2).
Proof.
  intros [Ei Ed] [Hs Hc Hp Hla Hd]. unfold open_step, gap_at, sm_pre, trunc_disk.
  rewrite <- Ei, <- Ed, Hp, Hs, Hc, Hla.
  destruct (match oa_prev_end a2 with Some p => negb (N.eqb p (f_id f)) | None => false end);
    [split; [reflexivity|exact Hd]|].
  destruct (chunk_open cfg (f_id f) (f_data f)) as [oc|e]; [|split; [reflexivity|exact Hd]]. cbv zeta.
  assert (Hd12 : deq (if oc_truncated oc
                      then disk_put (mkFile (f_id f) (oc_data oc) (N.of_nat (length (oc_data oc)))) (oa_disk a1)
                      else oa_disk a1)
                     (if oc_truncated oc
                      then disk_put (mkFile (f_id f) (oc_data oc) (N.of_nat (length (oc_data oc)))) (oa_disk a2)
                      else oa_disk a2)).
  { destruct (oc_truncated oc); [|exact Hd]. apply deq_put; [split; reflexivity|exact Hd]. }
  destruct (replay _ _ _ _ _) as [s1 [e|]]; [split; [reflexivity|exact Hd12]|].
  constructor; cbn [oa_sm oa_closed oa_prev_end oa_last oa_disk]; try reflexivity. exact Hd12.
Qed.

Lemma open_loop_deq cfg : forall fs1 fs2 a1 a2, deq fs1 fs2 -> aeqd a1 a2 ->
  lres_eqd (open_loop cfg fs1 a1) (open_loop cfg fs2 a2).
Proof.
  intros fs1 fs2 a1 a2 H. revert a1 a2. induction H as [|f g r1 r2 Hfg Hr IH]; intros a1 a2 HA.
  - cbn [open_loop lres_eqd]. exact HA.
  - pose proof (open_step_deq cfg f g a1 a2 Hfg HA) as Hst. destruct Hfg as [Ei Ed].
    (* the loop takes a plain step, on both sides, unless [f] is the newest file and holds no record *)
    assert (Step : (r1 = [] -> forall oc, chunk_open cfg (f_id f) (f_data f) = inl oc ->
                                          ck_ends (oc_chunk oc) <> []) ->
                   lres_eqd (open_loop cfg (f :: r1) a1) (open_loop cfg (g :: r2) a2)).
    { intros Hne. rewrite !open_loop_step.
      - destruct (open_step cfg f a1) as [b1|[e1 d1]]; destruct (open_step cfg g a2) as [b2|[e2 d2]];
          try contradiction; [apply IH|]; exact Hst.
      - rewrite <- Ei, <- Ed. intros ->. inversion Hr; subst. now apply Hne.
      - exact Hne. }
    destruct r1 as [|f' r1']; [|apply Step; discriminate].
    destruct (chunk_open cfg (f_id f) (f_data f)) as [oc|e] eqn:Eoc; [|apply Step; discriminate].
    destruct (ck_ends (oc_chunk oc)) as [|e0 el] eqn:Ee.
    2:{ apply Step. intros _ oc' E. injection E as <-. rewrite Ee. discriminate. }
    inversion Hr; subst r2. destruct HA as [Hs Hc Hp Hla Hd].
    rewrite !open_loop_eq. unfold gap_at, trunc_disk. rewrite <- Ei, <- Ed, Hp, Eoc. cbv zeta. rewrite Ee.
    destruct (match oa_prev_end a2 with Some p => negb (N.eqb p (f_id f)) | None => false end);
      [split; [reflexivity|exact Hd]|].
    constructor; cbn [oa_sm oa_closed oa_prev_end oa_last oa_disk]; try assumption; try reflexivity.
    apply deq_remove. destruct (oc_truncated oc); [|exact Hd]. apply deq_put; [split; reflexivity|exact Hd].
Qed.

Theorem open_dir_deq : forall cfg d1 d2, deq d1 d2 ->
  match open_dir cfg d1, open_dir cfg d2 with
  | OpenOk y1, OpenOk y2 =>
    y_core y1 = y_core y2 /\ y_queue y1 = y_queue y2 /\ y_files y1 = y_files y2 /\
    y_acks y1 = y_acks y2 /\ deq (y_disk y1) (y_disk y2)
  | OpenErr e1 r1, OpenErr e2 r2 => e1 = e2 /\ deq r1 r2
  | _, _ => False
  end.
Proof.
  intros cfg d1 d2 H. rewrite !open_dir_eq.
  assert (HA : aeqd (acc0 cfg d1) (acc0 cfg d2)) by (constructor; try reflexivity; exact H).
  pose proof (open_loop_deq cfg d1 d2 _ _ H HA) as HL. unfold lres_eqd in HL.
  destruct (open_loop cfg d1 _) as [a|[e1 r1]]; destruct (open_loop cfg d2 _) as [b|[e2 r2]]; try contradiction.
  - destruct HL as [Hs Hc Hp Hla Hd]. unfold open_finish. rewrite Hc, Hs, Hp.
    destruct (reusable (oa_closed b)) as [[init lastc]|].
    + cbn [y_core y_queue y_files y_acks y_disk]. repeat split. exact Hd.
    + cbv zeta. pose proof (deq_get (match oa_prev_end b with Some p => p | None => 0 end) _ _ Hd) as Hg.
      destruct (disk_get _ (oa_disk a)); destruct (disk_get _ (oa_disk b)); try contradiction.
      * split; [reflexivity|exact Hd].
      * cbn [y_core y_queue y_files y_acks y_disk]. repeat split. apply deq_put; [split; reflexivity|exact Hd].
  - exact HL.
Qed.

Lemma deq_reboot d : deq d (reboot d).
Proof. unfold deq, reboot. induction d as [|f d IH]; cbn [map]; constructor; [split; reflexivity|exact IH]. Qed.

Theorem C05_reboot_next_instance : forall cfg cfg' z1 d',
  zreach cfg z1 -> CrashSteps.hist_wf z1 -> crash_image z1 d' ->
  ~ CrashRecover.gap_class d' -> c_truncate cfg' = true ->
  exists z0, zinit cfg' (reboot d') = Some z0 /\
    forall z2, zreach_from cfg' (reboot d') z2 -> contracts z2.
Proof.
  intros cfg cfg' z1 d' Hr Hw Hi Hg Ht.
  destruct (CrashRecover.C05_recovers_outside_known cfg cfg' z1 d' Hr Hw Hi Hg Ht) as (y' & Ho & _).
  pose proof (open_dir_deq cfg' d' (reboot d') (deq_reboot d')) as H. rewrite Ho in H.
  destruct (open_dir cfg' (reboot d')) as [y1|e r] eqn:E1; [|contradiction].
  exists (sys2_of y1). split; [unfold zinit; rewrite E1; reflexivity|].
  intros z2 H2. apply (C05_next_instance_contracts cfg cfg' z1 d' z2 Hr Hi H2).
Qed.

(* a deterministic fault-free schedule: after each API call the pending effects are
   performed and the worker runs until it is idle *)
Definition step_ev (z : sys2) : option zev :=
  match z_todo z with
  | _ :: _ => Some ZEff
  | [] =>
    match w_batch (z_w z) with
    | Some _ => Some (ZWork true)
    | None => match z_queue z with _ :: _ => Some (ZRecv 0 false) | [] => None end
    end
  end.
Fixpoint settle (fuel : nat) (z : sys2) : list zev * sys2 :=
  match fuel with
  | O => ([], z)
  | S n =>
    match step_ev z with
    | None => ([], z)
    | Some e =>
      match zstep z e with
      | Some (z', _) => let '(es, zf) := settle n z' in (e :: es, zf)
      | None => ([], z)
      end
    end
  end.
Fixpoint sched (fuel : nat) (z : sys2) (calls : list zev) : list zev :=
  match calls with
  | [] => []
  | c :: r =>
    match zstep z c with
    | None => [c]
    | Some (z', _) => let '(es, zf) := settle fuel z' in c :: es ++ sched fuel zf r
    end
  end.

(* fault-freeness, idleness and the drop alone do not make the worker track one file: a
   rotation not followed by a flush leaves two (the older one is synced all the same,
   but the invariant [AckDurable.cinv] does not record that) *)
Definition w2_cfg : config := mkConfig 10 1000 2 1000 true.
Definition w2_events : list zev :=
  sched 100 (zstart w2_cfg) [ZCall (OW (OAppend [((1, 0), [])])); ZDrop].

(* coqchk re-evaluates a [vm_compute] step with the kernel's lazy machine, several times slower than the VM:
   each run is evaluated in one lemma, against a constant holding its normal form, and every fact is read off the
   constant; otherwise every [vm_compute; reflexivity] about the state would run the whole run again. *)
Definition w2_events_nf : list zev := Eval vm_compute in w2_events.
Lemma w2_events_eq : w2_events = w2_events_nf.
Proof. vm_compute. reflexivity. Qed.
Definition w2_z_nf : sys2 :=
  Eval vm_compute in match zrun (zstart w2_cfg) w2_events_nf with Some (z, _) => z | None => zstart w2_cfg end.
Definition w2_vis_nf : list vis :=
  Eval vm_compute in match zrun (zstart w2_cfg) w2_events_nf with Some (_, v) => v | None => [] end.
Lemma w2_run_eq : zrun (zstart w2_cfg) w2_events_nf = Some (w2_z_nf, w2_vis_nf).
Proof. vm_compute. reflexivity. Qed.

Example ff_idle_two_files : exists z,
  zreach_ff w2_cfg z /\ z_dropped z = true /\ worker_idle2 z /\
  map wf_id (w_files (z_w z)) = [0; 50] /\ older_synced (z_disk z).
Proof.
  exists w2_z_nf. split.
  { exists (zstart w2_cfg), w2_events, w2_vis_nf. split; [apply zinit_eq|]. rewrite w2_events_eq.
    split; [vm_compute; reflexivity|exact w2_run_eq]. }
  split; [reflexivity|]. split; [repeat split|]. split; [reflexivity|].
  vm_compute. repeat constructor.
Qed.

(* two incarnations.  Instance 1 (two records per chunk): two appends, each filling a chunk
   (two rotations), flush, drop; the worker drains.  Instance 2 on its directory (three
   records per chunk, zero-size cache): append, flush with callback (acknowledged), purge
   of (1,0) (fills the chunk: rotation; the oldest chunk becomes obsolete), flush: the
   file 0 is unlinked. *)
Definition d2_cfg1 : config := mkConfig 10 1000 2 1000 true.
Definition d2_cfg2 : config := mkConfig 0 0 3 1000 true.
Definition d2_events1 : list zev :=
  sched 100 (zstart d2_cfg1)
    [ZCall (OW (OAppend [((1, 0), [])])); ZCall (OW (OAppend [((1, 1), [])])); ZCall (OFlush false); ZDrop].
Definition d2_dir : disk :=
  match zrun (zstart d2_cfg1) d2_events1 with Some (z, _) => z_disk z | None => [] end.
Definition d2_events2 : list zev :=
  match zinit d2_cfg2 d2_dir with
  | Some z0 => sched 100 z0 [ZCall (OW (OAppend [((1, 2), [])])); ZCall (OFlush true);
                             ZCall (OW (OPurge (1, 0))); ZCall (OFlush false)]
  | None => []
  end.

(* in this order: each [_eq] lemma first rewrites with those before it ([d2_events2_eq] with [d2_dir_eq] and
   [d2_init2_eq]) and only then evaluates, on constants, so that no earlier run is evaluated again *)
Definition d2_events1_nf : list zev := Eval vm_compute in d2_events1.
Lemma d2_events1_eq : d2_events1 = d2_events1_nf.
Proof. vm_compute. reflexivity. Qed.
Definition d2_z1_nf : sys2 :=
  Eval vm_compute in match zrun (zstart d2_cfg1) d2_events1_nf with Some (z, _) => z | None => zstart d2_cfg1 end.
Definition d2_vis1_nf : list vis :=
  Eval vm_compute in match zrun (zstart d2_cfg1) d2_events1_nf with Some (_, v) => v | None => [] end.
Lemma d2_run1_eq : zrun (zstart d2_cfg1) d2_events1_nf = Some (d2_z1_nf, d2_vis1_nf).
Proof. vm_compute. reflexivity. Qed.
Lemma d2_dir_eq : d2_dir = z_disk d2_z1_nf.
Proof. unfold d2_dir. rewrite d2_events1_eq, d2_run1_eq. reflexivity. Qed.
Definition d2_z02_nf : sys2 :=
  Eval vm_compute in match zinit d2_cfg2 (z_disk d2_z1_nf) with Some z => z | None => zstart d2_cfg2 end.
Lemma d2_init2_eq : zinit d2_cfg2 (z_disk d2_z1_nf) = Some d2_z02_nf.
Proof. vm_compute. reflexivity. Qed.
Definition d2_events2_nf : list zev := Eval vm_compute in d2_events2.
Lemma d2_events2_eq : d2_events2 = d2_events2_nf.
Proof. unfold d2_events2. rewrite d2_dir_eq, d2_init2_eq. vm_compute. reflexivity. Qed.
Definition d2_z2_nf : sys2 :=
  Eval vm_compute in match zrun d2_z02_nf d2_events2_nf with Some (z, _) => z | None => d2_z02_nf end.
Definition d2_vis2_nf : list vis :=
  Eval vm_compute in match zrun d2_z02_nf d2_events2_nf with Some (_, v) => v | None => [] end.
Lemma d2_run2_eq : zrun d2_z02_nf d2_events2_nf = Some (d2_z2_nf, d2_vis2_nf).
Proof. vm_compute. reflexivity. Qed.

Lemma d2_chain : exists zl,
  chain [] [(d2_cfg1, d2_events1); (d2_cfg2, d2_events2)] zl /\
  map f_id d2_dir = [0; 50; 116] /\
  map f_id (z_disk zl) = [50; 116; 210] /\ disk_get 0 (z_disk zl) = None /\
  z_acks zl = [(0, true)] /\
  g_flushed (z_ghost zl) = [(Some 0, 182, 1%nat); (None, 260, 2%nat)] /\
  g_removals (z_ghost zl) = [([0], 260)] /\
  g_created (z_ghost zl) = [0; 50; 116; 210].
Proof.
  exists d2_z2_nf. split.
  { cbn [chain]. exists (zstart d2_cfg1), d2_z1_nf, d2_vis1_nf. split; [apply zinit_eq|].
    split; [rewrite d2_events1_eq; exact d2_run1_eq|]. split; [repeat split; vm_compute; reflexivity|].
    exists d2_z02_nf, d2_z2_nf, d2_vis2_nf. split; [exact d2_init2_eq|].
    split; [rewrite d2_events2_eq; exact d2_run2_eq|reflexivity]. }
  rewrite d2_dir_eq. repeat split; vm_compute; reflexivity.
Qed.

Example two_incarnations : exists zl,
  chain [] [(d2_cfg1, d2_events1); (d2_cfg2, d2_events2)] zl /\
  forallb ev_fault_free (d2_events1 ++ d2_events2) = true /\ last d2_events1 ZEff = ZDrop /\
  (* the contracts of the second instance, instantiated *)
  acked_durable zl /\ removed_after_durable zl /\ files_contiguous zl /\ acks_in_order zl /\
  Forall (fun f => (f_synced f <= N.of_nat (length (f_data f)))%N) (z_disk zl) /\
  In (0, true) (z_acks zl) /\ durable_upto (z_disk zl) 182 /\
  disk_get 0 (z_disk zl) = None /\ durable_upto (z_disk zl) 260.
Proof.
  destruct d2_chain as (zl & Hc & _ & Hids & H0 & Ha & Hf & Hrm & _).
  exists zl. split; [exact Hc|]. rewrite d2_events1_eq, d2_events2_eq.
  split; [vm_compute; reflexivity|]. split; [vm_compute; reflexivity|].
  destruct (C14_incarnations_contracts _ _ Hc) as (K1 & K2 & K3 & K4 & K5).
  split; [exact K1|]. split; [exact K2|]. split; [exact K3|]. split; [exact K4|]. split; [exact K5|].
  assert (Hack : In (0, true) (z_acks zl)) by (rewrite Ha; left; reflexivity).
  split; [exact Hack|]. split.
  - apply (K1 0 182 1%nat); [rewrite Hf; left; reflexivity|exact Hack].
  - split; [exact H0|]. apply (K2 [0] 260 0); [rewrite Hrm; left; reflexivity|left; reflexivity|exact H0].
Qed.

Print Assumptions idle_leaves_good_dir_from.
Print Assumptions drop_leaves_good_dir.
Print Assumptions C14_next_instance_contracts.
Print Assumptions C14_next_instance_starts.
Print Assumptions chain_contracts.
Print Assumptions C14_incarnations_contracts.
Print Assumptions reboot_good_dir.
Print Assumptions C05_next_instance_contracts.
Print Assumptions open_dir_deq.
Print Assumptions C05_reboot_next_instance.
Print Assumptions ff_idle_two_files.
Print Assumptions two_incarnations.
