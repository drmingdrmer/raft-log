(* C16, the read path: no ITEM of a read is a panic. [RIPanic] has two sources: [read_record]
   returns [Panic] when the segment offset lies below the start of the chunk (the u64 subtraction
   [segment.offset - global_start] of Chunk::read_record underflows: a panic in debug builds), and
   [load_payload] panics when the record it decodes is not an [RAppend]. Under the journal invariant
   every index entry of a closed chunk points at its own Append record INSIDE that chunk's file, and
   the file on disk is a byte prefix of the logical file (C11_read_record_is_append): a read sees
   its own record or too few bytes, never another. *)
From Coq Require Import List NArith Lia.
From RaftLog Require Import Model.Types Model.Codec Model.Cache Model.Core Model.Recover Model.Run.
From RaftLog Require Import Proofs.JournalDisk Proofs.JournalChunk Proofs.JournalFacts.
From RaftLog Require Proofs.NoPanic Proofs.CacheRestart.
From RaftLog Require Import Model.Sys Spec.Durable.
From RaftLog Require Proofs.CrashBase Proofs.CrashJournal Proofs.CrashSteps.
Import ListNotations.
Local Open Scope N_scope.

Lemma closed_get_some : forall id cl c, closed_get id cl = Some c ->
  In c cl /\ ck_id (cl_chunk c) = id.
Proof.
  intros id cl c. induction cl as [|c0 r IH]; cbn [closed_get]; [discriminate|].
  destruct (N.eqb_spec id (ck_id (cl_chunk c0))) as [E|E]; intros H.
  - inversion H; subst c0. split; [now left|now symmetry].
  - destruct (IH H) as [H1 H2]. split; [now right|exact H2].
Qed.

Lemma load_payload_no_panic cl d ld : reads_own cl d ld -> load_payload cl d ld <> RIPanic.
Proof.
  intros H. unfold load_payload. destruct (closed_get (ld_chunk ld) cl) as [c|] eqn:Eg; [|discriminate].
  destruct (closed_get_some _ _ _ Eg) as [Hc Eid].
  destruct (H c Hc Eid) as [[p E]|E]; rewrite E; discriminate.
Qed.

Lemma read_items_no_panic ch cl d : forall m hit miss,
  (forall i ld, In (i, ld) m -> reads_own cl d ld) ->
  ~ In RIPanic (fst (fst (read_items ch cl d m hit miss))).
Proof.
  induction m as [|[i ld] m IH]; intros hit miss H; cbn [read_items]; [intros []|].
  assert (Hm : forall i0 ld0, In (i0, ld0) m -> reads_own cl d ld0).
  { intros i0 ld0 Hin. apply (H i0 ld0). now right. }
  destruct (ent_get (ld_id ld) (ch_entries ch)) as [p|].
  - specialize (IH (hit + 1) miss Hm).
    destruct (read_items ch cl d m (hit + 1) miss) as [[items h] ms]. cbn [fst] in *.
    intros [E|Hin]; [discriminate|auto].
  - specialize (IH hit (miss + 1) Hm).
    destruct (read_items ch cl d m hit (miss + 1)) as [[items h] ms]. cbn [fst] in *.
    intros [E|Hin]; [|auto].
    apply (load_payload_no_panic cl d ld); [|exact E]. apply (H i ld). now left.
Qed.


Lemma do_read_no_panic k d from to :
  (forall i ld, In (i, ld) (m_log (k_sm k)) -> reads_own (k_closed k) d ld) ->
  ~ In RIPanic (snd (do_read k d from to)).
Proof.
  intros H. unfold do_read.
  pose proof (read_items_no_panic (m_cache (k_sm k)) (k_closed k) d
                (lm_range from (N.max to from) (m_log (k_sm k))) (k_hit k) (k_miss k)) as Hn.
  destruct (read_items (m_cache (k_sm k)) (k_closed k) d
              (lm_range from (N.max to from) (m_log (k_sm k))) (k_hit k) (k_miss k)) as [[items h] ms].
  cbn [fst snd] in *. apply Hn. intros i ld Hin. apply NoPanic.lm_range_in in Hin. apply (H i ld), Hin.
Qed.

Lemma do_dump_iter_no_panic k d :
  (forall i ld, In (i, ld) (m_log (k_sm k)) -> reads_own (k_closed k) d ld) ->
  ~ In RIPanic (do_dump_iter k d).
Proof.
  intros H. unfold do_dump_iter.
  pose proof (read_items_no_panic (m_cache (k_sm k)) (k_closed k) d (m_log (k_sm k)) 0 0 H) as Hn.
  destruct (read_items (m_cache (k_sm k)) (k_closed k) d (m_log (k_sm k)) 0 0) as [[items h] ms].
  exact Hn.
Qed.

Theorem jw_read_no_panic : forall y, journal_wf y ->
  (forall from to, ~ In RIPanic (snd (do_read (y_core y) (y_disk y) from to))) /\
  ~ In RIPanic (do_dump_iter (y_core y) (y_disk y)).
Proof.
  intros y JW. split; [intros from to; apply do_read_no_panic|apply do_dump_iter_no_panic];
    intros i ld Hl c Hc Eid; exact (C11_read_record_is_append y i ld c JW Hl Hc Eid).
Qed.

(* the subtraction [off - ck_id c] of read_record never underflows for an index entry and
   the closed chunk that load_payload looks up for it *)
Theorem C16_read_record_no_underflow : forall y i ld c, journal_wf y ->
  In (i, ld) (m_log (k_sm (y_core y))) ->
  closed_get (ld_chunk ld) (k_closed (y_core y)) = Some c ->
  ck_id (cl_chunk c) <= ld_off ld.
Proof.
  intros y i ld c JW Il Hg. destruct (closed_get_some _ _ _ Hg) as [Ic Eid].
  pose proof (jw_inv _ JW) as J.
  pose proof (ji_log _ _ _ J) as HL. rewrite Forall_forall in HL.
  destruct (HL _ Il) as (_ & _ & Hseg). cbn [snd] in Hseg.
  assert (Iid : In (ld_chunk ld) (ids (logical y))).
  { rewrite (ji_ids _ _ _ J), <- Eid. unfold chunk_ids. apply in_app_iff. right.
    apply in_app_iff. left. unfold closed_ids.
    apply (in_map (fun c => ck_id (cl_chunk c))). assumption. }
  destruct (Hseg Iid) as (pre & p & post & _ & _ & Eoff & _). unfold blen in Eoff. lia.
Qed.

Corollary C16_read_record_no_panic : forall y i ld c, journal_wf y ->
  In (i, ld) (m_log (k_sm (y_core y))) ->
  closed_get (ld_chunk ld) (k_closed (y_core y)) = Some c ->
  read_record (y_disk y) (cl_chunk c) (ld_off ld) (ld_len ld) <> Panic.
Proof.
  intros y i ld c JW Il Hg. destruct (closed_get_some _ _ _ Hg) as [Ic Eid].
  destruct (C11_read_record_is_append y i ld c JW Il Ic Eid) as [[p E]|E]; rewrite E; discriminate.
Qed.

(* the branch is live in the model: an offset below the chunk's start panics (before any
   I/O: the directory is empty here) *)
Example read_record_underflow_panics : read_record [] (mkChunk 10 [28]) 9 1 = Panic.
Proof. reflexivity. Qed.

Lemma read_record_panic_iff d c off len : read_record d c off len = Panic <-> off < ck_id c.
Proof.
  unfold read_record. destruct (N.ltb_spec off (ck_id c)) as [H|H].
  - split; auto.
  - split; [|lia]. destruct (disk_get (ck_id c) d) as [f|]; [|discriminate].
    destruct (N.ltb _ _); [discriminate|].
    destruct (dec_record _) as [[r rest]| |]; discriminate.
Qed.

(* any history of well-formed operations from an empty directory, restarts anywhere (any
   configuration, cache limits 0 included), every write kind except update_state *)
Theorem C16_read_items_no_panic : forall cfg ops res y,
  forallb CacheRestart.op_c15 ops = true -> Forall op_wf ops ->
  run_case cfg ops = (res, Some y) ->
  (forall from to, ~ In RIPanic (snd (do_read (y_core y) (y_disk y) from to))) /\
  ~ In RIPanic (do_dump_iter (y_core y) (y_disk y)).
Proof.
  intros cfg ops res y Hc Hw H. apply jw_read_no_panic.
  exact (CacheRestart.C11_invariant_restarts cfg ops res y Hc Hw H).
Qed.

(* update_state INCLUDED, restarts excluded *)
Theorem C16_read_items_no_panic_update_state : forall cfg ops res y,
  ops_c11 ops = true -> Forall op_wf ops ->
  run_case cfg ops = (res, Some y) ->
  (forall from to, ~ In RIPanic (snd (do_read (y_core y) (y_disk y) from to))) /\
  ~ In RIPanic (do_dump_iter (y_core y) (y_disk y)).
Proof.
  intros cfg ops res y Hc Hw H. apply jw_read_no_panic.
  exact (C11_invariant cfg ops res y Hc Hw H).
Qed.

Lemma run_op_read y o items : snd (run_op y o) = ResRead items ->
  (exists from to, items = snd (do_read (y_core y) (y_disk y) from to)) \/
  items = do_dump_iter (y_core y) (y_disk y).
Proof.
  destruct o as [w|cb|from to| | | | | |cfg']; cbn [run_op]; intros H.
  - destruct (do_write (y_core y) w) as [[[k r] effs]|]; discriminate.
  - destruct (do_flush (y_core y) cb). discriminate.
  - left. exists from, to. destruct (do_read (y_core y) (y_disk y) from to) as [k its].
    cbn [snd] in *. now inversion H.
  - right. cbn [snd] in H. now inversion H.
  - discriminate.
  - discriminate.
  - discriminate.
  - discriminate.
  - destruct (open_dir cfg' (y_disk (worker_idle y))); discriminate.
Qed.

(* the run-level statement: every read of the run, not only one after it *)
Theorem C16_run_reads_no_panic : forall cfg ops res fin,
  forallb CacheRestart.op_c15 ops = true -> Forall op_wf ops ->
  run_case cfg ops = (res, fin) ->
  forall items, In (ResRead items) res -> ~ In RIPanic items.
Proof.
  intros cfg ops res fin Hc Hw H items Hin. unfold run_case in H. rewrite open_dir_nil in H.
  assert (Hok : Forall (fun o => CacheRestart.op_c15 o = true /\ op_wf o) ops).
  { rewrite forallb_forall in Hc. rewrite Forall_forall in *. intros o Ho. split; [exact (Hc o Ho)|exact (Hw o Ho)]. }
  assert (G : Forall (fun r => forall its, r = ResRead its -> ~ In RIPanic its) res).
  2: { rewrite Forall_forall in G. exact (G _ Hin items eq_refl). }
  refine (SmFacts.run_ops_results CacheRestart.JIC _ _ _ ops _ res fin (CacheRestart.JIC_init cfg) Hok H).
  intros y o HC [Ho Hwo]. split.
  - intros its Er. destruct (jw_read_no_panic y (CacheRestart.JI_jw _ (proj1 HC))) as [Hrd Hdu].
    destruct (run_op_read y o its Er) as [(from & to & ->)| ->]; [apply Hrd|exact Hdu].
  - intros y' E. destruct (run_op y o) as [oy r] eqn:Eo. cbn [fst] in E. subst oy.
    exact (CacheRestart.JIC_run_op y o y' r HC Ho Hwo Eo).
Qed.

Print Assumptions C16_read_record_no_underflow.
Print Assumptions C16_read_record_no_panic.
Print Assumptions read_record_underflow_panics.
Print Assumptions read_record_panic_iff.
Print Assumptions C16_read_items_no_panic.
Print Assumptions C16_read_items_no_panic_update_state.
Print Assumptions C16_run_reads_no_panic.

(* a cache of zero items, chunks of four records: three appends fill chunk 0 (rotation to
   chunk 114), flush, idle; truncate everything and re-append (1,0): the read returns an
   error item (finding F2 of C07: the entry sits in the open chunk and is evicted); flush,
   restart (again with a zero cache), one more append fills chunk 114 (rotation, its tail
   still queued): the read returns (1,0) from disk and an error item for (1,1).  Error
   items, but no panic item. *)
Definition rn_cfg : config := mkConfig 0 0 4 100000 true.
Definition rn_ops : list op :=
  [OW (OAppend [((5, 0), []); ((5, 1), []); ((5, 2), [])]); OFlush true; OIdle;
   OW (OTruncate 0); OW (OAppend [((1, 0), [])]); ORead 0 1; OFlush false; ORestart rn_cfg;
   OW (OAppend [((1, 1), [])]); ORead 0 5].

Example C16_read_items_nonvacuous : exists res y,
  forallb CacheRestart.op_c15 rn_ops = true /\ Forall op_wf rn_ops /\
  c_max_items rn_cfg = 0 /\ c_capacity rn_cfg = 0 /\
  run_case rn_cfg rn_ops = (res, Some y) /\
  res = [ResW (WOk 82 32); ResUnit; ResUnit; ResW (WOk 148 13); ResW (WOk 161 32);
         ResRead [RIErr KNotFound]; ResUnit; ResOpened; ResW (WOk 193 32);
         ResRead [RIOk (1, 0) []; RIErr KUnexpectedEof]] /\
  map (fun c => ck_id (cl_chunk c)) (k_closed (y_core y)) = [0; 114] /\
  snd (do_read (y_core y) (y_disk y) 0 5) = [RIOk (1, 0) []; RIErr KUnexpectedEof] /\
  do_dump_iter (y_core y) (y_disk y) = [RIOk (1, 0) []; RIErr KUnexpectedEof].
Proof.
  (* only what is claimed of [res] and [y] is evaluated, in one step: the kernel's lazy machine, which
     coqchk uses for a [vm_compute] step, does not normalise the rest of the state *)
  set (r := run_case rn_cfg rn_ops).
  assert (H : match r with
              | (res, Some y) =>
                Some (res, map (fun c => ck_id (cl_chunk c)) (k_closed (y_core y)),
                      snd (do_read (y_core y) (y_disk y) 0 5), do_dump_iter (y_core y) (y_disk y))
              | (_, None) => None
              end = Some ([ResW (WOk 82 32); ResUnit; ResUnit; ResW (WOk 148 13); ResW (WOk 161 32);
                           ResRead [RIErr KNotFound]; ResUnit; ResOpened; ResW (WOk 193 32);
                           ResRead [RIOk (1, 0) []; RIErr KUnexpectedEof]],
                          [0; 114], [RIOk (1, 0) []; RIErr KUnexpectedEof],
                          [RIOk (1, 0) []; RIErr KUnexpectedEof])) by (vm_compute; reflexivity).
  clearbody r. destruct r as [res [y|]]; [|discriminate H]. injection H as H1 H2 H3 H4.
  exists res, y. split; [reflexivity|]. split.
  { unfold rn_ops. repeat constructor; cbn; unfold wf_pair, wf_u64, wf_bytes; cbn; lia. }
  auto 10.
Qed.

Print Assumptions C16_read_items_nonvacuous.


(* Every reachable state of the caller / flush worker / file system (any interleaving, the
   worker at ANY position: bytes buffered in the caller, queued, received, partly written;
   injected write/sync/unlink failures and worker death included; histories with
   update_state included): no item of a read or of a dump iteration is a panic. *)
Theorem C16_read_items_no_panic_sys : forall cfg z,
  zreach cfg z -> CrashSteps.hist_wf z ->
  (forall from to, ~ In RIPanic (snd (do_read (z_core z) (z_disk z) from to))) /\
  ~ In RIPanic (do_dump_iter (z_core z) (z_disk z)).
Proof.
  intros cfg z Hr Hw. destruct (CrashSteps.L2_journal cfg z Hr Hw) as [G J].
  pose proof (CrashJournal.gi_jinv _ _ _ _ (CrashSteps.ji_gi _ _ J)) as Ji.
  pose proof (CrashSteps.ji_hw _ _ J) as HW.
  assert (H : forall i ld, In (i, ld) (m_log (k_sm (z_core z))) ->
                           reads_own (k_closed (z_core z)) (z_disk z) ld).
  { apply (jinv_reads_own _ _ _ _ Ji). intros id f _ Hg.
    assert (Hin : In id (map f_id (z_disk z) ++ CrashBase.creates (z_todo z))).
    { apply in_or_app. left. apply JournalDisk.In_ids_get. congruence. }
    destruct (HW id Hin) as [t Et]. unfold CrashBase.data_of in Et. rewrite Hg in Et.
    exists (CrashBase.theads (z_todo z) id ++ t). now rewrite Et, app_assoc. }
  split; [intros from to; now apply do_read_no_panic|now apply do_dump_iter_no_panic].
Qed.

Corollary C16_sys_reads_no_panic : forall cfg z e z' v items,
  zreach cfg z -> CrashSteps.hist_wf z -> zstep z e = Some (z', v) ->
  In (VResult (ResRead items)) v -> ~ In RIPanic items.
Proof.
  intros cfg z e z' v items Hr Hw Hs Hin.
  destruct (C16_read_items_no_panic_sys cfg z Hr Hw) as [Hrd Hdu].
  destruct e as [o| |k nf|ok|]; cbn [zstep] in Hs.
  - (* only a read and a dump iteration return items *)
    apply AckFacts.zcall_inv in Hs. destruct Hs as (_ & _ & C).
    destruct C as [w k r effs E|cb k effs E|from to k its E| |o r E]; destruct Hin as [Ei|[]]; try discriminate Ei.
    + inversion Ei; subst its. specialize (Hrd from to). rewrite E in Hrd. exact Hrd.
    + inversion Ei; subst r. destruct o; try discriminate E.
      * inversion E. exact Hdu.
      * cbn [AckFacts.observe] in E. destruct (z_queue z); [destruct (worker_quiet z)|]; discriminate E.
  - apply AckFacts.zeff_inv in Hs. destruct Hs; cbn [In] in Hin; try contradiction; destruct Hin as [Ei|[]]; discriminate Ei.
  - apply AckFacts.zrecv_inv in Hs. destruct Hs as [-> _]. destruct Hin.
  - apply AckFacts.zwork_inv in Hs. destruct Hs as (b & _ & _ & W).
    destruct W as [| x F| | | | | | | | | | |]; cbn [In] in Hin; try contradiction;
      destruct Hin as [Ei|[]]; try discriminate Ei.
    destruct F; discriminate Ei.
  - apply AckFacts.zdrop_inv in Hs. destruct Hs as (_ & -> & _). destruct Hin.
Qed.

Print Assumptions C16_read_items_no_panic_sys.
Print Assumptions C16_sys_reads_no_panic.
